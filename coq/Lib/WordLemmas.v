(* Lemmas about Lib/Word.v: every word operation characterised by div / mod / testbit. *)
From Coq Require Import ZArith Lia Bool.
From BioVerif Require Import Lib.Word.

Lemma pow2_pos n : 0 <= n -> 0 < 2 ^ n.
Proof. intros; apply Z.pow_pos_nonneg; lia. Qed.

Lemma pow2_split n m : 0 <= n <= m -> 2 ^ m = 2 ^ (m - n) * 2 ^ n.
Proof. intros; rewrite <- Z.pow_add_r by lia; f_equal; lia. Qed.

Lemma wrap_mod w z : 0 <= w -> wrap w z = z mod 2 ^ w.
Proof. intros; unfold wrap; apply Z.land_ones; lia. Qed.

Lemma wrap_small w z : 0 <= z < 2 ^ w -> wrap w z = z.
Proof.
  intros H. destruct (Z_lt_le_dec w 0) as [Hw | Hw].
  - rewrite Z.pow_neg_r in H by lia; lia.
  - rewrite wrap_mod by lia. apply Z.mod_small; lia.
Qed.

Lemma wrap_range w z : 0 <= w -> 0 <= wrap w z < 2 ^ w.
Proof. intros; rewrite wrap_mod by lia; apply Z.mod_pos_bound, pow2_pos; lia. Qed.

Lemma wsub_small w a b : 0 <= b <= a -> a < 2 ^ w -> wsub w a b = a - b.
Proof. intros; unfold wsub; apply wrap_small; lia. Qed.

Lemma wsub_wrap w a b : 0 <= a < b -> b <= 2 ^ w -> wsub w a b = 2 ^ w + a - b.
Proof.
  intros H1 H2. assert (Hw : 0 <= w).
  { destruct (Z_lt_le_dec w 0) as [Hw | Hw]; [rewrite Z.pow_neg_r in H2 by lia; lia | lia]. }
  unfold wsub. rewrite wrap_mod by lia.
  symmetry; apply Z.mod_unique with (q := -1); lia.
Qed.

Lemma wadd_small w a b : 0 <= a -> 0 <= b -> a + b < 2 ^ w -> wadd w a b = a + b.
Proof. intros; unfold wadd; apply wrap_small; lia. Qed.

Lemma wminu_min a b : wminu a b = Z.min a b.
Proof. unfold wminu. destruct (Z.ltb_spec a b); lia. Qed.

Lemma testbit_high w a i : 0 <= a < 2 ^ w -> w <= i -> Z.testbit a i = false.
Proof.
  intros Ha Hi.
  destruct (Z_lt_le_dec w 0) as [Hw | Hw].
  - rewrite Z.pow_neg_r in Ha by lia; lia.
  - rewrite <- (Z.mod_small a (2 ^ w)) by lia.
    apply Z.mod_pow2_bits_high; lia.
Qed.

Lemma wshl_spec w x n : 0 <= w -> 0 <= n -> wshl w x n = (x * 2 ^ n) mod 2 ^ w.
Proof.
  intros Hw Hn; unfold wshl. rewrite wrap_mod by lia.
  destruct (w <=? n) eqn:E.
  - apply Z.leb_le in E.
    rewrite (pow2_split w n) by lia.
    rewrite Z.mul_assoc, Z.mod_mul; [reflexivity | pose proof (pow2_pos w); lia].
  - rewrite Z.shiftl_mul_pow2 by lia; reflexivity.
Qed.

Lemma wshl_small w x n : 0 <= w -> 0 <= n -> 0 <= x -> x * 2 ^ n < 2 ^ w -> wshl w x n = x * 2 ^ n.
Proof.
  intros; rewrite wshl_spec by lia; apply Z.mod_small.
  pose proof (pow2_pos n); nia.
Qed.

Lemma wshr_spec w x n : 0 <= n -> 0 <= x < 2 ^ w -> wshr w x n = x / 2 ^ n.
Proof.
  intros Hn Hx; unfold wshr.
  destruct (w <=? n) eqn:E.
  - apply Z.leb_le in E.
    destruct (Z_lt_le_dec w 0) as [Hw | Hw].
    + rewrite Z.pow_neg_r in Hx by lia; lia.
    + symmetry; apply Z.div_small. pose proof (Z.pow_le_mono_r 2 w n); lia.
  - apply Z.shiftr_div_pow2; lia.
Qed.

Lemma div_pow2_range w x n : 0 <= n <= w -> 0 <= x < 2 ^ w -> 0 <= x / 2 ^ n < 2 ^ (w - n).
Proof.
  intros Hn Hx. pose proof (pow2_pos n).
  split; [apply Z.div_pos; lia|].
  apply Z.div_lt_upper_bound; [lia|]. rewrite Z.mul_comm, <- pow2_split; lia.
Qed.

(* MaxUintW << n : the mask of the high w-n bits *)
Lemma mask_high w n : 0 <= w -> 0 <= n ->
  wshl w (maxu w) n = if n <? w then 2 ^ w - 2 ^ n else 0.
Proof.
  intros Hw Hn; unfold wshl, maxu. rewrite wrap_mod by lia.
  destruct (w <=? n) eqn:E; destruct (n <? w) eqn:F; try lia; try reflexivity.
  rewrite Z.shiftl_mul_pow2 by lia.
  pose proof (Z.pow_lt_mono_r 2 n w ltac:(lia) ltac:(lia) ltac:(lia)). pose proof (pow2_pos n ltac:(lia)).
  symmetry; apply Z.mod_unique with (q := 2 ^ n - 1); lia.
Qed.

Lemma pow2_diff_shiftl w n : 0 <= n <= w -> 2 ^ w - 2 ^ n = Z.shiftl (Z.ones (w - n)) n.
Proof.
  intros; rewrite Z.ones_equiv, Z.shiftl_mul_pow2 by lia.
  rewrite (pow2_split n w) by lia; lia.
Qed.

Lemma land_high_mask w n a : 0 <= n <= w -> 0 <= a < 2 ^ w ->
  Z.land a (2 ^ w - 2 ^ n) = a / 2 ^ n * 2 ^ n.
Proof.
  intros Hn Ha.
  rewrite pow2_diff_shiftl by lia.
  rewrite <- Z.shiftr_div_pow2, <- Z.shiftl_mul_pow2 by lia.
  apply Z.bits_inj'; intros i Hi.
  rewrite Z.land_spec, !Z.shiftl_spec by lia.
  destruct (Z_lt_le_dec i n) as [L | L].
  - rewrite !(Z.testbit_neg_r _ (i - n)) by lia. apply andb_false_r.
  - rewrite Z.shiftr_spec by lia. replace (i - n + n) with i by lia.
    destruct (Z_lt_le_dec i w) as [L2 | L2].
    + rewrite Z.ones_spec_low by lia. apply andb_true_r.
    + rewrite Z.ones_spec_high by lia. rewrite (testbit_high w a i) by lia. reflexivity.
Qed.

Lemma div_mul_pow2_range w n a : 0 <= n -> 0 <= a < 2 ^ w -> 0 <= a / 2 ^ n * 2 ^ n < 2 ^ w.
Proof.
  intros Hn Ha. pose proof (pow2_pos n ltac:(lia)).
  pose proof (Z.mul_div_le a (2 ^ n) ltac:(lia)).
  pose proof (Z.div_pos a (2 ^ n) ltac:(lia) ltac:(lia)). nia.
Qed.

Lemma land_ones_mod a n : 0 <= n -> Z.land a (2 ^ n - 1) = a mod 2 ^ n.
Proof. intros; rewrite <- Z.land_ones by lia. rewrite Z.ones_equiv; reflexivity. Qed.

Lemma shl_zero_iff w k x : 0 <= k <= w ->
  ((x * 2 ^ k) mod 2 ^ w = 0 <-> x mod 2 ^ (w - k) = 0).
Proof.
  intros Hk. rewrite (pow2_split k w) by lia.
  pose proof (pow2_pos k ltac:(lia)). pose proof (pow2_pos (w - k) ltac:(lia)).
  rewrite Z.mul_mod_distr_r by lia. nia.
Qed.

Lemma wshl_eqb_zero w x n : 0 <= n <= w -> (wshl w x (w - n) =? 0) = (x mod 2 ^ n =? 0).
Proof.
  intros Hn. rewrite wshl_spec by lia.
  pose proof (shl_zero_iff w (w - n) x ltac:(lia)) as H. replace (w - (w - n)) with n in H by lia.
  destruct (Z.eqb_spec (x mod 2 ^ n) 0) as [E | E].
  - apply Z.eqb_eq, H, E.
  - apply Z.eqb_neq. intros F. apply E, H, F.
Qed.

Lemma land_wshl_maxu w n a : 0 < w -> 0 <= n -> 0 <= a < 2 ^ w ->
  Z.land a (wshl w (maxu w) n) = a / 2 ^ n * 2 ^ n.
Proof.
  intros Hw Hn Ha. rewrite mask_high by lia.
  destruct (n <? w) eqn:E.
  - apply Z.ltb_lt in E. apply land_high_mask; lia.
  - apply Z.ltb_ge in E. rewrite Z.land_0_r.
    rewrite Z.div_small; [reflexivity|]. pose proof (Z.pow_le_mono_r 2 w n); lia.
Qed.

Lemma maxu_ones w : maxu w = Z.ones w.
Proof. unfold maxu. rewrite Z.ones_equiv. reflexivity. Qed.

Lemma land_maxu w a : 0 <= a < 2 ^ w -> Z.land a (maxu w) = a.
Proof. intros Ha. rewrite maxu_ones. exact (wrap_small w a Ha). Qed.

Lemma mul_pow2_eqb a b n : 0 <= n -> (a * 2 ^ n =? b * 2 ^ n) = (a =? b).
Proof.
  intros Hn. pose proof (pow2_pos n Hn).
  destruct (Z.eqb_spec a b) as [->|Hne]; [apply Z.eqb_refl|].
  apply Z.eqb_neq. nia.
Qed.

(* (x >> n) << n on a w-bit word does not overflow *)
Lemma wshl_wshr w x n : 0 <= w -> 0 <= n -> 0 <= x < 2 ^ w ->
  wshl w (wshr w x n) n = x / 2 ^ n * 2 ^ n.
Proof.
  intros Hw Hn Hx. rewrite wshr_spec by lia. rewrite wshl_spec by lia.
  apply Z.mod_small, div_mul_pow2_range; lia.
Qed.

Lemma land_pow2 a n : 0 <= n -> Z.land a (2 ^ n) = if Z.testbit a n then 2 ^ n else 0.
Proof.
  intros Hn. apply Z.bits_inj'; intros i Hi.
  rewrite Z.land_spec, Z.pow2_bits_eqb by lia.
  destruct (Z.eqb_spec n i) as [->|Hne].
  - rewrite andb_true_r. destruct (Z.testbit a i); [rewrite Z.pow2_bits_true by lia; reflexivity | apply eq_sym, Z.bits_0].
  - rewrite andb_false_r. destruct (Z.testbit a n); [rewrite Z.pow2_bits_false by lia; reflexivity | apply eq_sym, Z.bits_0].
Qed.

Lemma land_pow2_nonzero a n : 0 <= n -> negb (Z.land a (2 ^ n) =? 0) = Z.testbit a n.
Proof.
  intros Hn; rewrite land_pow2 by lia.
  destruct (Z.testbit a n); [|reflexivity].
  pose proof (pow2_pos n Hn). destruct (Z.eqb_spec (2 ^ n) 0); [lia | reflexivity].
Qed.

Lemma wshl_one w n : 0 <= n -> wshl w 1 n = if n <? w then 2 ^ n else 0.
Proof.
  intros Hn. unfold wshl.
  destruct (w <=? n) eqn:E; destruct (n <? w) eqn:F; try lia; try reflexivity.
  rewrite Z.shiftl_mul_pow2, Z.mul_1_l by lia. apply wrap_small.
  pose proof (pow2_pos n Hn). pose proof (Z.pow_lt_mono_r 2 n w). lia.
Qed.

Lemma land_wshl_one w x n : 0 <= n ->
  negb (Z.land x (wshl w 1 n) =? 0) = if n <? w then Z.testbit x n else false.
Proof.
  intros Hn. rewrite wshl_one by lia.
  destruct (n <? w); [apply land_pow2_nonzero; lia | rewrite Z.land_0_r; reflexivity].
Qed.

Lemma lor_mul_pow2_low a b k : 0 <= b < 2 ^ k -> Z.lor (a * 2 ^ k) b = a * 2 ^ k + b.
Proof.
  intros Hb. rewrite <- Z.lxor_lor, <- Z.add_nocarry_lxor; try reflexivity;
    apply Z.bits_inj'; intros i Hi; rewrite Z.land_spec, Z.bits_0;
    (destruct (Z_lt_le_dec i k);
     [rewrite Z.mul_pow2_bits_low by lia; reflexivity
     | rewrite (testbit_high k b i) by lia; apply andb_false_r]).
Qed.

(* k' is passed beside k so that rewrite finds the literal exponent (56 and 64, ...) *)
Lemma mod_pow2_byte x k k' : 0 <= k -> k' = k + 8 ->
  x mod 2 ^ k' = (x / 2 ^ k) mod 256 * 2 ^ k + x mod 2 ^ k.
Proof.
  intros Hk ->. rewrite Z.pow_add_r by lia. change (2 ^ 8) with 256.
  rewrite Z.rem_mul_r by (pose proof (pow2_pos k Hk); lia). ring.
Qed.

Lemma testbit_decomp (a : Z) (w : Z) : 0 <= w ->
  a mod 2 ^ (w + 1) = Z.b2z (Z.testbit a w) * 2 ^ w + a mod 2 ^ w.
Proof.
  intros Hw. rewrite Z.pow_add_r, Z.pow_1_r by lia.
  pose proof (pow2_pos w Hw).
  rewrite Z.rem_mul_r by lia. rewrite Z.testbit_spec' by lia. ring.
Qed.

