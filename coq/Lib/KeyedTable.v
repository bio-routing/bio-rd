(* Association lists as the models write them: the first binding of a key wins, [put] overwrites in place
   or appends, [del] filters the key out, [sweep] rewrites or drops every binding in one pass.
   Every model defines its own copy of these functions over its own key test. Such a copy is convertible
   with the function here ([Adj.lookup] is [get N.eqb]: same fixpoint, same body), so a lemma of this file
   is used on the model's constant directly, by [exact] or [apply] with the model's [eqb_eq] as its first
   explicit argument. A lemma that needs no fact about the test takes the test itself in that place (its
   [Arguments] line leaves [eqb] explicit); the two about [sweep] alone mention no test and take neither.
   An instance has to be stated only where [rewrite] must see the model's constant. *)
From Coq Require Import List Bool Permutation.
Import ListNotations.
From BioVerif Require Import Lib.ListFacts.

Section Table.
  Variables K V : Type.
  Variable eqb : K -> K -> bool.
  Hypothesis eqb_eq : forall a b, eqb a b = true <-> a = b.

  Fixpoint get (k : K) (t : list (K * V)) : option V :=
    match t with
    | [] => None
    | (k', v) :: r => if eqb k' k then Some v else get k r
    end.

  Fixpoint put (k : K) (v : V) (t : list (K * V)) : list (K * V) :=
    match t with
    | [] => [(k, v)]
    | (k', v') :: r => if eqb k' k then (k', v) :: r else (k', v') :: put k v r
    end.

  Definition del (k : K) (t : list (K * V)) : list (K * V) :=
    filter (fun kv => negb (eqb (fst kv) k)) t.

  Fixpoint sweep (f : K -> V -> option V) (t : list (K * V)) : list (K * V) :=
    match t with
    | [] => []
    | (k, v) :: r => match f k v with Some v' => (k, v') :: sweep f r | None => sweep f r end
    end.

  Lemma get_in k t v : get k t = Some v -> In (k, v) t.
  Proof.
    induction t as [| [k' v'] r IH]; cbn [get]; intros H; [discriminate |].
    destruct (eqb k' k) eqn:E; [| right; apply IH, H].
    apply eqb_eq in E. injection H as ->. subst k'. left. reflexivity.
  Qed.

  Lemma get_none_notin k t : get k t = None -> ~ In k (map fst t).
  Proof.
    induction t as [| [k' v'] r IH]; cbn [get map fst]; intros H; [intros [] |].
    destruct (eqb k' k) eqn:E; [discriminate |].
    apply (eqb_neq_of eqb_eq) in E. intros [H1 | H1]; [exact (E H1) | exact (IH H H1)].
  Qed.

  Lemma notin_get_none k t : ~ In k (map fst t) -> get k t = None.
  Proof.
    intros H. destruct (get k t) as [v |] eqn:E; [| reflexivity].
    destruct H. exact (in_map fst _ _ (get_in k t v E)).
  Qed.

  Lemma in_get k v t : NoDup (map fst t) -> In (k, v) t -> get k t = Some v.
  Proof.
    intros Hnd Hin. destruct (get k t) as [v' |] eqn:E.
    - apply get_in in E. now injection (NoDup_map_inj_in fst _ _ _ Hnd Hin E eq_refl) as ->.
    - destruct (get_none_notin k t E (in_map fst _ _ Hin)).
  Qed.

  Lemma get_in_keys k t : In k (map fst t) <-> exists v, get k t = Some v.
  Proof.
    split; [| intros [v H]; exact (in_map fst _ _ (get_in k t v H))].
    intros H. destruct (get k t) as [v |] eqn:E; [eauto | destruct (get_none_notin k t E H)].
  Qed.

  Lemma get_filter_key (f : K -> bool) k t :
    get k (filter (fun kv => f (fst kv)) t) = if f k then get k t else None.
  Proof.
    induction t as [| [k' v] r IH]; cbn [filter get fst]; [destruct (f k); reflexivity |].
    destruct (eqb k' k) eqn:E.
    - apply eqb_eq in E. subst k'. destruct (f k); cbn [get]; [rewrite (eqb_refl_of eqb_eq); reflexivity | exact IH].
    - destruct (f k'); cbn [get]; [rewrite E |]; exact IH.
  Qed.

  Lemma get_put k k' v t : get k (put k' v t) = if eqb k' k then Some v else get k t.
  Proof.
    induction t as [| [k'' v''] r IH]; cbn [put get]; [reflexivity |].
    destruct (eqb k'' k') eqn:E; cbn [get].
    - apply eqb_eq in E. subst k''. destruct (eqb k' k); reflexivity.
    - rewrite IH. destruct (eqb k'' k) eqn:E2; [| reflexivity].
      apply eqb_eq in E2. subst k''. rewrite (eqb_sym_of eqb_eq), E. reflexivity.
  Qed.

  Lemma put_Forall (Q : V -> Prop) k v t :
    Forall (fun kv => Q (snd kv)) t -> Q v -> Forall (fun kv => Q (snd kv)) (put k v t).
  Proof.
    intros H Hv. induction H as [| [k' v'] r Hx Hr IH]; cbn [put]; [repeat constructor; exact Hv |].
    destruct (eqb k' k); constructor; assumption.
  Qed.

  Lemma put_keys k v t :
    map fst (put k v t) = match get k t with Some _ => map fst t | None => map fst t ++ [k] end.
  Proof.
    induction t as [| [k' v'] r IH]; cbn [put get map fst app]; [reflexivity |].
    destruct (eqb k' k); cbn [map fst]; [reflexivity |]. rewrite IH. destruct (get k r); reflexivity.
  Qed.

  Lemma put_keys_present k v t d : get k t = Some d -> map fst (put k v t) = map fst t.
  Proof. intros H. rewrite put_keys, H. reflexivity. Qed.

  Lemma put_keys_In k v t x : In x (map fst (put k v t)) <-> x = k \/ In x (map fst t).
  Proof.
    rewrite put_keys. destruct (get k t) as [d |] eqn:E.
    - split; [auto | intros [-> | H]; [apply get_in_keys; eauto | exact H]].
    - rewrite in_app_iff. cbn [In]. intuition.
  Qed.

  Lemma put_nodup k v t : NoDup (map fst t) -> NoDup (map fst (put k v t)).
  Proof.
    intros H. rewrite put_keys. destruct (get k t) eqn:E; [exact H |].
    apply NoDup_snoc; [exact H | exact (get_none_notin k t E)].
  Qed.

  Lemma put_length k v t :
    length (put k v t) = match get k t with Some _ => length t | None => S (length t) end.
  Proof.
    rewrite <- (map_length fst), put_keys. destruct (get k t); rewrite ?app_length, map_length; [reflexivity |].
    apply PeanoNat.Nat.add_1_r.
  Qed.

  Lemma get_del k k' t : get k (del k' t) = if eqb k' k then None else get k t.
  Proof.
    unfold del. rewrite (get_filter_key (fun x => negb (eqb x k'))), (eqb_sym_of eqb_eq k k').
    destruct (eqb k' k); reflexivity.
  Qed.

  Lemma del_in k t x : In x (del k t) <-> In x t /\ fst x <> k.
  Proof. unfold del. rewrite filter_In, negb_true_iff, (eqb_neq_of eqb_eq). reflexivity. Qed.

  Lemma del_nodup k t : NoDup (map fst t) -> NoDup (map fst (del k t)).
  Proof. apply NoDup_map_filter. Qed.

  Lemma del_absent k t : get k t = None -> del k t = t.
  Proof.
    intros H. apply filter_all. intros [k' v] Hin. cbn [fst]. apply negb_true_iff, (eqb_neq_of eqb_eq).
    intros ->. exact (get_none_notin k t H (in_map fst _ _ Hin)).
  Qed.

  Lemma del_length k t v : NoDup (map fst t) -> get k t = Some v -> length t = S (length (del k t)).
  Proof.
    induction t as [| [k' v'] r IH]; cbn [get map fst del filter length]; intros Hnd H; [discriminate |].
    inversion Hnd as [| ? ? Hn Hr]; subst. fold (del k r). destruct (eqb k' k) eqn:E; cbn [negb length].
    - apply eqb_eq in E. subst k'. rewrite (del_absent k r (notin_get_none k r Hn)). reflexivity.
    - f_equal. exact (IH Hr H).
  Qed.

  Lemma ext_perm t1 t2 :
    NoDup (map fst t1) -> NoDup (map fst t2) -> (forall k, get k t1 = get k t2) -> Permutation t1 t2.
  Proof.
    intros N1 N2 H. apply NoDup_Permutation; [exact (NoDup_map_inv fst _ N1) | exact (NoDup_map_inv fst _ N2) |].
    intros [k v]. split; intros Hin; apply get_in; [rewrite <- H | rewrite H]; apply in_get; assumption.
  Qed.

  Lemma sweep_in f t k v' : In (k, v') (sweep f t) -> exists v, In (k, v) t /\ f k v = Some v'.
  Proof.
    induction t as [| [k0 v0] r IH]; cbn [sweep]; intros H; [contradiction |].
    assert (Hr : In (k, v') (sweep f r) -> exists v, In (k, v) ((k0, v0) :: r) /\ f k v = Some v').
    { intros Hin. destruct (IH Hin) as (v & Hi & Hf). exists v. split; [right |]; assumption. }
    destruct (f k0 v0) as [v1 |] eqn:Ef; [| auto].
    destruct H as [[= -> ->] | H]; [| auto]. exists v0. split; [left; reflexivity | exact Ef].
  Qed.

  Lemma sweep_nodup f t : NoDup (map fst t) -> NoDup (map fst (sweep f t)).
  Proof.
    induction t as [| [k v] r IH]; intros H; [exact H |]. inversion H as [| ? ? Hn Hr]; subst.
    cbn [sweep]. destruct (f k v) as [w |]; [| auto].
    constructor; [| auto]. intros Hin. apply in_map_iff in Hin. destruct Hin as ([k0 v0] & [= ->] & Hin).
    destruct (sweep_in f r k v0 Hin) as (v1 & Hin1 & _). exact (Hn (in_map fst _ _ Hin1)).
  Qed.

  (* unique keys: a dropped binding does not uncover a later one *)
  Lemma get_sweep f t k : NoDup (map fst t) ->
    get k (sweep f t) = match get k t with Some v => f k v | None => None end.
  Proof.
    induction t as [| [k' v'] r IH]; intros Hnd; [reflexivity |].
    inversion Hnd as [| ? ? Hn Hr]; subst. cbn [sweep get].
    destruct (eqb k' k) eqn:E.
    - apply eqb_eq in E. subst k'. destruct (f k v'); cbn [get].
      + rewrite (eqb_refl_of eqb_eq). reflexivity.
      + rewrite (IH Hr), (notin_get_none k r Hn). reflexivity.
    - destruct (f k' v'); cbn [get]; [rewrite E |]; apply IH, Hr.
  Qed.
End Table.

Arguments get {K V}.
Arguments put {K V}.
Arguments del {K V}.
Arguments sweep {K V}.
Arguments get_in {K V eqb}.
Arguments get_none_notin {K V eqb}.
Arguments notin_get_none {K V eqb}.
Arguments in_get {K V eqb}.
Arguments get_in_keys {K V eqb}.
Arguments get_filter_key {K V eqb}.
Arguments get_put {K V eqb}.
Arguments put_Forall {K V}.
Arguments put_keys {K V}.
Arguments put_keys_present {K V}.
Arguments put_keys_In {K V eqb}.
Arguments put_nodup {K V eqb}.
Arguments put_length {K V}.
Arguments get_del {K V eqb}.
Arguments del_in {K V eqb}.
Arguments del_nodup {K V}.
Arguments del_absent {K V eqb}.
Arguments del_length {K V eqb}.
Arguments ext_perm {K V eqb}.
Arguments sweep_in {K V}.
Arguments sweep_nodup {K V}.
Arguments get_sweep {K V eqb}.
