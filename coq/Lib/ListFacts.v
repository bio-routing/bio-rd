(* Facts about the lists of the standard library that Coq 8.16 lacks, and the few list functions the models write
   out again at their own tests.  Nothing here mentions a definition of the development. *)
From Coq Require Import List Permutation PeanoNat Bool.
Import ListNotations.
Set Implicit Arguments.

Section NoDup.
  Variables A B : Type.

  Lemma NoDup_app (l l' : list A) :
    NoDup l -> NoDup l' -> (forall x, In x l -> ~ In x l') -> NoDup (l ++ l').
  Proof.
    induction l as [|a l IH]; intros N N' D; cbn [app]; [assumption|].
    inversion N as [|? ? NI Nl]; subst. constructor.
    - intros H. apply in_app_or in H. destruct H as [H|H]; [contradiction|]. apply (D a); [now left|assumption].
    - apply IH; [assumption|assumption|]. intros x Hx. apply D. now right.
  Qed.

  Lemma NoDup_snoc (l : list A) x : NoDup l -> ~ In x l -> NoDup (l ++ [x]).
  Proof.
    intros N NI. apply NoDup_app; [assumption|repeat constructor; intros []|].
    intros y Hy [<-|[]]. contradiction.
  Qed.

  Lemma NoDup_map_inj_in (f : A -> B) l x y : NoDup (map f l) -> In x l -> In y l -> f x = f y -> x = y.
  Proof.
    induction l as [|a l IH]; cbn [map In]; intros N Hx Hy E; [contradiction|].
    inversion N as [|? ? NI Nl]; subst.
    destruct Hx as [->|Hx], Hy as [->|Hy]; [reflexivity| | |now apply IH]; exfalso; apply NI.
    - rewrite E. now apply in_map.
    - rewrite <- E. now apply in_map.
  Qed.

  Lemma Injective_map_NoDup_in (f : A -> B) l :
    (forall x y, In x l -> In y l -> f x = f y -> x = y) -> NoDup l -> NoDup (map f l).
  Proof.
    induction l as [|a l IH]; intros Inj N; cbn [map]; [constructor|].
    inversion N as [|? ? NI Nl]; subst. constructor.
    - intros H. apply in_map_iff in H. destruct H as [y [E Hy]].
      assert (y = a) by (apply Inj; [now right|now left|exact E]). subst. contradiction.
    - apply IH; [|assumption]. intros x y Hx Hy. apply Inj; now right.
  Qed.

  Lemma NoDup_map_filter (f : A -> B) (g : A -> bool) l : NoDup (map f l) -> NoDup (map f (filter g l)).
  Proof.
    intros N. apply Injective_map_NoDup_in; [|apply NoDup_filter, (NoDup_map_inv f), N].
    intros x y Hx Hy. apply filter_In in Hx, Hy. apply (NoDup_map_inj_in f l); tauto.
  Qed.
End NoDup.

Section Filter.
  Variable A : Type.
  Variable f : A -> bool.

  Lemma filter_all l : (forall x, In x l -> f x = true) -> filter f l = l.
  Proof.
    induction l as [|a l IH]; cbn [filter]; intros H; [reflexivity|].
    rewrite (H a) by now left. f_equal. apply IH. intros x Hx. apply H. now right.
  Qed.

  Lemma filter_none l : (forall x, In x l -> f x = false) -> filter f l = [].
  Proof.
    induction l as [|a l IH]; cbn [filter]; intros H; [reflexivity|].
    rewrite (H a) by now left. apply IH. intros x Hx. apply H. now right.
  Qed.

  Lemma filter_split l : Permutation l (filter (fun x => negb (f x)) l ++ filter f l).
  Proof.
    induction l as [|x l IH]; cbn [filter app]; [constructor|].
    destruct (f x); cbn [negb app]; [now apply Permutation_cons_app|now constructor].
  Qed.

  Lemma partition_filter l : partition f l = (filter f l, filter (fun x => negb (f x)) l).
  Proof. induction l as [|a t IH]; cbn [partition filter]; [|rewrite IH; destruct (f a)]; reflexivity. Qed.

  Lemma Permutation_filter l l' : Permutation l l' -> Permutation (filter f l) (filter f l').
  Proof.
    induction 1 as [|x l l' _ IH|x y l|l l' l'' _ IH _ IH']; cbn [filter].
    - constructor.
    - destruct (f x); [now constructor|assumption].
    - destruct (f x), (f y); solve [apply perm_swap | apply Permutation_refl].
    - now transitivity (filter f l').
  Qed.

  Lemma existsb_ext_in (g : A -> bool) l : (forall x, In x l -> f x = g x) -> existsb f l = existsb g l.
  Proof.
    induction l as [|a l IH]; cbn [existsb]; intros H; [reflexivity|].
    rewrite (H a) by now left. rewrite IH; [reflexivity|]. intros x Hx. apply H. now right.
  Qed.

  Lemma Forall_map_if (Q : A -> Prop) (g : A -> A) l :
    Forall Q l -> (forall x, Q x -> Q (g x)) -> Forall Q (map (fun x => if f x then g x else x) l).
  Proof.
    intros H Hg. induction H as [|x t Hx Ht IH]; cbn [map]; constructor; auto.
    destruct (f x); auto.
  Qed.
End Filter.

Section Forall2.
  Variables A B : Type.
  Variable R : A -> B -> Prop.

  Lemma Forall2_length l l' : Forall2 R l l' -> length l = length l'.
  Proof. intros F. induction F; cbn [length]; congruence. Qed.

  Lemma Forall2_rev l l' : Forall2 R l l' -> Forall2 R (rev l) (rev l').
  Proof.
    intros F. induction F as [|x y l l' Hxy _ IH]; cbn [rev]; [constructor|].
    apply Forall2_app; [exact IH|]. now repeat constructor.
  Qed.

  Lemma Forall2_nth_error l l' n x :
    Forall2 R l l' -> nth_error l n = Some x -> exists y, nth_error l' n = Some y /\ R x y.
  Proof.
    intros F. revert n. induction F as [|a b l l' Hab _ IH]; intros [|n] Hn; cbn [nth_error] in *; try discriminate.
    - inversion Hn; subst. eauto.
    - now apply IH.
  Qed.

  Lemma Forall2_filter (f : A -> bool) (g : B -> bool) l l' :
    (forall x y, R x y -> f x = g y) -> Forall2 R l l' -> Forall2 R (filter f l) (filter g l').
  Proof.
    intros H F. induction F as [|x y l l' Hxy _ IH]; cbn [filter]; [constructor|].
    rewrite (H x y Hxy). destruct (g y); [now constructor|exact IH].
  Qed.

  Lemma Forall2_map_r (f : A -> B) l : (forall x, In x l -> R x (f x)) -> Forall2 R l (map f l).
  Proof.
    induction l as [|x l IH]; intros H; cbn [map]; constructor.
    - apply H. now left.
    - apply IH. intros y Hy. apply H. now right.
  Qed.
End Forall2.

Section Firstn.
  Variable A : Type.

  Lemma firstn_app_length (l l' : list A) : firstn (length l) (l ++ l') = l.
  Proof. rewrite firstn_app, Nat.sub_diag, firstn_all. apply app_nil_r. Qed.

  Lemma skipn_app_length (l l' : list A) : skipn (length l) (l ++ l') = l'.
  Proof. rewrite skipn_app, Nat.sub_diag, skipn_all. reflexivity. Qed.

  Lemma skipn_skipn x y (l : list A) : skipn x (skipn y l) = skipn (x + y) l.
  Proof.
    rewrite Nat.add_comm. revert l. induction y as [|y IH]; intros [|a l]; cbn [skipn Nat.add]; auto.
    apply skipn_nil.
  Qed.

  Lemma Forall_firstn (P : A -> Prop) n l : Forall P l -> Forall P (firstn n l).
  Proof. intros H. rewrite <- (firstn_skipn n l) in H. now apply Forall_app in H. Qed.

  Lemma Forall_skipn (P : A -> Prop) n l : Forall P l -> Forall P (skipn n l).
  Proof. intros H. rewrite <- (firstn_skipn n l) in H. now apply Forall_app in H. Qed.

  Lemma In_firstn (l : list A) n x : In x (firstn n l) -> In x l.
  Proof. intros H. rewrite <- (firstn_skipn n l). apply in_or_app. now left. Qed.

  Lemma NoDup_firstn (l : list A) n : NoDup l -> NoDup (firstn n l).
  Proof.
    intros N. rewrite <- (firstn_skipn n l) in N. induction (firstn n l) as [|a k IH]; [constructor|].
    inversion N as [|? ? NI Nk]; subst. constructor; [|now apply IH].
    intros H. apply NI, in_or_app. now left.
  Qed.

  Lemma nth_firstn_lt (l : list A) n i d : i < n -> nth i (firstn n l) d = nth i l d.
  Proof.
    revert n i. induction l as [|x l IH]; intros [|n] i H; [inversion H|reflexivity|inversion H|].
    destruct i as [|i]; cbn [firstn nth]; [reflexivity|]. apply IH, Nat.succ_lt_mono, H.
  Qed.

  Lemma firstn_eq_pointwise d (l l' : list A) (k : nat) :
    k <= length l -> k <= length l' ->
    (firstn k l = firstn k l' <-> forall i, i < k -> nth i l d = nth i l' d).
  Proof.
    intros Hl Hl'. split.
    - intros E i Hi. rewrite <- (nth_firstn_lt l d Hi), E. now apply nth_firstn_lt.
    - intros H. apply (nth_ext _ _ d d); rewrite !firstn_length_le by assumption; [reflexivity|].
      intros i Hi. rewrite !nth_firstn_lt by assumption. now apply H.
  Qed.

  Lemma slice_repeat (x : A) l (a b : nat) : a <= b <= length l ->
    Forall (eq x) (firstn (b - a) (skipn a l)) -> firstn a l ++ repeat x (b - a) ++ skipn b l = l.
  Proof.
    intros [Ha Hb] H. apply Forall_eq_repeat in H.
    rewrite firstn_length, skipn_length, (Nat.min_l _ _ (Nat.sub_le_mono_r _ _ a Hb)) in H.
    replace (skipn b l) with (skipn (b - a) (skipn a l)) by now rewrite skipn_skipn, Nat.sub_add.
    rewrite <- H, !firstn_skipn. reflexivity.
  Qed.

  Lemma app_eq_len_inv (l1 l1' l2 l2' : list A) :
    length l1 = length l1' -> (l1 ++ l2 = l1' ++ l2' <-> l1 = l1' /\ l2 = l2').
  Proof.
    revert l1'. induction l1 as [|a l1 IH]; intros [|b l1'] HL; try discriminate.
    - cbn. split; [auto | intros [_ E]; exact E].
    - cbn in HL. injection HL as HL. cbn. split.
      + intros E. injection E as E1 E2. apply IH in E2; [|exact HL]. destruct E2. subst. auto.
      + intros [E1 E2]. injection E1 as E1 E3. subst. reflexivity.
  Qed.
End Firstn.
Arguments firstn_eq_pointwise [A] d l l' k _ _.
Arguments app_eq_len_inv [A] l1 l1' l2 l2' _.

Section Fold.
  Variables A B : Type.
  Variable f : A -> B -> A.

  Lemma fold_left_map (C : Type) (k : C -> B) l a :
    fold_left f (map k l) a = fold_left (fun acc x => f acc (k x)) l a.
  Proof. revert a. induction l as [|x l IH]; intros a; cbn [map fold_left]; auto. Qed.

  Lemma fold_left_sim (A' : Type) (g : A' -> B -> A') (R : A -> A' -> Prop) l :
    (forall a a' x, In x l -> R a a' -> R (f a x) (g a' x)) ->
    forall a a', R a a' -> R (fold_left f l a) (fold_left g l a').
  Proof.
    induction l as [|x l IH]; intros H a a' Ha; cbn [fold_left]; [exact Ha|].
    apply IH; [intros b b' y Hy; apply H; now right|apply H; [now left|exact Ha]].
  Qed.

  Lemma fold_left_invariant (P : A -> Prop) l :
    (forall a x, In x l -> P a -> P (f a x)) -> forall a, P a -> P (fold_left f l a).
  Proof.
    intros H a Ha. exact (fold_left_sim (fun (u : unit) _ => u) (fun a _ => P a) l (fun a _ x => H a x) a tt Ha).
  Qed.

  Lemma fold_left_rel (R : A -> A -> Prop) :
    (forall a, R a a) -> (forall a b c, R a b -> R b c -> R a c) ->
    forall l, (forall a x, In x l -> R a (f a x)) -> forall a, R a (fold_left f l a).
  Proof.
    intros Hr Ht l H a. apply fold_left_invariant; [|apply Hr].
    intros b x Hx Hb. exact (Ht _ _ _ Hb (H b x Hx)).
  Qed.
End Fold.

(* The models' "remove one" functions are [drop_first] at some test (equality of a key, Compare of two paths, a
   boolean equality); a bridge by induction says so. *)
Section RemoveFirst.
  Variable A : Type.
  Variable f : A -> bool.

  Fixpoint drop_first (l : list A) : list A :=
    match l with
    | [] => []
    | a :: r => if f a then r else a :: drop_first r
    end.

  Lemma drop_first_none l : (forall x, In x l -> f x = false) -> drop_first l = l.
  Proof.
    induction l as [|a l IH]; intros H; cbn [drop_first]; [reflexivity|].
    rewrite (H a) by now left. f_equal. apply IH. intros x Hx. apply H. now right.
  Qed.

  Lemma drop_first_split l x : In x l -> f x = true ->
    exists l1 y l2, l = l1 ++ y :: l2 /\ f y = true /\ (forall z, In z l1 -> f z = false) /\ drop_first l = l1 ++ l2.
  Proof.
    induction l as [|a l IH]; intros HI Hx; [destruct HI|]. cbn [drop_first]. destruct (f a) eqn:E.
    - exists [], a, l. repeat split; auto. intros z [].
    - destruct HI as [->|HI]; [congruence|]. destruct (IH HI Hx) as (l1 & y & l2 & -> & Hy & Hl1 & ->).
      exists (a :: l1), y, l2. repeat split; auto. intros z [<-|Hz]; auto.
  Qed.

  Lemma drop_first_In l y : In y (drop_first l) -> In y l.
  Proof.
    induction l as [|a l IH]; cbn [drop_first]; [auto|]. destruct (f a); cbn [In]; intuition.
  Qed.

  Lemma drop_first_NoDup B (g : A -> B) l : NoDup (map g l) -> NoDup (map g (drop_first l)).
  Proof.
    induction l as [|a l IH]; cbn [drop_first map]; intros N; [exact N|]. inversion N as [|? ? NI Nl]; subst.
    destruct (f a); [exact Nl|]. cbn [map]. constructor; [|auto].
    intros H. apply in_map_iff in H. destruct H as (y & E & Hy). apply NI. rewrite <- E. apply in_map, drop_first_In, Hy.
  Qed.

  (* where the test is "equal to x" up to some normal form [nm], one x goes *)
  Lemma drop_first_perm B (nm : A -> B) l x L :
    (exists y, In y l /\ f y = true) -> (forall y, In y l -> f y = true -> nm y = nm x) ->
    Permutation (map nm l) (nm x :: L) -> Permutation (map nm (drop_first l)) L.
  Proof.
    intros [y [Hy Fy]] U H. destruct (drop_first_split _ Hy Fy) as (l1 & z & l2 & -> & Fz & _ & ->).
    rewrite map_app in *. cbn [map] in H. rewrite (U z) in H by (auto using in_or_app, in_eq).
    apply Permutation_sym, Permutation_cons_app_inv in H. now apply Permutation_sym.
  Qed.

  Lemma drop_first_perm_eq l x : In x l -> (forall y, f y = true <-> y = x) -> Permutation l (x :: drop_first l).
  Proof.
    intros HI Hf. destruct (drop_first_split _ HI (proj2 (Hf x) eq_refl)) as (l1 & z & l2 & -> & Fz & _ & ->).
    apply Hf in Fz. subst z. apply Permutation_sym, Permutation_middle.
  Qed.
End RemoveFirst.
Arguments drop_first [A] f l.
Arguments drop_first_none [A] f [l] _.
Arguments drop_first_split [A] f [l x] _ _.
Arguments drop_first_In [A] f [l y] _.
Arguments drop_first_NoDup [A] f [B] g [l] _.
Arguments drop_first_perm [A] f [B] nm [l] x [L] _ _ _.
Arguments drop_first_perm_eq [A] f [l x] _ _.

Section Rm1.
  Variable K : Type.
  Variable K_dec : forall a b : K, {a = b} + {a <> b}.

  Definition rm1 (x : K) : list K -> list K := drop_first (fun y => if K_dec y x then true else false).

  Lemma rm1_notin : forall x l, ~ In x l -> rm1 x l = l.
  Proof.
    intros x l H. apply drop_first_none. intros y Hy. destruct (K_dec y x) as [->|_]; [contradiction|reflexivity].
  Qed.

  Lemma rm1_in_perm : forall x l, In x l -> Permutation l (x :: rm1 x l).
  Proof.
    intros x l H. apply drop_first_perm_eq; [exact H|]. intros y. destruct (K_dec y x); split; congruence.
  Qed.

  Lemma rm1_perm : forall x l l', Permutation l l' -> Permutation (rm1 x l) (rm1 x l').
  Proof.
    intros x l l' HP. destruct (in_dec K_dec x l) as [HI|HN].
    - assert (HI' : In x l') by (eapply Permutation_in; eassumption).
      apply Permutation_cons_inv with x.
      eapply Permutation_trans; [apply Permutation_sym, rm1_in_perm, HI|].
      eapply Permutation_trans; [exact HP|]. now apply rm1_in_perm.
    - assert (HN' : ~ In x l') by (intros H; apply HN; eapply Permutation_in; [apply Permutation_sym; eassumption|exact H]).
      now rewrite !rm1_notin.
  Qed.

  Lemma rm1_app_r : forall x a b, ~ In x a -> rm1 x (a ++ b) = a ++ rm1 x b.
  Proof.
    unfold rm1. induction a as [|y a IH]; intros b H; [reflexivity|]. cbn [app drop_first].
    destruct (K_dec y x) as [->|NE]; [exfalso; apply H; now left|].
    rewrite IH; [reflexivity|]. intros HI. apply H. now right.
  Qed.

  (* removing the first element whose key is x, seen on the keys *)
  Lemma rm1_map_first : forall (A : Type) (key : A -> K) (f : A -> bool) (x : K) (l : list A),
    (forall a, f a = true <-> key a = x) ->
    map key (drop_first f l) = rm1 x (map key l).
  Proof.
    intros A key f x l H. unfold rm1. induction l as [|a r IH]; [reflexivity|]. cbn [map drop_first].
    destruct (f a) eqn:E.
    - destruct (K_dec (key a) x) as [_|NE]; [reflexivity|]. exfalso. apply NE, H, E.
    - destruct (K_dec (key a) x) as [EQ|_].
      + apply H in EQ. congruence.
      + cbn [map]. f_equal. exact IH.
  Qed.
End Rm1.
Arguments rm1 {K} K_dec x l.

(* The models' insertion sorts insert with [insert_by] at their own test, by conversion. *)
Section InsertBy.
  Variable A : Type.
  Variable before : A -> A -> bool.

  Fixpoint insert_by (x : A) (l : list A) : list A :=
    match l with
    | [] => [x]
    | y :: r => if before x y then x :: l else y :: insert_by x r
    end.

  Lemma insert_by_perm x l : Permutation (insert_by x l) (x :: l).
  Proof.
    induction l as [|y l IH]; cbn [insert_by]; [reflexivity|]. destruct (before x y); [reflexivity|].
    eapply perm_trans; [apply perm_skip, IH|apply perm_swap].
  Qed.

  Lemma insert_sort_perm l : Permutation (fold_right insert_by [] l) l.
  Proof.
    induction l as [|x l IH]; cbn [fold_right]; [reflexivity|].
    eapply perm_trans; [apply insert_by_perm|apply perm_skip, IH].
  Qed.
End InsertBy.

Section Eqb.
  Variables A B : Type.
  Variable ea : A -> A -> bool.
  Variable eb : B -> B -> bool.
  Hypothesis ea_eq : forall a b, ea a b = true <-> a = b.
  Hypothesis eb_eq : forall a b, eb a b = true <-> a = b.

  Lemma eqb_refl_of a : ea a a = true.
  Proof. now apply ea_eq. Qed.

  Lemma eqb_neq_of a b : ea a b = false <-> a <> b.
  Proof. rewrite <- ea_eq. symmetry. apply not_true_iff_false. Qed.

  Lemma eqb_sym_of a b : ea a b = ea b a.
  Proof. apply eq_true_iff_eq. rewrite !ea_eq. split; congruence. Qed.

  Lemma existsb_eqb_In a l : existsb (ea a) l = true <-> In a l.
  Proof.
    rewrite existsb_exists. split; [intros (x & H & E); apply ea_eq in E; now subst|].
    intros H. exists a. split; [exact H|apply eqb_refl_of].
  Qed.

  Lemma option_eqb_eq (x y : option A) :
    match x, y with None, None => true | Some a, Some b => ea a b | _, _ => false end = true <-> x = y.
  Proof. destruct x, y; rewrite ?ea_eq; split; congruence. Qed.

  Fixpoint list_eqb_by (l m : list A) : bool :=
    match l, m with
    | [], [] => true
    | x :: l', y :: m' => ea x y && list_eqb_by l' m'
    | _, _ => false
    end.

  Lemma list_eqb_by_eq l m : list_eqb_by l m = true <-> l = m.
  Proof.
    revert m. induction l as [|x l IH]; intros [|y m]; cbn [list_eqb_by]; try (split; congruence).
    rewrite andb_true_iff, ea_eq, IH. split; [intros [-> ->]; reflexivity|intros H; inversion H; auto].
  Qed.

  Lemma prod_eqb_eq (x y : A * B) : ea (fst x) (fst y) && eb (snd x) (snd y) = true <-> x = y.
  Proof.
    destruct x as [x1 x2], y as [y1 y2]. cbn [fst snd]. rewrite andb_true_iff, ea_eq, eb_eq.
    split; [intros [-> ->]; reflexivity|intros H; inversion H; auto].
  Qed.
End Eqb.
Arguments eqb_refl_of [A ea] ea_eq a.
Arguments eqb_neq_of [A ea] ea_eq a b.
Arguments eqb_sym_of [A ea] ea_eq a b.
Arguments existsb_eqb_In [A ea] ea_eq a l.
Arguments option_eqb_eq [A ea] ea_eq x y.
Arguments list_eqb_by_eq [A ea] ea_eq l m.
Arguments prod_eqb_eq [A B ea eb] ea_eq eb_eq x y.
