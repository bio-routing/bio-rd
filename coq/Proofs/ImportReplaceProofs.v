(* C12 (import side): AdjRIBIn.ReplaceFilterChain leaves the Loc-RIB as if the session had been established
   with the new policy, under the guards `iguards` defined here (Section Import); and filter.Chain.Equal is
   sound (a replacement is never skipped wrongly). *)
From Coq Require Import List NArith Bool Permutation PeanoNat.
Import ListNotations.
From BioVerif Require Import Model.AdjRIBOut Model.ImportReplace Proofs.AroIDsProofs.

Lemma path_compare_key : forall x r b, path_compare x (PBgp r b) = true -> pkey x = pkey (PBgp r b).
Proof.
  intros [[m|]|r' a] r b H; cbn [path_compare] in H; try discriminate.
  apply bgp_compare_key in H. destruct H as [A B]. cbn [pkey]. now rewrite A, B.
Qed.

Lemma path_equal_key : forall x r b, path_equal x (PBgp r b) = true -> pkey x = pkey (PBgp r b).
Proof.
  intros [[m|]|r' a] r b H; cbn [path_equal] in H; try discriminate.
  apply andb_prop in H. destruct H as [HP HS]. apply N.eqb_eq in HP.
  unfold bgp_select_eq in HS. repeat (apply andb_prop in HS; destruct HS as [HS ?]).
  apply N.eqb_eq in H0. cbn [pkey]. now rewrite HP, H0.
Qed.

Lemma bgp_select_eq_refl : forall b, bgp_select_eq b b = true.
Proof.
  intros b. unfold bgp_select_eq. rewrite !N.eqb_refl, Bool.eqb_reflx, Nat.eqb_refl. reflexivity.
Qed.

Lemma path_equal_refl_bgp : forall r b, path_equal (PBgp r b) (PBgp r b) = true.
Proof. intros. cbn [path_equal]. now rewrite N.eqb_refl, bgp_select_eq_refl. Qed.

Lemma loc_remove_perm : forall pfx r b (l L : loc),
  (forall x, In (pfx, x) L -> pkey x <> pkey (PBgp r b)) ->
  Permutation l ((pfx, PBgp r b) :: L) -> Permutation (loc_remove pfx (PBgp r b) l) L.
Proof.
  intros pfx r b l L U H. unfold loc_remove.
  assert (HI : In (pfx, PBgp r b) l) by (apply (Permutation_in _ (Permutation_sym H)); now left).
  destruct (tbl_remove_first_split pfx (PBgp r b) l HI (bgp_compare_refl b)) as [l1 [x [l2 [E [C ->]]]]].
  rewrite E in H. destruct (Permutation_in (pfx, x) H) as [EQ|HL]; [auto using in_or_app, in_eq| |].
  - rewrite <- EQ in H. apply Permutation_sym, Permutation_cons_app_inv in H. now apply Permutation_sym.
  - destruct (U x HL (path_compare_key x r b C)).
Qed.

Lemma loc_replace_perm : forall pfx r b nw (l L : loc),
  (forall x, In (pfx, x) L -> pkey x <> pkey (PBgp r b)) ->
  Permutation l ((pfx, PBgp r b) :: L) -> Permutation (loc_replace pfx (PBgp r b) nw l) ((pfx, nw) :: L).
Proof.
  intros pfx r b nw. induction l as [|[k y] l IH]; intros L U H; [apply Permutation_nil in H; discriminate|].
  cbn [loc_replace]. pose proof (Permutation_in _ H (or_introl eq_refl)) as HI.
  destruct (N.eqb k pfx && path_equal y (PBgp r b)) eqn:E.
  - apply andb_prop in E. destruct E as [E1 E2]. apply N.eqb_eq in E1. subst k.
    destruct HI as [HI|HI]; [|destruct (U y HI (path_equal_key y r b E2))].
    rewrite <- HI in H. exact (perm_skip _ (Permutation_cons_inv H)).
  - destruct HI as [HI|HI]; [inversion HI; subst; now rewrite N.eqb_refl, path_equal_refl_bgp in E|].
    apply in_split in HI. destruct HI as [L1 [L2 ->]].
    apply (Permutation_cons_app_inv ((pfx, PBgp r b) :: L1)) in H.
    apply (Permutation_cons_app ((pfx, nw) :: L1)), IH; [|exact H].
    intros x Hx. apply U. apply in_app_or in Hx. apply in_or_app. destruct Hx; [now left|right; now right].
Qed.

Lemma establish_ext : forall (f g : N -> path -> option path) r,
  (forall pf q, f pf q = g pf q) -> establish f r = establish g r.
Proof.
  intros f g r E. unfold establish. apply flat_map_ext. intros [[pfx p] h]. destruct h; [reflexivity|].
  now rewrite E.
Qed.

Section Import.
  Variables fc fn : N -> path -> option path.
  Variable r : rin.
  Variable other : loc.

  (* Guards: the stored paths are BGP paths; the eligible paths of a prefix differ in (source, path id) -
     the Adj-RIB-In keeps one path per (prefix, path id) of one source; both policies keep source and path id
     (no filter action touches them) and answer with BGP paths; what else the Loc-RIB holds comes from other
     sources; Compare-equal outputs of the two policies for one path are equal. *)
  Record iguards : Prop := mkIGuards {
    i_keys : forall r1 pfx p r2, r = r1 ++ (pfx, p, false) :: r2 ->
             forall p' h', In (pfx, p', h') (r1 ++ r2) -> h' = false -> pkey p' <> pkey p;
    i_keep_c : forall pfx p q, fc pfx p = Some q -> pkey q = pkey p /\ exists rr b, q = PBgp rr b;
    i_keep_n : forall pfx p q, fn pfx p = Some q -> pkey q = pkey p /\ exists rr b, q = PBgp rr b;
    i_other : forall pfx x p h, In (pfx, x) other -> In (pfx, p, h) r -> pkey x <> pkey p;
    i_faithful : forall pfx p h qc qn, In (pfx, p, h) r -> fc pfx p = Some qc -> fn pfx p = Some qn ->
                 path_compare qc qn = true -> qc = qn
  }.

  Hypothesis G : iguards.

  Lemma in_establish : forall f (l : rin) pfx x,
    In (pfx, x) (establish f l) -> exists p, In (pfx, p, false) l /\ f pfx p = Some x.
  Proof.
    intros f l pfx x H. unfold establish in H. apply in_flat_map in H.
    destruct H as [[[k p] h] [HI HX]]. destruct h; [destruct HX|].
    destruct (f k p) as [q|] eqn:E; [|destruct HX]. destruct HX as [HX|[]]. inversion HX; subst. eauto.
  Qed.

  Lemma establish_app : forall f l1 l2, establish f (l1 ++ l2) = establish f l1 ++ establish f l2.
  Proof. intros. unfold establish. apply flat_map_app. Qed.

  Lemma replace_one_perm : forall done pfx p h rest l,
    r = done ++ (pfx, p, h) :: rest ->
    Permutation l (establish fc ((pfx, p, h) :: rest) ++ other ++ establish fn done) ->
    Permutation (replace_one fc fn l (pfx, p, h))
                (establish fc rest ++ other ++ establish fn (done ++ [(pfx, p, h)])).
  Proof.
    intros done pfx p h rest l ER H. rewrite establish_app.
    destruct h.
    { (* hidden: never announced *) cbn [replace_one establish flat_map app] in *. now rewrite app_nil_r. }
    cbn [replace_one]. cbn [establish flat_map] in H |- *. fold (establish fc rest) in H.
    rewrite app_nil_r, !app_assoc. rewrite <- app_assoc, (app_assoc (establish fc rest)) in H.
    set (M := (establish fc rest ++ other) ++ establish fn done) in *.
    assert (HIr : In (pfx, p, false) r) by (rewrite ER; apply in_or_app; right; now left).
    (* who else is in the Loc-RIB has another key than p, hence than p's images *)
    assert (Alone : forall x, In (pfx, x) M -> pkey x <> pkey p).
    { intros x HX. unfold M in HX. rewrite !in_app_iff in HX. destruct HX as [[HX|HX]|HX].
      - destruct (in_establish fc rest pfx x HX) as [p' [HP' F']].
        destruct (i_keep_c G _ _ _ F') as [K _]. rewrite K.
        eapply (i_keys G done pfx p rest ER p' false); [apply in_or_app; now right|reflexivity].
      - eapply (i_other G); eassumption.
      - destruct (in_establish fn done pfx x HX) as [p' [HP' F']].
        destruct (i_keep_n G _ _ _ F') as [K _]. rewrite K.
        eapply (i_keys G done pfx p rest ER p' false); [apply in_or_app; now left|reflexivity]. }
    destruct (fc pfx p) as [qc|] eqn:FC; destruct (fn pfx p) as [qn|] eqn:FN; cbn [app] in *; rewrite ?app_nil_r;
      [destruct (i_keep_c G _ _ _ FC) as [KC [rc [bc ->]]]; rewrite <- KC in Alone..| |].
    - destruct (path_compare (PBgp rc bc) qn) eqn:CMP.
      + rewrite <- (i_faithful G pfx p false _ qn HIr FC FN CMP).
        exact (Permutation_trans H (Permutation_cons_append _ _)).
      + apply (Permutation_trans (l' := (pfx, qn) :: M)); [|apply Permutation_cons_append].
        now apply loc_replace_perm.
    - now apply loc_remove_perm.
    - now apply Permutation_app_tail.
    - exact H.
  Qed.

  Theorem import_replace_converges : forall l,
    Permutation l (other ++ establish fc r) ->
    Permutation (replace_in fc fn r l) (other ++ establish fn r).
  Proof.
    intros l H.
    (* fold_split_inv at a constant counter: induction over the entries done and still to do *)
    apply (fold_split_inv _ _ (fun _ => 0%N) (replace_one fc fn) r
             (fun done rest l' => Permutation l' (establish fc rest ++ other ++ establish fn done))) with (done := []);
      try reflexivity.
    - intros done [[pfx p] h] rest l' ER H' _. now apply replace_one_perm.
    - rewrite app_nil_r. exact (Permutation_trans H (Permutation_app_comm _ _)).
  Qed.
End Import.

(* actions that are Equal act alike (prepend: the count is a uint16) *)
Lemma action_eqb_sound : forall a b p, action_eqb a b = true -> do_action a p = do_action b p.
Proof.
  intros [x|x|x|x t| |] [y|y|y|y u| |] p H; cbn [action_eqb] in H; try discriminate; try reflexivity;
    try (apply N.eqb_eq in H; now subst).
  apply andb_prop in H. destruct H as [H1 H2]. apply N.eqb_eq in H1, H2. subst y.
  destruct p as [sn|r b]; cbn [do_action]; [reflexivity|]. now rewrite H2.
Qed.

Lemma actions_eqb_sound : forall l m p, list_eqb action_eqb l m = true -> do_actions l p = do_actions m p.
Proof.
  induction l as [|a l IH]; intros [|b m] p H; cbn [list_eqb] in H; try discriminate; [reflexivity|].
  apply andb_prop in H. destruct H as [H1 H2]. cbn [do_actions].
  rewrite (action_eqb_sound a b p H1). destruct (do_action b p); auto.
Qed.

Lemma term_eqb_sound : forall a b, term_eqb a b = true ->
  t_from a = t_from b /\ forall p, do_actions (t_then a) p = do_actions (t_then b) p.
Proof.
  intros a b H. unfold term_eqb in H. apply andb_prop in H. destruct H as [H1 H2]. split.
  - exact (proj1 (list_eqb_eq_of _ _ (list_eqb_eq_of N N.eqb N.eqb_eq) _ _) H1).
  - intros p. now apply actions_eqb_sound.
Qed.

Lemma terms_eqb_sound : forall l m pfx p, list_eqb term_eqb l m = true -> do_terms l pfx p = do_terms m pfx p.
Proof.
  induction l as [|a l IH]; intros [|b m] pfx p H; cbn [list_eqb] in H; try discriminate; [reflexivity|].
  apply andb_prop in H. destruct H as [H1 H2]. cbn [do_terms].
  destruct (term_eqb_sound a b H1) as [F T]. unfold term_matches. rewrite F.
  set (mt := match t_from b with [] => true | c0 :: cs => existsb (fun c => cond_matches c pfx) (c0 :: cs) end).
  destruct mt.
  - rewrite T. destruct (do_actions (t_then b) p); [now apply IH|reflexivity|reflexivity].
  - now apply IH.
Qed.

Theorem chain_eqb_sound : forall c d, chain_eqb c d = true -> forall pfx p, interp c pfx p = interp d pfx p.
Proof.
  unfold chain_eqb. induction c as [|f c IH]; intros [|g d] H pfx p; cbn [list_eqb] in H; try discriminate; [reflexivity|].
  apply andb_prop in H. destruct H as [H1 H2]. cbn [interp].
  rewrite (terms_eqb_sound f g pfx p H1). destruct (do_terms g pfx p); [now apply IH|reflexivity|reflexivity].
Qed.
