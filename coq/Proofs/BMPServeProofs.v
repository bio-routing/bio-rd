(* C27: Router.serve (Model/BMPRouter.v) on any list of numbers: no panic, no fuel exhaustion, every
   message consumes at least its 6 byte header; when the numbers are bytes (below 256), BMP-layer
   allocation linear in the bytes received. *)
From Coq Require Import List ZArith Bool Lia.
From BioVerif Require Import Model.BMPCodec Model.BMPRouter Proofs.BMPCodecProofs.

Lemma term_tlvs_never_panic : forall ts, term_tlvs_panic ts = false.
Proof.
  induction ts as [|t r IH]; [reflexivity|].
  cbn [term_tlvs_panic]. destruct (t_type t =? 1); [|exact IH].
  destruct (len (t_info t) <? 2) eqn:E; [exact IH|].
  unfold slice_to_panics. rewrite E. exact IH.
Qed.

Section Serve.
Variable open_decode : bytes -> option open_info.
Variable upd_apply : bool -> bool -> bool -> bytes -> list uevent.
Variable c : cfg.

Lemma process_msg_never_panics : forall st m, fst (process_msg open_decode upd_apply c st m) = POk.
Proof.
  intros st m. destruct m; cbn [process_msg fst]; try reflexivity.
  unfold termination. rewrite term_tlvs_never_panic. reflexivity.
Qed.

Lemma process_spec : forall st msg,
  fst (fst (process open_decode upd_apply c st msg)) = POk /\
  (framed msg -> snd (process open_decode upd_apply c st msg) <= 4 * len msg + 1704).
Proof.
  intros st msg. unfold process. destruct (decode_costs msg) as (C & S).
  destruct (decode msg) as [[m| | |] k]; try contradiction; split; try assumption; try reflexivity.
  apply process_msg_never_panics.
Qed.

(* 5800 per message: 4096 for the receive buffer recv starts with, 1704 the decoders' constant *)
Lemma run_stream_spec : forall fuel final st s cost frames,
  (length s < fuel)%nat ->
  exists st' cost' frames',
    run_stream open_decode upd_apply c fuel final st s cost frames = SDone st' cost' frames' /\
    frames <= frames' /\
    6 * (frames' - frames) <= len s /\
    (bytes_ok s -> cost' <= cost + 8 * len s + 5800 * (frames' - frames + 1)).
Proof.
  induction fuel as [|f IH]; intros final st s cost frames Hf; [lia|].
  cbn [run_stream]. destruct (r_closed st).
  { eexists _, _, _. split; [reflexivity|]. unfold default_buffer_len. repeat split; lia. }
  destruct (negb final && (len s =? 0)).
  { eexists _, _, _. split; [reflexivity|]. repeat split; lia. }
  pose proof (recv_spec s) as RS.
  destruct (recv s) as [m rest k|k|k|]; try contradiction.
  - destruct RS as (Lm & L & -> & Fm & Ck).
    pose proof (process_spec st m) as (P1 & P2).
    destruct (process open_decode upd_apply c st m) as [[o st'] k2]. cbn [fst snd] in P1, P2. subst o.
    unfold min_len, default_buffer_len in *.
    assert (Hf' : (length rest < f)%nat) by (unfold len in *; lia).
    destruct (IH final st' rest (cost + k + k2) (frames + 1) Hf') as (st2 & c2 & f2 & E & A1 & A2 & A3).
    exists st2, c2, f2. split; [exact E|]. repeat split; try lia.
    intros Hb. apply Forall_app in Hb. specialize (P2 (conj (proj1 Hb) Fm)). specialize (A3 (proj2 Hb)). lia.
  - eexists _, _, _. split; [reflexivity|]. unfold default_buffer_len in *. repeat split; lia.
Qed.

Theorem serve_total : forall st s,
  exists st' cost frames,
    serve open_decode upd_apply c st s = SDone st' cost frames /\
    6 * frames <= len s /\
    (bytes_ok s -> cost <= 8 * len s + 5800 * (frames + 1)).
Proof.
  intros st s. unfold serve.
  destruct (run_stream_spec (S (length s)) true st s 0 0 (Nat.lt_succ_diag_r _))
    as (st' & c' & f' & E & A1 & A2 & A3).
  exists st', c', f'. split; [exact E|]. split; [|intros Hb; specialize (A3 Hb)]; lia.
Qed.

(* the property's c * length + c' with 975 and 5800: each frame took at least 6 bytes, so
   5800 * frames <= 967 * len s *)
Corollary serve_alloc_linear : forall st s st' cost frames, bytes_ok s ->
  serve open_decode upd_apply c st s = SDone st' cost frames ->
  cost <= 975 * len s + 5800.
Proof.
  intros st s st' cost frames Hb H. destruct (serve_total st s) as (st2 & c2 & f2 & E & A1 & A2).
  rewrite H in E. inversion E; subst. specialize (A2 Hb). lia.
Qed.

Theorem serve_no_panic : forall st s,
  (forall k f, serve open_decode upd_apply c st s <> SPanic k f) /\
  serve open_decode upd_apply c st s <> SFuel.
Proof.
  intros st s. destruct (serve_total st s) as (st2 & c2 & f2 & E & _). rewrite E.
  split; intros; discriminate.
Qed.

Lemma step_total : forall st a, (forall f, a = AFrame f -> bytes_ok f) ->
  exists st' k n, step open_decode upd_apply c st a = SDone st' k n.
Proof.
  intros st a _. destruct a as [f| |]; cbn [step].
  - destruct (run_stream_spec (S (length f)) false st f 0 0 (Nat.lt_succ_diag_r _))
      as (st' & c' & f' & E & _). eauto.
  - eauto.
  - eauto.
Qed.

End Serve.

Lemma fuel_suffices :
  (forall (open_decode : bytes -> option open_info) (upd_apply : bool -> bool -> bool -> bytes -> list uevent)
          (c : cfg) (st : rstate) (s : bytes),
     bytes_ok s -> serve open_decode upd_apply c st s <> SFuel) /\
  (forall s, recv s <> RFuel) /\
  (forall s m rest k, recv s = RMsg m rest k -> len rest + 6 <= len s) /\
  (forall msg, framed msg -> fst (decode msg) <> Fuel).
Proof.
  split; [intros od ua c st s _; exact (proj2 (serve_no_panic od ua c st s))|].
  split; [|split].
  - intros s E. pose proof (recv_spec s) as R. rewrite E in R. exact R.
  - (* every message consumes input: at least the common header *)
    intros s m rest k E. pose proof (recv_spec s) as R. rewrite E in R. unfold min_len in R. lia.
  - intros msg _ E. destruct (decode_costs msg) as (_ & S). rewrite E in S. exact S.
Qed.
