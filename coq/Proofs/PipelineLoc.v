(* First the list facts of the composition (Model.Pipeline's upd_nth and gained, the indexed map of note_views).  Then
   the Loc-RIB model as a bag of route.Path values per prefix.  Path.Compare on BGP paths is equality
   of ckey (Spec/PipelineSpec.v), and lift commutes with the comparison of the Adj-RIB-In specification (ckey_lift_iff,
   on pkey; unlift reads it back).  LocRIB.AddPath / RemovePath on the model of C04, for any admissible
   Route.PathSelection, are one equation (lstep_route): the candidates of the prefix become a permutation of
   "one more" / "the first Compare-equal one less". *)
From Coq Require Import List NArith Bool Arith Lia Permutation.
Import ListNotations.
From BioVerif Require Import Lib.ListFacts Model.Pipeline Spec.PipelineSpec.
From BioVerif Require Model.AdjRIBIn Model.LocRIBClients Model.AdjRIBOut Model.UpdateSender Spec.AdjRIBInSpec Spec.LocRIBClientsSpec
  Proofs.LocRIBClientsProofs Proofs.AroIDsProofs Lib.KeyedTable.

Lemma upd_nth_length : forall (A : Type) k (f : A -> A) l, length (upd_nth k f l) = length l.
Proof. intros A k f l. revert k. induction l as [|x l IH]; intros [|k]; cbn; auto. Qed.

Lemma nth_error_upd : forall (A : Type) k (f : A -> A) l, nth_error (upd_nth k f l) k = option_map f (nth_error l k).
Proof. intros A k f l. revert k. induction l as [|y l IH]; intros [|k]; cbn; auto. Qed.

Lemma nth_error_upd_same : forall (A : Type) k (f : A -> A) l x,
  nth_error l k = Some x -> nth_error (upd_nth k f l) k = Some (f x).
Proof. intros A k f l x H. now rewrite nth_error_upd, H. Qed.

Lemma nth_error_upd_other : forall (A : Type) k j (f : A -> A) l,
  j <> k -> nth_error (upd_nth k f l) j = nth_error l j.
Proof.
  intros A k j f l. revert k j. induction l as [|y l IH]; intros [|k] [|j] NE; cbn; try reflexivity; try congruence.
  apply IH. congruence.
Qed.

Lemma nth_error_same_length : forall (A B : Type) (l : list A) (l' : list B) k x,
  length l = length l' -> nth_error l k = Some x -> exists y, nth_error l' k = Some y.
Proof.
  intros A B l l' k x HL H. destruct (nth_error l' k) as [y|] eqn:E; [eauto|].
  apply nth_error_None in E. rewrite <- HL in E. apply nth_error_None in E. congruence.
Qed.

Lemma nth_error_indexed : forall (A B : Type) (g : nat * A -> B) l n j,
  nth_error (map g (combine (seq n (length l)) l)) j = option_map (fun x => g (n + j, x)) (nth_error l j).
Proof.
  intros A B g. induction l as [|x l IH]; intros n [|j]; cbn [length seq combine map nth_error option_map]; try reflexivity.
  - now rewrite Nat.add_0_r.
  - now rewrite IH, Nat.add_succ_r.
Qed.

Lemma map_indexed_keeps : forall (A B : Type) (h : A -> B) (g : nat * A -> A) l n,
  (forall k x, h (g (k, x)) = h x) -> map h (map g (combine (seq n (length l)) l)) = map h l.
Proof.
  intros A B h g l. induction l as [|x l IH]; intros n H; [reflexivity|]. cbn. rewrite H. f_equal. now apply IH.
Qed.

Lemma gained_app : forall (A : Type) (new old : list A), gained old (new ++ old) = rev new.
Proof.
  intros A new old. unfold gained. rewrite app_length.
  replace (length new + length old - length old) with (length new) by lia.
  now rewrite firstn_app_length.
Qed.

Lemma upd_nth_twice : forall (A : Type) k (l : list A) (f g : A -> A),
  upd_nth k f (upd_nth k g l) = upd_nth k (fun x => f (g x)) l.
Proof.
  intros A k l. revert k. induction l as [|y l IH]; intros [|k] f g; cbn; try reflexivity. f_equal. apply IH.
Qed.

Lemma upd_nth_id : forall (A : Type) k (f : A -> A) l, (forall x, f x = x) -> upd_nth k f l = l.
Proof. intros A k f l H. revert k. induction l as [|y l IH]; intros [|k]; cbn; try reflexivity; now f_equal. Qed.

Lemma upd_nth_same : forall (A : Type) k (l : list A) x, nth_error l k = Some x -> upd_nth k (fun _ => x) l = l.
Proof.
  intros A k l. revert k. induction l as [|y l IH]; intros [|k] x H; cbn in *; try discriminate; f_equal; [congruence|now apply IH].
Qed.

Lemma map_upd_nth_at : forall (A B : Type) (h : A -> B) (f : A -> A) (g : B -> B) k l a,
  nth_error l k = Some a -> h (f a) = g (h a) -> map h (upd_nth k f l) = upd_nth k g (map h l).
Proof.
  intros A B h f g k l. revert k. induction l as [|y l IH]; intros [|k] a H E; cbn in *; try discriminate.
  - injection H as ->. now rewrite E.
  - f_equal. now apply (IH k a).
Qed.

Lemma map_upd_nth_comm : forall (A B : Type) (g : A -> B) (f : A -> A) (f' : B -> B) k l,
  (forall x, g (f x) = f' (g x)) -> map g (upd_nth k f l) = upd_nth k f' (map g l).
Proof.
  intros A B g f f' k l H. revert k. induction l as [|y l IH]; intros [|k]; cbn; try reflexivity.
  - now rewrite H.
  - now rewrite IH.
Qed.

Lemma map_upd_nth : forall (A B : Type) (g : A -> B) k (f : A -> A) l,
  (forall x, g (f x) = g x) -> map g (upd_nth k f l) = map g l.
Proof. intros A B g k f l H. rewrite (map_upd_nth_comm A B g f (fun y => y) k l H). now apply upd_nth_id. Qed.

Lemma Forall2_upd_nth : forall (A B : Type) (R : A -> B -> Prop) k (f : B -> B) l1 l2,
  Forall2 R l1 l2 -> (forall x y, nth_error l1 k = Some x -> nth_error l2 k = Some y -> R x y -> R x (f y)) ->
  Forall2 R l1 (upd_nth k f l2).
Proof.
  intros A B R k f l1 l2 H. revert k. induction H as [|x y l1 l2 Hxy H IH]; intros [|k] Hf; cbn.
  - constructor.
  - constructor.
  - constructor; [apply Hf; [reflexivity|reflexivity|assumption]|assumption].
  - constructor; [assumption|]. apply IH. intros a b Ha Hb. now apply Hf.
Qed.

Lemma Forall_upd_nth : forall (A : Type) (Q : A -> Prop) k (f : A -> A) l,
  Forall Q l -> (forall x, Q x -> Q (f x)) -> Forall Q (upd_nth k f l).
Proof.
  intros A Q k f l H. revert k. induction H as [|x l Hx H IH]; intros [|k] Hf; cbn; constructor; auto.
Qed.

Lemma nth_error_map_eq : forall (A B : Type) (g : A -> B) l l' j,
  nth_error l j = nth_error l' j -> nth_error (map g l) j = nth_error (map g l') j.
Proof. intros A B g l l' j E. now rewrite !nth_error_map, E. Qed.

Section Keyed.
Import LocRIBClients.

Lemma del_absent : forall (A : Type) (m : list (nat * A)) k, lookup k m = None -> del k m = m.
Proof. intros A m k H. rewrite LocRIBClientsProofs.lookup_get in H. exact (KeyedTable.del_absent Nat.eqb_eq k m H). Qed.
End Keyed.

Section Lift.
Import AdjRIBOut.

Lemma bgp_compare_ckey : forall r a r' b,
  bgp_compare a b = true <-> ckey (PBgp r a) = ckey (PBgp r' b).
Proof. intros r a r' b. rewrite AroIDsProofs.bgp_compare_iff. cbn [ckey]. split; congruence. Qed.

(* the argument of a Loc-RIB removal is a BGP path; the stored one may be anything *)
Lemma compare_ckey : forall x r b, path_compare x (PBgp r b) = true <-> ckey x = ckey (PBgp r b).
Proof.
  intros [snh|r' a] r b.
  - cbn. destruct snh; split; discriminate.
  - cbn [path_compare]. apply bgp_compare_ckey.
Qed.

Lemma ckey_lift_pkey : forall ip bid ib q, ckey (lift ip bid ib q) = ckey (lift ip bid ib (AdjRIBInSpec.pkey q)).
Proof. intros. destruct q. reflexivity. Qed.

(* what the Adj-RIB-In model compares can be read back from the route.Path value *)
Definition unlift (p : path) : AdjRIBIn.path :=
  match p with
  | PBgp _ b =>
    AdjRIBIn.mkPath (b_pid b) (b_lp b) (b_med b) (b_nh b) (flat_map snd (b_aspath b)) (b_oid b) (olist (b_cl b)) 0 0
  | PStatic _ => AdjRIBIn.mkPath 0 0 0 0 [] 0 [] 0 0
  end.

Lemma segs_flat : forall l, flat_map snd (segs l) = l.
Proof. intros [|x l]; [reflexivity|apply app_nil_r]. Qed.

Lemma olist_nonempty : forall l : list N, olist (opt_nonempty l) = l.
Proof. now intros [|x l]. Qed.

Lemma unlift_ckey_lift : forall ip bid ib q, unlift (ckey (lift ip bid ib q)) = AdjRIBInSpec.pkey q.
Proof.
  intros ip bid ib []. unfold lift, ckey, unlift. cbn [b_pid b_lp b_med b_nh b_aspath b_oid b_cl set_otc set_aspath].
  now rewrite segs_flat, olist_nonempty.
Qed.

(* on the paths of one session, Path.Compare is the Adj-RIB-In model's pcmp *)
Lemma ckey_lift_iff : forall ip bid ib q q',
  ckey (lift ip bid ib q) = ckey (lift ip bid ib q') <-> AdjRIBInSpec.pkey q = AdjRIBInSpec.pkey q'.
Proof.
  intros ip bid ib q q'. split; intros E.
  - now rewrite <- (unlift_ckey_lift ip bid ib q), E, unlift_ckey_lift.
  - now rewrite ckey_lift_pkey, E, <- ckey_lift_pkey.
Qed.

Lemma src_ckey : forall x, src_of (ckey x) = src_of x.
Proof. intros [s|r b]; reflexivity. Qed.

Lemma src_lift : forall ip bid ib q, src_of (lift ip bid ib q) = Some ip.
Proof. reflexivity. Qed.

Lemma ckey_lift_src : forall ip bid ib q ip' bid' ib' q',
  ckey (lift ip bid ib q) = ckey (lift ip' bid' ib' q') -> ip = ip'.
Proof.
  intros. assert (E : src_of (ckey (lift ip bid ib q)) = src_of (ckey (lift ip' bid' ib' q'))) by congruence.
  rewrite !src_ckey, !src_lift in E. now inversion E.
Qed.

End Lift.

Lemma upfx_eqb : forall p q, UpdateSender.pfx_eqb (upfx p) (upfx q) = N.eqb p q.
Proof.
  intros p q. unfold UpdateSender.pfx_eqb, upfx. cbn [UpdateSender.x_addr UpdateSender.x_len].
  destruct (N.eqb_spec p q) as [->|NE]; [now rewrite !N.eqb_refl|].
  destruct (N.eqb_spec (p / 64) (q / 64)) as [E1|]; [|reflexivity].
  destruct (N.eqb_spec (p mod 64) (q mod 64)) as [E2|]; [|reflexivity].
  exfalso. apply NE. rewrite (N.div_mod p 64), (N.div_mod q 64) by discriminate. now rewrite E1, E2.
Qed.

Section Loc.
  Import AdjRIBOut.
  Import LocRIBClients.
  Variable sel : nat -> list (entry path) -> list (entry path) * nat.
  Hypothesis Hsel : LocRIBClientsSpec.sel_ok path sel.

  Notation lstep := (step path path_compare path_equal sel).

  Definition vals (st : state path) (p : pfx) : list path := map snd (paths (route_at st p)).

  Lemma route_at_store : forall (st : state path) p newr p' cl t,
    route_at (mkState (store path p newr (routes st)) cl t) p' =
    if p =? p' then (match paths newr with [] => nil_route | _ :: _ => newr end) else route_at st p'.
  Proof.
    intros. unfold route_at. cbn [routes]. rewrite LocRIBClientsProofs.lookup_store.
    destruct (p =? p'); [|reflexivity]. now destruct (paths newr).
  Qed.

  Lemma selected_perm : forall t pre, Permutation (paths (selected path sel t pre)) pre.
  Proof. intros t pre. unfold selected. destruct (Hsel t pre) as [HP _]. destruct (sel t pre). exact HP. Qed.

  Definition change (st : state path) (p : pfx) (newr : route path) : state path :=
    mkState (store path p newr (routes st)) (clients st) (S (clock st)).

  Lemma route_at_change : forall st p newr p',
    route_at (change st p newr) p' = if p =? p' then (match paths newr with [] => nil_route | _ :: _ => newr end) else route_at st p'.
  Proof. intros. apply route_at_store. Qed.

  Lemma paths_change : forall st p newr, paths (route_at (change st p newr) p) = paths newr.
  Proof. intros. rewrite route_at_change, Nat.eqb_refl. destruct (paths newr) eqn:E; [reflexivity|exact E]. Qed.

  Lemma vals_change : forall st p newr p', vals (change st p newr) p' = if p =? p' then map snd (paths newr) else vals st p'.
  Proof.
    intros st p newr p'. destruct (Nat.eqb_spec p p') as [<-|NE]; unfold vals; [now rewrite paths_change|].
    rewrite route_at_change. now destruct (Nat.eqb_spec p p').
  Qed.

  Lemma limit_slice_incl : forall o (r : route path), incl (limit_slice path o r) (paths r).
  Proof. intros o r x Hx. unfold limit_slice in Hx. eapply In_firstn; eassumption. Qed.

  Lemma limit_slice_nil : forall o, limit_slice path o nil_route = [].
  Proof. intros o. unfold limit_slice. cbn. now rewrite Nat.min_0_r. Qed.

  Lemma limit_slice_change : forall o st p newr, limit_slice path o (route_at (change st p newr) p) = limit_slice path o newr.
  Proof.
    intros o st p newr. rewrite route_at_change, Nat.eqb_refl. destruct (paths newr) eqn:E; [|reflexivity].
    rewrite limit_slice_nil. unfold limit_slice. rewrite E. now destruct (Nat.min _ _).
  Qed.

  Lemma propagate_nil : forall cl p, propagate path cl p nil_route nil_route = [].
  Proof.
    intros cl p. unfold propagate, remove_from_clients, add_to_clients.
    induction cl as [|co cl IH]; [reflexivity|]. cbn [flat_map]. rewrite limit_slice_nil. cbn [paths_diff filter map app].
    apply app_eq_nil in IH. destruct IH as [I1 I2]. now rewrite I1, I2.
  Qed.

  Notation reselect := (LocRIBClientsProofs.reselect path sel).

  Definition pre_of (st : state path) (o : op path) : option (pfx * list (entry path)) :=
    match o with
    | OAdd p v => Some (p, paths (route_at st p) ++ [(clock st, v)])
    | ORemove p v => Some (p, remove_first path (fun e => path_compare (snd e) v) (paths (route_at st p)))
    | _ => None
    end.

  (* RemovePath on a prefix without a route included: nothing stored, nothing selected, nobody told *)
  Lemma lstep_route : forall st o p pre, pre_of st o = Some (p, pre) ->
    lstep st o = Ok (change st p (reselect (clock st) pre))
                    (propagate path (clients st) p (route_at st p) (reselect (clock st) pre)).
  Proof.
    intros st o p pre H. destruct o as [p0 v|p0 v| | | |]; try discriminate; injection H as <- <-.
    - cbn [step]. now destruct (paths (route_at st p0)).
    - cbn [step]. unfold route_at. destruct (lookup p0 (routes st)) as [oldr|] eqn:EL; [reflexivity|].
      cbn [paths nil_route remove_first LocRIBClientsProofs.reselect]. rewrite propagate_nil.
      unfold change, tick, store. cbn [paths nil_route]. now rewrite del_absent.
  Qed.

  Lemma reselect_perm : forall t pre, Permutation (paths (reselect t pre)) pre.
  Proof. intros t pre. rewrite (LocRIBClientsProofs.selected_or_nil path sel Hsel). apply selected_perm. Qed.

  (* LocRIB.AddPath *)
  Lemma loc_add : forall st p v,
    exists st' cbs, lstep st (OAdd p v) = Ok st' cbs /\
      Permutation (vals st' p) (vals st p ++ [v]) /\
      (forall p', p' <> p -> vals st' p' = vals st p') /\ clients st' = clients st.
  Proof.
    intros st p v. eexists. eexists. split; [exact (lstep_route st (OAdd p v) _ _ eq_refl)|]. split; [|split; [|reflexivity]].
    - rewrite vals_change, Nat.eqb_refl. eapply Permutation_trans; [apply Permutation_map, reselect_perm|]. now rewrite map_app.
    - intros p' NE. rewrite vals_change. destruct (Nat.eqb_spec p p'); congruence.
  Qed.

  (* drop_first (fun a => path_compare a v) written out: the two are convertible *)
  Definition rm_first (v : path) (l : list path) : list path :=
    (fix go (l : list path) := match l with [] => [] | a :: r => if path_compare a v then r else a :: go r end) l.

  Lemma remove_first_vals : forall v (l : list (entry path)),
    map snd (remove_first path (fun e => path_compare (snd e) v) l) = rm_first v (map snd l).
  Proof.
    intros v. induction l as [|e l IH]; [reflexivity|]. cbn.
    destruct (path_compare (snd e) v); [reflexivity|]. cbn. now rewrite IH.
  Qed.

  (* LocRIB.RemovePath *)
  Lemma loc_remove : forall st p v,
    exists st' cbs, lstep st (ORemove p v) = Ok st' cbs /\
      Permutation (vals st' p) (rm_first v (vals st p)) /\
      (forall p', p' <> p -> vals st' p' = vals st p') /\ clients st' = clients st.
  Proof.
    intros st p v. eexists. eexists. split; [exact (lstep_route st (ORemove p v) _ _ eq_refl)|]. split; [|split; [|reflexivity]].
    - rewrite vals_change, Nat.eqb_refl. eapply Permutation_trans; [apply Permutation_map, reselect_perm|]. now rewrite remove_first_vals.
    - intros p' NE. rewrite vals_change. destruct (Nat.eqb_spec p p'); congruence.
  Qed.

  Lemma rm_first_ckey : forall r b l,
    map ckey (rm_first (PBgp r b) l) = rm1 LocView.path_eq_dec (ckey (PBgp r b)) (map ckey l).
  Proof.
    intros r b l. apply (rm1_map_first LocView.path_eq_dec ckey (fun a => path_compare a (PBgp r b)) (x := ckey (PBgp r b)) l).
    intros a. apply compare_ckey.
  Qed.
End Loc.
