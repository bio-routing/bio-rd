(* C33 proofs: an invariant [inv] of the per-interface state that every device update preserves; [follows]:
   after a run the link state of every interface is [last_up] of the history, so the routines run exactly on
   the active interfaces whose link is up ([routines_follow_link]). Under HEAD's lock discipline an event with a
   tick or a frame during it is the plain event plus a hello count (the [*_head] equations); under the other
   disciplines the same update blocks (the two lock theorems at the end). *)
From Coq Require Import List Bool.
Import ListNotations.
From BioVerif Require Import Model.Ifa Spec.IfaSpec.

Definition link_up (f : ifa) : bool := dev_known f && oper_up f.

(* Between two events: the done channel is open; a passive interface owns nothing; an active
   interface whose link is up runs both routines on an open handle with a live ticker; an active
   interface whose link is not up runs nothing and its handle (if any) is closed. *)
Definition inv (f : ifa) : Prop :=
  subscribed f = true /\ done_closed f = false /\
  (if passive f then
     eth f = NoHandle /\ initialized f = false /\ sender f = false /\ receiver f = false
   else if link_up f then
     initialized f = true /\ eth f = Open /\ sender f = true /\ receiver f = true /\ ticker_live f = true
   else
     initialized f = false /\ sender f = false /\ receiver f = false /\ eth f <> Open).

Lemma inv_new : forall p, inv (new_ifa p).
Proof.
  intros p. unfold inv, new_ifa, link_up. simpl. destruct p; repeat split; congruence.
Qed.

(* _stop with the done channel open: closing it lets the sender leave, closing the handle lets the
   receiver leave, so wg.Wait returns whatever ran before. *)
Lemma stop_ok : forall f, done_closed f = false ->
  stop f = Ok (mkIfa (passive f) (dev_known f) (oper_up f) false false
                     (if is_nil (eth f) then NoHandle else Closed) (handles f)
                     (if sender f then false else ticker_live f) false false (subscribed f)).
Proof.
  intros [p k u i d e n t s r sb] Hd. simpl in Hd. subst d.
  destruct e, s, r; reflexivity.
Qed.

Lemma device_update_inv : forall f up, inv f ->
  exists f', device_update f up = Ok f' /\ inv f' /\ passive f' = passive f /\ link_up f' = up.
Proof.
  intros f up (Hsb & Hd & H). unfold device_update. fold (link_up f).
  destruct (link_up f) eqn:Hl, up; cbn [negb andb].
  - eexists. split; [reflexivity |]. unfold inv, link_up. cbn. repeat split; auto.
  - rewrite stop_ok by exact Hd.
    eexists. split; [reflexivity |]. unfold inv, link_up. cbn.
    destruct (passive f).
    + destruct H as (-> & _). cbn. repeat split; auto.
    + destruct H as (_ & -> & _). cbn. repeat split; auto. discriminate.
  - unfold start. cbn [initialized passive done_closed]. rewrite Hd.
    destruct (passive f).
    + destruct H as (He & -> & Hs & Hr).
      eexists. split; [reflexivity |]. unfold inv, link_up. cbn. repeat split; auto.
    + destruct H as (-> & _).
      eexists. split; [reflexivity |]. unfold inv, link_up. cbn. repeat split; auto.
  - eexists. split; [reflexivity |]. unfold inv, link_up. cbn. repeat split; auto.
Qed.

Lemma deliver_head : forall f up, inv f -> deliver head_discipline f up = device_update f up.
Proof.
  intros f up [Hsb _]. unfold deliver. rewrite Hsb. cbn [stop_unsubscribes head_discipline andb].
  destruct (device_update f up); reflexivity.
Qed.

Definition follows (g : nat -> bool -> bool) (s s' : srv) : Prop :=
  forall j, match nth_error s j, nth_error s' j with
            | Some f, Some f' => passive f' = passive f /\ link_up f' = g j (link_up f)
            | None, None => True
            | _, _ => False
            end.

Lemma follows_refl : forall s, follows (fun _ b => b) s s.
Proof. intros s j. destruct (nth_error s j); auto. Qed.

Lemma follows_trans : forall g h s s1 s2,
  follows g s s1 -> follows h s1 s2 -> follows (fun j b => h j (g j b)) s s2.
Proof.
  intros g h s s1 s2 H1 H2 j. specialize (H1 j). specialize (H2 j).
  destruct (nth_error s j), (nth_error s1 j), (nth_error s2 j); try contradiction; auto.
  destruct H1 as [Hp1 Hl1], H2 as [Hp2 Hl2]. split; congruence.
Qed.

Lemma update_nth_inv : forall i s up, Forall inv s ->
  exists s', update_nth head_discipline i s up = Ok s' /\ Forall inv s' /\
    follows (fun j b => if Nat.eqb j i then up else b) s s'.
Proof.
  intros i s up Hall. revert i. induction Hall as [| f r Hf Hr IH]; intros i.
  - exists []. destruct i; repeat split; auto; intros []; exact I.
  - destruct i as [| i].
    + destruct (device_update_inv f up Hf) as (f' & Hdu & Hinv' & Hp & Hl).
      exists (f' :: r). simpl. rewrite (deliver_head f up Hf), Hdu. simpl. repeat split; auto.
      intros [| j]; simpl; [auto |]. destruct (nth_error r j); auto.
    + destruct (IH i) as (r' & Hup & Hall' & Hnth).
      exists (f :: r'). simpl. rewrite Hup. simpl. repeat split; auto.
      intros [| j]; simpl; [auto | apply Hnth].
Qed.

Lemma regen_ok : forall s, regen s = Ok tt.
Proof.
  induction s as [| f r IH]; simpl; auto.
  destruct (dev_known f) eqn:Hk; simpl; auto.
Qed.

Lemma psnp_ok : forall s, psnp_tick s = Ok tt.
Proof.
  induction s as [| f r IH]; simpl; auto.
  destruct (passive f); simpl; auto.
  destruct (eth f); simpl; auto.
Qed.

Lemma inv_routines : forall f, inv f ->
  sends_hellos f = negb (passive f) && link_up f /\
  can_form_adjacency f = negb (passive f) && link_up f.
Proof.
  intros f (_ & _ & H). unfold sends_hellos, can_form_adjacency.
  destruct (passive f); [| destruct (link_up f)].
  - destruct H as (_ & _ & -> & ->). auto.
  - destruct H as (_ & -> & -> & -> & ->). auto.
  - destruct H as (_ & -> & -> & _). auto.
Qed.

(* A hello tick never meets a nil handle: a live sender has an open one. *)
Lemma tick_send : forall f, inv f ->
  (if sender f && ticker_live f then handle_send (eth f) else Ok false) = Ok (sends_hellos f).
Proof.
  intros f (_ & _ & H). unfold sends_hellos.
  destruct (passive f); [| destruct (link_up f)].
  - destruct H as (_ & _ & -> & _). reflexivity.
  - destruct H as (_ & -> & -> & _ & ->). reflexivity.
  - destruct H as (_ & -> & _). reflexivity.
Qed.

Definition hello_count (f : ifa) : nat := if sends_hellos f then 1 else 0.

Lemma hello_tick_ok : forall s, Forall inv s -> hello_tick s = Ok (map hello_count s).
Proof.
  induction 1 as [| f r Hf Hr IH]; simpl; auto.
  rewrite (tick_send f Hf), IH. reflexivity.
Qed.

Lemma life_ok : forall s, Forall inv s -> life s = Ok (map hello_count s).
Proof.
  intros s Hall. unfold life. rewrite regen_ok. simpl. rewrite psnp_ok. simpl.
  apply hello_tick_ok; auto.
Qed.

(* a tick or a frame arriving while DeviceUpdate holds the lock, under HEAD's discipline: the
   update itself proceeds as without it; a tick yields one more hello iff the sender was sending *)
Definition during_hellos (f : ifa) (w : during) : nat :=
  match w with TickDuring => hello_count f | FrameDuring => 0%nat end.

Lemma device_update_during_head : forall f up w, inv f ->
  device_update_during head_discipline f up w =
  bind (device_update f up) (fun f' => Ok (f', during_hellos f w)).
Proof.
  intros f up w Hf. unfold device_update_during, head_discipline. cbn [sender_locks receiver_locks].
  rewrite !andb_false_r.
  destruct w; [rewrite (tick_send f Hf) |]; cbn [bind];
    destruct (dev_known f && oper_up f && negb up); reflexivity.
Qed.

Definition ev_target (e : event) : nat * bool :=
  match e with Dev i up => (i, up) | DevDuring i up _ => (i, up) end.

Definition ev_during (s : srv) (e : event) : nat :=
  match e with
  | Dev _ _ => 0%nat
  | DevDuring i _ w => match nth_error s i with Some f => during_hellos f w | None => 0%nat end
  end.

Lemma update_nth_during_head : forall s i up w, Forall inv s ->
  update_nth_during head_discipline i s up w =
  bind (update_nth head_discipline i s up) (fun s' => Ok (s', ev_during s (DevDuring i up w))).
Proof.
  intros s i up w Hall. revert i.
  induction Hall as [| f r Hf Hr IH]; intros [| i]; try reflexivity; simpl.
  - rewrite (deliver_head f up Hf), (proj1 Hf), (device_update_during_head f up w Hf).
    destruct (device_update f up); reflexivity.
  - rewrite IH. destruct (update_nth head_discipline i r up); reflexivity.
Qed.

Lemma step_head : forall s e, Forall inv s ->
  step head_discipline s e =
  bind (update_nth head_discipline (fst (ev_target e)) s (snd (ev_target e))) (fun s' =>
  bind (life s') (fun hs => Ok (s', (ev_during s e, hs)))).
Proof.
  intros s [i up | i up w] Hall; simpl; [reflexivity |].
  rewrite (update_nth_during_head s i up w Hall).
  destruct (update_nth head_discipline i s up); reflexivity.
Qed.

Lemma step_inv : forall s e, Forall inv s ->
  exists s', step head_discipline s e = Ok (s', (ev_during s e, map hello_count s')) /\ Forall inv s' /\
      forall j, match nth_error s j, nth_error s' j with
                | Some f, Some f' => passive f' = passive f /\
                                     link_up f' = (if Nat.eqb j (fst (ev_target e)) then snd (ev_target e) else link_up f)
                | None, None => True
                | _, _ => False
                end.
Proof.
  intros s e Hall.
  destruct (update_nth_inv (fst (ev_target e)) s (snd (ev_target e)) Hall) as (s' & Hup & Hall' & Hnth).
  exists s'. rewrite (step_head s e Hall), Hup. simpl. rewrite (life_ok s' Hall'). auto.
Qed.

Lemma run_inv : forall evs s, Forall inv s ->
  exists s', run head_discipline s evs = Ok s' /\ Forall inv s' /\ follows (last_up evs) s s'.
Proof.
  induction evs as [| e r IH]; intros s Hall.
  - exists s. repeat split; [exact Hall | apply follows_refl].
  - destruct (step_inv s e Hall) as (s1 & Hstep & Hall1 & Hnth1).
    destruct (IH s1 Hall1) as (s2 & Hrun & Hall2 & Hnth2).
    exists s2. simpl. rewrite Hstep. simpl. repeat split; auto.
    (* Hnth1 is [follows] of the one update, written out; [last_up (e :: r)] computes once e is a constructor *)
    destruct e; exact (follows_trans _ _ _ _ _ Hnth1 Hnth2).
Qed.

Lemma init_inv : forall kinds, Forall inv (init kinds).
Proof. intros kinds. apply Forall_map, Forall_forall. intros p _. apply inv_new. Qed.

Lemma run_ok_inv : forall kinds evs s, run head_discipline (init kinds) evs = Ok s ->
  Forall inv s /\ follows (last_up evs) (init kinds) s.
Proof.
  intros kinds evs s Hrun. destruct (run_inv evs (init kinds) (init_inv kinds)) as (s' & Hrun' & H).
  rewrite Hrun in Hrun'. injection Hrun' as <-. exact H.
Qed.

(* The three predicates of Spec/IfaSpec.v are proved folded here; Properties/C33.v states their bodies. *)
Theorem no_panic : forall kinds evs, survives kinds evs.
Proof.
  intros kinds evs. destruct (run_inv evs (init kinds) (init_inv kinds)) as (s' & Hrun & _).
  exists s'. exact Hrun.
Qed.

Lemma after_run : forall kinds evs s i f,
  run head_discipline (init kinds) evs = Ok s -> nth_error s i = Some f ->
  inv f /\ link_up f = last_up evs i false.
Proof.
  intros kinds evs s i f Hrun Hnth. destruct (run_ok_inv kinds evs s Hrun) as [Hall Hn]. split.
  - eapply Forall_forall; [exact Hall |]. eapply nth_error_In; eauto.
  - specialize (Hn i). rewrite Hnth in Hn. unfold init in Hn. rewrite nth_error_map in Hn.
    destruct (nth_error kinds i); [| contradiction]. exact (proj2 Hn).
Qed.

Theorem routines_follow_link : forall kinds evs s i f,
  run head_discipline (init kinds) evs = Ok s -> nth_error s i = Some f ->
  sends_hellos f = negb (passive f) && last_up evs i false /\
  can_form_adjacency f = negb (passive f) && last_up evs i false.
Proof.
  intros kinds evs s i f Hrun Hnth.
  destruct (after_run kinds evs s i f Hrun Hnth) as [Hinv <-]. exact (inv_routines f Hinv).
Qed.

Theorem hellos_after_up_all : forall kinds evs, hellos_after_up kinds evs.
Proof.
  intros kinds evs s i f Hrun Hnth Hact Hlast.
  destruct (routines_follow_link kinds evs s i f Hrun Hnth) as [-> ->].
  rewrite Hact, Hlast. auto.
Qed.

Theorem quiet_otherwise_all : forall kinds evs, quiet_otherwise kinds evs.
Proof.
  intros kinds evs s i f Hrun Hnth Hcase.
  destruct (routines_follow_link kinds evs s i f Hrun Hnth) as [-> ->].
  destruct Hcase as [-> | ->]; [| rewrite andb_false_r]; auto.
Qed.

(* in ANY state between events in which an active interface's link is up, a link-down update during
   which the hello ticker fires blocks for good when the sender takes nifa.mu *)
Theorem sender_lock_blocks : forall f rl us, inv f -> passive f = false -> link_up f = true ->
  device_update_during (mkDisc true rl us) f false TickDuring = Blocked WaitHelloSender.
Proof.
  intros f rl us [_ [_ Hi]] Hp Hl. rewrite Hp, Hl in Hi. destruct Hi as (_ & He & Hs & _ & Ht).
  unfold device_update_during. unfold link_up in Hl. rewrite Hl, Hs, Ht, He. reflexivity.
Qed.

Theorem receiver_lock_blocks : forall f sl us, inv f -> passive f = false -> link_up f = true ->
  device_update_during (mkDisc sl true us) f false FrameDuring = Blocked WaitReceiver.
Proof.
  intros f sl us [_ [_ Hi]] Hp Hl. rewrite Hp, Hl in Hi. destruct Hi as (_ & He & _ & Hr & _).
  unfold device_update_during. unfold link_up in Hl. rewrite Hl, Hr, He. reflexivity.
Qed.
