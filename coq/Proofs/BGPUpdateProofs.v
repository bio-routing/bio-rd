(* C19: an UPDATE that the decoder model accepts is well-formed (Spec/BGPUpdateSpec.v), and so is whatever a
   session installs from it. The decoder half is decode_spec (Proofs/BGPCodecProofs.v), read on a successful run. *)
From Coq Require Import List NArith Bool Lia.
Import ListNotations.
From BioVerif Require Import Lib.ListFacts Model.BGPCodec Model.BGPInstall Spec.BGPUpdateSpec
  Proofs.BGPCodecFacts Proofs.BGPCodecProofs.
Local Open Scope N_scope.

Lemma decode_update_wellformed : forall fuel o b l ty u rest al,
  decode fuel o b = (Ok (mkMsg l ty (BUpdate u)) rest, al) ->
  exists c, b = c ++ rest /\ wellformed false l u c.
Proof.
  intros fuel o b l ty u rest al E. pose proof (decode_spec fuel o b 0) as H. unfold decode in E. rewrite E in H.
  destruct H as (c & Hb & Hm & _). exists c. split; assumption.
Qed.

Lemma firstn_skipn_len : forall (b : list N) n, len (firstn n b) = N.of_nat n -> len (firstn n b) = N.of_nat n.
Proof. auto. Qed.

Lemma chunks_size : forall attrs chunks,
  Forall2 (fun a (ch : list N) => len ch = attr_size a) attrs chunks -> len (concat chunks) = attrs_size attrs.
Proof.
  intros attrs chunks H. induction H as [|a ch attrs chunks Ha _ IH]; [reflexivity|].
  cbn [concat attrs_size fold_right]. rewrite len_app. fold (attrs_size attrs). lia.
Qed.

Lemma sections_exact : forall l u c,
  sections false l u c -> attrs_fill_tpal u -> sections true l u c /\ len c = l.
Proof.
  intros l u c (hdr & wl & cw & tl & chunks & cn & Hc & H1 & H2 & H3 & H4 & H5 & H6 & _ & H8) Hf.
  pose proof (chunks_size _ _ H5) as Hs. unfold attrs_fill_tpal in Hf.
  split.
  - exists hdr, wl, cw, tl, chunks, cn. repeat split; try assumption; lia.
  - subst c. rewrite !len_app. lia.
Qed.

Lemma update_wellformed : forall o b l ty u rest al,
  decode (S (length b)) o b = (Ok (mkMsg l ty (BUpdate u)) rest, al) ->
  exists c, b = c ++ rest /\ wellformed false l u c.
Proof. intros. eapply decode_update_wellformed; eauto. Qed.

Lemma update_lengths_partial : forall fuel o b l ty u rest al,
  decode fuel o b = (Ok (mkMsg l ty (BUpdate u)) rest, al) ->
  attrs_fill_tpal u ->
  len b = l + len rest /\ exists c, b = c ++ rest /\ wellformed true l u c.
Proof.
  intros fuel o b l ty u rest al E Hf.
  destruct (decode_update_wellformed _ _ _ _ _ _ _ _ E) as (c & Hb & Hs & Hp & Hm).
  destruct (sections_exact _ _ _ Hs Hf) as (Hs' & Hl).
  split; [subst b; rewrite len_app; lia|]. exists c. split; [exact Hb|]. split; [exact Hs'|]. split; assumption.
Qed.

Definition entry_ok (afi : N) (u : update_msg) (e : entry) : Prop :=
  p_len (e_pfx e) <= afiAddrLen afi * 8 /\ e_nh e = true /\
  hasAttr 1 (u_attrs u) = true /\ hasAttr 2 (u_attrs u) = true.

Lemma lastReach_in : forall l acc a s nl,
  lastReach l acc = Some (a, s, nl) ->
  acc = Some (a, s, nl) \/ exists x nh, In x l /\ a_type x = 14 /\ a_val x = AVMPReach a s nh nl.
Proof.
  induction l as [|x l IH]; intros acc a s nl H; cbn [lastReach] in H; [left; exact H|].
  apply IH in H. destruct H as [H|(y & nh & Hy & Ht & Hv)].
  - destruct (a_val x) eqn:Ev; auto.
    destruct (a_type x =? 14) eqn:Et; auto.
    inversion H; subst. right. exists x, nh. split; [left; reflexivity|]. split; [lia|exact Ev].
  - right. exists y, nh. split; [right; exact Hy|]. auto.
Qed.

Lemma hasAttr_in : forall t l x, In x l -> a_type x = t -> hasAttr t l = true.
Proof.
  intros t l x Hin Ht. unfold hasAttr. apply existsb_exists. exists x. split; [exact Hin|]. lia.
Qed.

Lemma removePath_ok : forall (P : entry -> Prop) ap t p id, Forall P t -> Forall P (removePath ap t p id).
Proof. intros P ap t p id. apply incl_Forall, incl_filter. Qed.

Lemma fold_add_ok : forall (P : entry -> Prop) ap nh nl t,
  Forall P t -> (forall n, In n nl -> P (mkEntry (n_pfx n) (n_id n) nh)) ->
  Forall P (fold_left (fun t n => addPath ap t (n_pfx n) (n_id n) nh) nl t).
Proof.
  intros P ap nh nl t Ht Hn. revert t Ht. apply fold_left_invariant. intros t n Hin Ht.
  apply Forall_app. split; [apply removePath_ok, Ht|]. constructor; [apply Hn, Hin|constructor].
Qed.

Lemma fold_remove_ok : forall (P : entry -> Prop) ap nl t,
  Forall P t -> Forall P (fold_left (fun t n => removePath ap t (n_pfx n) (n_id n)) nl t).
Proof. intros P ap nl. apply fold_left_invariant. intros t n _. apply removePath_ok. Qed.

Lemma processUpdate_ok : forall afi ap u,
  prefix_lengths_ok u -> mandatory_ok u -> Forall (entry_ok afi u) (processUpdate afi ap u).
Proof.
  intros afi ap u (Hw & Hn & Hv) (Hm1 & Hm2). unfold processUpdate.
  (* t1, t2: the table after the last MP_REACH_NLRI, then after the last MP_UNREACH_NLRI *)
  set (t1 := match lastReach (u_attrs u) None with Some _ => _ | None => _ end).
  assert (H1 : Forall (entry_ok afi u) t1).
  { subst t1. destruct (lastReach (u_attrs u) None) as [[[a s] nl]|] eqn:El; [|constructor].
    destruct ((a =? afi) && (s =? 1)) eqn:Ea; [|constructor].
    apply lastReach_in in El. destruct El as [El|(x & nh & Hx & Ht & Hxv)]; [discriminate|].
    apply fold_add_ok; [constructor|]. intros n Hin.
    rewrite Forall_forall in Hv. specialize (Hv x Hx). rewrite Hxv in Hv. cbn [val_ok] in Hv.
    rewrite Forall_forall in Hv. specialize (Hv n Hin). unfold nlri_ok in Hv.
    destruct (Hm2 (hasAttr_in 14 _ x Hx Ht)) as (Ho & Has).
    unfold entry_ok. cbn [e_pfx e_nh]. assert (a = afi) by lia. subst a. auto. }
  set (t2 := match lastUnreach (u_attrs u) None with Some _ => _ | None => _ end).
  assert (H2 : Forall (entry_ok afi u) t2).
  { subst t2. destruct (lastUnreach (u_attrs u) None) as [[[a s] nl]|]; [|exact H1].
    destruct ((a =? afi) && (s =? 1)); [|exact H1]. apply fold_remove_ok. exact H1. }
  destruct (afi =? 1) eqn:E4; [|exact H2].
  apply fold_add_ok; [apply fold_remove_ok; exact H2|].
  intros n Hin. assert (Hne : u_nlri u <> []) by (intros E; rewrite E in Hin; destruct Hin).
  destruct (Hm1 Hne) as (Ho & Has & Hnh).
  rewrite Forall_forall in Hn. specialize (Hn n Hin). unfold nlri_ok in Hn.
  unfold entry_ok. cbn [e_pfx e_nh]. assert (afi = 1) by lia. subst afi. auto.
Qed.

(* anything a session installs from the bytes b comes from an UPDATE that the decoder accepted and that is
   well-formed; the installed entry has a prefix length within the family, a next hop, ORIGIN and AS_PATH *)
Lemma installed_wellformed : forall afi fuel o b e,
  In e (installed afi o (decode fuel o b)) ->
  exists l ty u rest al c,
    decode fuel o b = (Ok (mkMsg l ty (BUpdate u)) rest, al) /\
    b = c ++ rest /\ wellformed false l u c /\ entry_ok afi u e.
Proof.
  intros afi fuel o b e Hin. unfold installed in Hin.
  destruct (decode fuel o b) as [[m rest| | |] al] eqn:E; cbn [fst] in Hin; try contradiction.
  destruct m as [l ty bd]. cbn [m_body] in Hin. destruct bd as [op|u| |c s]; try contradiction.
  destruct (decode_update_wellformed _ _ _ _ _ _ _ _ E) as (c & Hb & Hs & Hp & Hm).
  exists l, ty, u, rest, al, c. split; [reflexivity|]. split; [exact Hb|]. split; [split; [exact Hs|split; assumption]|].
  pose proof (processUpdate_ok afi (if afi =? 1 then addPath4 o else addPath6 o) u Hp Hm) as Hall.
  rewrite Forall_forall in Hall. apply Hall. exact Hin.
Qed.
