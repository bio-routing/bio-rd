(* C24 proofs: on serialised schedules the two-FSM model of collision handling refines the atomic
   RFC 4271 6.8 / RFC 6286 reference machine; witnesses for the two schedule classes in which that
   fails. The invariant gives each FSM instance one of 14 shapes (its control fields) and relates
   the two shapes by a table. [step_shapes] says how a step the guard admits changes the two shapes
   ([shape_step]); [shape_step_sound] checks on shapes alone that the table is preserved and that
   the abstraction moves as the reference machine does. *)
From Coq Require Import List NArith Bool.
Import ListNotations.
From BioVerif Require Import Model.Collision Spec.CollisionSpec.

Lemma should_cease_is_local_less : forall c id, should_cease_on_collision c id = local_less c id.
Proof.
  intros c id. unfold should_cease_on_collision, local_less.
  destruct (N.eqb (rid c) id) eqn:E.
  - apply N.eqb_eq in E. rewrite E, N.ltb_irrefl. reflexivity.
  - rewrite orb_false_r. reflexivity.
Qed.

Definition spec_safe (s : spec) : Prop := ~ (up (s0 s) = true /\ up (s1 s) = true).

Lemma spec_step_safe : forall c s l, spec_safe s -> spec_safe (spec_step c s l).
Proof.
  intros c [a b] l H. unfold spec_safe in *.
  (* 216 goals: [case] on the tests and a direct refutation are half as dear as [destruct] and [intuition] *)
  destruct l as [| |i id|i|i|j|j]; try exact H; try destruct i; destruct a, b; try exact H; cbn;
    repeat match goal with
           | |- context [if ?x then _ else _] => case x
           end; intros [H0 H1]; first [discriminate H0 | discriminate H1 | apply H; split; reflexivity].
Qed.

Lemma spec_run_keeps : forall c (P : spec -> Prop), (forall s l, P s -> P (spec_step c s l)) ->
  forall ls s, P s -> P (spec_run c s ls).
Proof.
  intros c P Hstep ls. induction ls as [|l ls IH]; intros s H; cbn; [exact H|].
  apply IH. apply Hstep. exact H.
Qed.

Lemma rfc_at_most_one : forall c ls, spec_safe (spec_run c spec_init ls).
Proof. intros. apply spec_run_keeps; [apply spec_step_safe|]. unfold spec_safe. cbn. intuition discriminate. Qed.

Inductive shape :=
| ShAbsent | ShConnect
| ShSent | ShSentWait | ShSentPendOC | ShSentPendIdle | ShSentDead
| ShOC | ShOCPendE | ShOCCeasing | ShOCDead
| ShE | ShEPendE | ShIdle.

Definition ctl (f : inst) : fstate * option fstate * bool * bool * bool * bool :=
  (pub f, pend f, alive f, attached f, waiting f, ceasing f).

Definition shape_ctl (sh : shape) : fstate * option fstate * bool * bool * bool * bool :=
  match sh with
  | ShAbsent => (Absent, None, false, false, false, false)
  | ShConnect => (Connect, None, true, false, false, false)
  | ShSent => (OpenSent, None, true, false, false, false)
  | ShSentWait => (OpenSent, None, true, false, true, false)
  | ShSentPendOC => (OpenSent, Some OpenConfirm, true, false, false, false)
  | ShSentPendIdle => (OpenSent, Some Idle, true, false, false, false)
  | ShSentDead => (OpenSent, None, false, false, false, false)
  | ShOC => (OpenConfirm, None, true, false, false, false)
  | ShOCPendE => (OpenConfirm, Some Established, true, false, false, false)
  | ShOCCeasing => (OpenConfirm, None, true, false, false, true)
  | ShOCDead => (OpenConfirm, None, false, false, false, false)
  | ShE => (Established, None, true, true, false, false)
  | ShEPendE => (Established, Some Established, true, true, false, false)
  | ShIdle => (Idle, None, true, false, false, false)
  end.

Definition is_dead_shape (sh : shape) : bool := match sh with ShSentDead | ShOCDead => true | _ => false end.
Definition is_wait_shape (sh : shape) : bool := match sh with ShSentWait => true | _ => false end.
Definition is_oc_shape (sh : shape) : bool := match sh with ShOC => true | _ => false end.
Definition lost_shape (sh : shape) : bool := match sh with ShOCCeasing | ShOCDead => true | _ => false end.
(* the FSM has finished its own collision check and was not ceased *)
Definition past_check (sh : shape) : bool :=
  match sh with ShSentPendOC | ShOC | ShOCPendE | ShE | ShEPendE => true | _ => false end.

Definition has_shape (f : inst) (sh : shape) : Prop :=
  ctl f = shape_ctl sh /\
  (is_dead_shape sh = true -> closed f = true /\ hd_error (wire f) = Some cease_notification).

(* abs_inst on shapes *)
Definition sabs (sh : shape) (cease_in_flight : bool) : sstate :=
  match sh with
  | ShAbsent => SNone
  | ShSentDead | ShOCDead | ShOCCeasing => SClosedCease
  | _ =>
    if cease_in_flight then SClosedCease else
    match sh with
    | ShConnect => SNone
    | ShSent => SOpenSent
    | ShSentWait | ShSentPendOC | ShOC => SOpenConfirm
    | ShSentPendIdle | ShIdle => SRejected
    | _ => SEstablished
    end
  end.

(* the table: (1,2) an instance blocked in cease() (ShSentWait) has a partner that sits in OpenConfirm's
   select (ShOC); (3,4) the partner of an instance that lost (ceasing or ended from OpenConfirm) is past
   its own collision check; (5) read through [sabs], at most one of the two is OpenConfirm/Established *)
Definition compat (a b : shape) : bool :=
  (negb (is_wait_shape a) || is_oc_shape b) && (negb (is_wait_shape b) || is_oc_shape a) &&
  (negb (lost_shape a) || past_check b) && (negb (lost_shape b) || past_check a) &&
  negb (up (sabs a (is_wait_shape b)) && up (sabs b (is_wait_shape a))).

Definition Inv (p : peer) : Prop :=
  exists a b, has_shape (f0 p) a /\ has_shape (f1 p) b /\ compat a b = true.

Lemma init_inv : forall c, Inv (init c).
Proof.
  intro c. exists ShConnect, ShAbsent. repeat split; try reflexivity; cbn; discriminate.
Qed.

Definition inst_of (a : shape) (n : N) (w : list msg) (cl : bool) : inst :=
  let '(pu, pe, al, att, wa, ce) := shape_ctl a in mkinst pu pe al n att w cl wa ce.

Lemma has_shape_inst : forall f a, has_shape f a -> f = inst_of a (nid f) (wire f) (closed f).
Proof. intros [pu pe al n att w cl wa ce] a [E _]. unfold ctl in E. cbn in E. unfold inst_of. rewrite <- E. reflexivity. Qed.

Lemma get_set_same : forall p i f, get (set p i f) i = f.
Proof. intros p [] f; reflexivity. Qed.
Lemma get_set_other : forall p i f, get (set p i f) (negb i) = get p (negb i).
Proof. intros p [] f; reflexivity. Qed.
Lemma get_set_negb : forall p i f, get (set p (negb i) f) i = get p i.
Proof. intros p [] f; reflexivity. Qed.
Lemma pc_set : forall p i f, pc (set p i f) = pc p.
Proof. intros p [] f; reflexivity. Qed.

Definition spec_at (i : idx) (x y : sstate) : spec := if i then mkspec y x else mkspec x y.

Lemma abs_inst_shape : forall a n w cl x, abs_inst (inst_of a n w cl) x = sabs a x.
Proof. intros a n w cl x. destruct a, x; reflexivity. Qed.
Lemma waiting_inst : forall a n w cl, waiting (inst_of a n w cl) = is_wait_shape a.
Proof. intros a n w cl. destruct a; reflexivity. Qed.

Lemma abs_at : forall p i a b, has_shape (get p i) a -> has_shape (get p (negb i)) b ->
  abs p = spec_at i (sabs a (is_wait_shape b)) (sabs b (is_wait_shape a)).
Proof.
  intros p i a b Ha Hb.
  assert (E : abs p = spec_at i (abs_inst (get p i) (waiting (get p (negb i))))
                                (abs_inst (get p (negb i)) (waiting (get p i)))) by (destruct i; reflexivity).
  rewrite E, (has_shape_inst _ _ Ha), (has_shape_inst _ _ Hb), !abs_inst_shape, !waiting_inst. reflexivity.
Qed.

Lemma compat_sym : forall a b, compat a b = compat b a.
Proof.
  intros a b. unfold compat. rewrite (andb_comm (up (sabs b _))).
  destruct (negb (is_wait_shape a) || is_oc_shape b), (negb (is_wait_shape b) || is_oc_shape a),
    (negb (lost_shape a) || past_check b), (negb (lost_shape b) || past_check a); reflexivity.
Qed.

Lemma Inv_at : forall p i,
  Inv p <-> exists a b, has_shape (get p i) a /\ has_shape (get p (negb i)) b /\ compat a b = true.
Proof.
  intros p i. split; intros (a & b & Ha & Hb & Hc); (destruct i; [exists b, a; rewrite compat_sym | exists a, b]); auto.
Qed.

Definition lidx (l : label) : idx :=
  match l with LUp => false | LAccept => true | LOpen i _ | LPublish i | LKeep i | LTake i | LHandle i => i end.

Definition sh_pub (a : shape) : fstate := pub (inst_of a 0 [] false).
Definition sh_pend (a : shape) : option fstate := pend (inst_of a 0 [] false).

(* the shape of an OpenSent instance after its OPEN: rejected, or as collisionHandling decides on the
   other instance's published state *)
Definition open_shape (bad less : bool) (b : shape) : shape :=
  if bad then ShSentPendIdle
  else if is_established (sh_pub b) then ShSentDead
  else if negb (is_open_confirm (sh_pub b)) then ShSentPendOC
  else if less then ShSentWait else ShSentDead.

(* a: shape of the instance the label is about ([lidx]), b: of the other one; None where a state of
   the invariant has no step that the guard admits (the guard is the two tests on b, at LOpen and LKeep) *)
Definition shape_step (c : cfg) (l : label) (a b : shape) : option (shape * shape) :=
  match l, a with
  | LUp, ShConnect | LAccept, ShAbsent => Some (ShSent, b)
  | LOpen _ id, ShSent =>
    if is_none (sh_pend b)
    then Some (open_shape (N.eqb (las c) (pas c) && N.eqb (rid c) id) (local_less c id) b, b) else None
  | LPublish _, ShSentPendOC => Some (ShOC, b)
  | LPublish _, ShSentPendIdle => Some (ShIdle, b)
  | LPublish _, (ShOCPendE | ShEPendE) => Some (ShE, b)
  | LKeep _, ShOC => if is_wait_shape b then None else Some (ShOCPendE, b)
  | LKeep _, ShE => Some (ShEPendE, b)
  | LTake _, ShOC => if is_wait_shape b then Some (ShOCCeasing, ShSentPendOC) else None
  | LHandle _, ShOCCeasing => Some (ShOCDead, b)
  | _, _ => None
  end.

Lemma shape_step_sound : forall c l a b, compat a b = true ->
  match shape_step c l a b with
  | Some (a', b') =>
    compat a' b' = true /\
    spec_at (lidx l) (sabs a' (is_wait_shape b')) (sabs b' (is_wait_shape a')) =
    spec_step c (spec_at (lidx l) (sabs a (is_wait_shape b)) (sabs b (is_wait_shape a))) l
  | None => True
  end.
Proof.
  intros c l a b Hc.
  destruct l as [| |i id|i|i|i|i]; destruct a; try exact I; destruct b; try discriminate Hc; try exact I; cbn.
  all: try case (N.eqb (las c) (pas c) && N.eqb (rid c) id); try case (local_less c id).
  all: split; [reflexivity | try destruct i; reflexivity].
Qed.

(* collisionHandling of instance i looks at the other instance only *)
Lemma coll_loop_entries : forall c p i id f,
  coll_loop c i id (entries (set p i f)) =
  if is_established (pub (get p (negb i))) then ChCeaseSelf
  else if negb (is_open_confirm (pub (get p (negb i)))) then ChPass
  else if local_less c id then ChCease (negb i) else ChCeaseSelf.
Proof. intros c p [] id f; cbn; rewrite should_cease_is_local_less; reflexivity. Qed.

Lemma coll_loop_after : forall c q j n, coll_loop c (negb j) n (entries_after q j) = ChPass.
Proof. intros c q [] n; reflexivity. Qed.

(* from here on cbn must not unfold get/set: [step_shapes] rewrites with get_set_same / get_set_other *)
Local Arguments set : simpl never.
Local Arguments get : simpl never.

Lemma shapes_set : forall p i f' a' b,
  has_shape f' a' -> has_shape (get p (negb i)) b ->
  has_shape (get (set p i f') i) a' /\ has_shape (get (set p i f') (negb i)) b.
Proof. intros p i f' a' b Ha Hb. rewrite get_set_same, get_set_other. split; assumption. Qed.

Lemma step_shapes : forall p l a b,
  has_shape (get p (lidx l)) a -> has_shape (get p (negb (lidx l))) b -> compat a b = true ->
  guard_ok p l = true ->
  match step p l, shape_step (pc p) l a b with
  | Some p', Some (a', b') => has_shape (get p' (lidx l)) a' /\ has_shape (get p' (negb (lidx l))) b'
  | Some _, None => False
  | None, _ => True
  end.
Proof.
  intros p l a b Ha Hb Hc Hg. unfold guard_ok, window_ok, cease_first_ok, held in Hg.
  pose proof (has_shape_inst _ _ Ha) as Ef. pose proof (has_shape_inst _ _ Hb) as Eg.
  destruct l as [| |i id|i|i|i|i]; cbn [lidx] in *; cbn [step].
  - change (f0 p) with (get p false). rewrite Ef. destruct a; try exact I. cbn.
    apply shapes_set; [split; [reflexivity | discriminate] | exact Hb].
  - change (f1 p) with (get p true). rewrite Ef. destruct a; try exact I. cbn.
    apply shapes_set; [split; [reflexivity | discriminate] | exact Hb].
  - rewrite Eg in Hg. rewrite coll_loop_entries, Ef, Eg.
    destruct a; try exact I. destruct b; try discriminate Hg; cbn.
    all: case (N.eqb (las (pc p)) (pas (pc p)) && N.eqb (rid (pc p)) id);
      [|cbn; try case (local_less (pc p) id)].
    all: apply shapes_set; [split; [reflexivity|] | exact Hb].
    all: cbn; first [discriminate | intros _; split; reflexivity].
  - rewrite Ef. destruct a; try exact I; cbn.
    all: apply shapes_set; [split; [reflexivity | discriminate] | exact Hb].
  - rewrite Eg, waiting_inst in Hg. apply negb_true_iff in Hg. rewrite Ef.
    destruct a; try exact I; cbn; rewrite ?Hg.
    all: apply shapes_set; [split; [reflexivity | discriminate] | exact Hb].
  - rewrite coll_loop_after, Ef, Eg.
    destruct b; try exact I; destruct a; try exact I; try discriminate Hc.
    cbn. rewrite get_set_negb, get_set_same, get_set_same.
    split; split; try reflexivity; discriminate.
  - rewrite Ef. destruct a; try exact I. cbn.
    apply shapes_set; [split; [reflexivity | intros _; split; reflexivity] | exact Hb].
Qed.

Lemma step_inv : forall p l p',
  Inv p -> guard_ok p l = true -> step p l = Some p' ->
  Inv p' /\ abs p' = spec_step (pc p) (abs p) l.
Proof.
  intros p l p' Hi Hg Hs.
  destruct (proj1 (Inv_at p (lidx l)) Hi) as (a & b & Ha & Hb & Hc).
  pose proof (step_shapes p l a b Ha Hb Hc Hg) as H. rewrite Hs in H.
  pose proof (shape_step_sound (pc p) l a b Hc) as Hsd.
  destruct (shape_step (pc p) l a b) as [[a' b']|]; [|contradiction].
  destruct H as [Ha' Hb']. destruct Hsd as [Hc' Hsp].
  split; [apply (Inv_at p' (lidx l)); exists a', b'; auto |].
  rewrite (abs_at p' _ _ _ Ha' Hb'), (abs_at p _ _ _ Ha Hb). exact Hsp.
Qed.

Lemma step_pc : forall p l p', step p l = Some p' -> pc p' = pc p.
Proof.
  intros p l p' H. destruct l; cbn [step] in H;
    repeat match type of H with
           | context [if ?x then _ else _] => destruct x
           | context [match pend ?f with _ => _ end] => destruct (pend f)
           end; try discriminate H; injection H as <-; rewrite ?pc_set; reflexivity.
Qed.

Lemma run_refines : forall ls p p',
  Inv p -> serialised p ls = true -> run p ls = Some p' ->
  Inv p' /\ pc p' = pc p /\ abs p' = spec_run (pc p) (abs p) ls.
Proof.
  induction ls as [|l ls IH]; intros p p' Hi Hg Hr.
  - cbn in Hr. injection Hr as <-. auto.
  - unfold serialised in Hg. cbn [along run] in Hg, Hr.
    destruct (step p l) as [p1|] eqn:Hs; [|discriminate].
    apply andb_prop in Hg. destruct Hg as [Hg1 Hg2]. cbn [spec_run].
    destruct (step_inv p l p1 Hi Hg1 Hs) as [Hi1 Ha1].
    destruct (IH p1 p' Hi1 Hg2 Hr) as [Hi' [Hc' Ha']].
    rewrite (step_pc _ _ _ Hs) in Hc', Ha'. rewrite Ha1 in Ha'. auto.
Qed.

Lemma reached : forall c ls p,
  run (init c) ls = Some p -> serialised (init c) ls = true ->
  Inv p /\ abs p = spec_run c spec_init ls.
Proof.
  intros c ls p Hr Hg. destruct (run_refines ls (init c) p (init_inv c) Hg Hr) as (Hi & _ & H). exact (conj Hi H).
Qed.

Lemma sget_at : forall i x y, sget (spec_at i x y) i = x.
Proof. intros [] x y; reflexivity. Qed.

Lemma inv_est_abs : forall p i, Inv p -> est (get p i) = true -> sget (abs p) i = SEstablished.
Proof.
  intros p i Hi He. destruct (proj1 (Inv_at p i) Hi) as (a & b & Ha & Hb & Hc).
  rewrite (abs_at p i a b Ha Hb), sget_at. rewrite (has_shape_inst _ _ Ha) in He.
  destruct a; try discriminate He; destruct b; try discriminate Hc; reflexivity.
Qed.

Lemma inv_safe : forall p, Inv p -> spec_safe (abs p).
Proof.
  intros p (a & b & Ha & Hb & Hc) [H0 H1]. rewrite (abs_at p false a b Ha Hb) in H0, H1. cbn in H0, H1.
  unfold compat in Hc. rewrite H0, H1, andb_false_r in Hc. discriminate Hc.
Qed.

Lemma inv_loser : forall p i, Inv p -> sget (abs p) i = SClosedCease ->
  (held p i = false -> ceasing (get p i) = false ->
   alive (get p i) = false /\ closed (get p i) = true /\
   hd_error (wire (get p i)) = Some cease_notification /\ est (get p i) = false) /\
  (held p i = true -> step p (LTake i) <> None) /\
  (ceasing (get p i) = true -> step p (LHandle i) <> None).
Proof.
  intros p i Hi Hs. destruct (proj1 (Inv_at p i) Hi) as (a & b & Ha & Hb & Hc).
  rewrite (abs_at p i a b Ha Hb), sget_at in Hs.
  pose proof (has_shape_inst _ _ Ha) as Ef. pose proof (has_shape_inst _ _ Hb) as Eg.
  unfold held. cbn [step]. rewrite Eg, waiting_inst. split; [|split].
  - intros Hh Hz. rewrite Hh in Hs. rewrite Ef in Hz. destruct Ha as [_ Da].
    destruct a; try discriminate Hs; try discriminate Hz; destruct (Da eq_refl) as [D1 D2];
      repeat split; try assumption; rewrite Ef; reflexivity.
  - intro H. rewrite Ef. destruct b; try discriminate H. destruct a; try discriminate Hc. discriminate.
  - intro H. rewrite Ef in H |- *. destruct a; try discriminate H. discriminate.
Qed.

Lemma spec_est_stable_step : forall c i s l, sget s i = SEstablished -> sget (spec_step c s l) i = SEstablished.
Proof.
  intros c i [a b] l H.
  destruct l as [| |k id|k|k|k|k]; try destruct k; destruct i; cbn in H; subst; cbn;
    try reflexivity;
    repeat match goal with
           | |- context [if ?x then _ else _] => destruct x
           | |- context [match ?x with SNone => _ | _ => _ end] => destruct x
           end; reflexivity.
Qed.

Theorem only_one_ever : forall ls p p' i j,
  Inv p -> serialised p ls = true -> run p ls = Some p' ->
  est (get p i) = true -> est (get p' j) = true -> i = j.
Proof.
  intros ls p p' i j Hi Hg Hr Ei Ej. destruct (run_refines ls p p' Hi Hg Hr) as (Hi' & _ & E).
  pose proof (spec_run_keeps (pc p) _ (spec_est_stable_step (pc p) i) ls _ (inv_est_abs p i Hi Ei)) as Si.
  rewrite <- E in Si. pose proof (inv_est_abs p' j Hi' Ej) as Sj.
  destruct i, j; try reflexivity; exfalso; apply (inv_safe p' Hi'); cbn [sget] in Si, Sj; rewrite Si, Sj; split; reflexivity.
Qed.

Lemma along_app : forall g l1 l2 p p1,
  run p l1 = Some p1 -> along g p (l1 ++ l2) = true -> along g p l1 = true /\ along g p1 l2 = true.
Proof.
  intros g l1 l2. induction l1 as [|l l1 IH]; intros p p1 Hr H; cbn [app along run] in *.
  - injection Hr as <-. auto.
  - destruct (step p l) as [q|]; [|discriminate Hr]. apply andb_prop in H. destruct H as [H1 H2].
    rewrite H1. exact (IH q p1 Hr H2).
Qed.

Definition w_cfg : cfg := mkcfg 5 100 200.

(* both OPENs are checked before either new state is stored: both pass, both sessions establish
   (and attach: [rib_clients p = 2] below is "two Loc-RIB clients") *)
Definition w_window : list label :=
  [LUp; LAccept; LOpen false 9; LOpen true 9; LPublish false; LPublish true;
   LKeep false; LKeep true; LPublish false; LPublish true].

(* every check sees stored states, but the FSM that is asked to cease takes the KEEPALIVE first: it becomes
   Established and attached; once it has taken the Cease event the other one goes on to Established while the
   handler (NOTIFICATION, uninit, Close) has not run yet *)
Definition w_cease_race : list label :=
  [LUp; LAccept; LOpen false 9; LPublish false; LOpen true 9; LKeep false; LPublish false;
   LTake false; LPublish true; LKeep true; LPublish true].

(* the window schedule violates only the first conjunct of the guard ... *)
Lemma witness_window : exists p,
  run (init w_cfg) w_window = Some p /\ along cease_first_ok (init w_cfg) w_window = true /\
  est (f0 p) = true /\ est (f1 p) = true /\ rib_clients p = 2%N /\
  checks_after_publication (init w_cfg) w_window = false.
Proof. eexists. split; [vm_compute; reflexivity|]. vm_compute. auto 6. Qed.

(* ... the cease race only the second *)
Lemma witness_cease_race : exists p,
  run (init w_cfg) w_cease_race = Some p /\ checks_after_publication (init w_cfg) w_cease_race = true /\
  est (f0 p) = true /\ est (f1 p) = true /\ rib_clients p = 2%N /\
  along cease_first_ok (init w_cfg) w_cease_race = false.
Proof. eexists. split; [vm_compute; reflexivity|]. vm_compute. auto 6. Qed.
