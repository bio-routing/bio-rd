(* BMPStack: the BMP router model with the BGP layer instantiated by the component models
   (Model/BMPStack.v). No panic and linear allocation come from the component theorems (C27, C16, C20);
   proved here: the conversions meet their hypotheses, and the sum. The mirror theorem needs no lemma:
   Properties/BMPStack.v instantiates BMPMirrorProofs.mirror. *)
From Coq Require Import List ZArith Bool Lia.
From BioVerif Require Model.BGPCodec Model.AdjRIBIn Model.UpdateApply Spec.UpdateApplySpec Spec.BGPCodecSpec
  Proofs.BGPCodecProofs Proofs.UpdateApplyProofs.
From BioVerif Require Import Model.BMPCodec Model.BMPRouter Model.BMPStack
  Proofs.BMPCodecProofs Proofs.BMPServeProofs.

Lemma conv_attr_typed : forall a, UpdateApply.attr_typed (conv_attr a) = true.
Proof.
  intros a. unfold conv_attr.
  destruct (BGPCodec.a_type a) as [|p]; [destruct (BGPCodec.a_val a); reflexivity|].
  repeat (destruct p as [p|p|]; try (destruct (BGPCodec.a_val a); reflexivity)).
Qed.

Lemma conv_update_well_typed : forall u, UpdateApplySpec.well_typed (conv_update u).
Proof.
  intros u a Hin. unfold conv_update in Hin. cbn [UpdateApply.u_attrs] in Hin.
  apply in_map_iff in Hin. destruct Hin as (x & <- & _). apply conv_attr_typed.
Qed.

(* C20 on what the codec hands over: processing is the fold of the per-NLRI operations the
   instantiated upd_apply is defined by *)
Lemma stack_update_applies : forall afi u s,
  UpdateApply.process_update afi 1 (conv_update u) s =
  UpdateApply.Done (fold_left AdjRIBIn.step (UpdateApplySpec.message_ops afi (conv_update u)) s).
Proof. intros. apply UpdateApplyProofs.per_nlri. apply conv_update_well_typed. Qed.

Lemma open_alloc_zero : forall b, open_alloc b = 0.
Proof.
  intros b. unfold open_alloc. destruct (len b <? min_open_len); [reflexivity|].
  pose proof (BGPCodecProofs.good_decodeOpen _ 0 0 (skipn bgp_header_len b) 0 (Nat.lt_succ_diag_r _)) as H.
  destruct (BGPCodec.decodeOpen _ _ 0) as [[a r| | |] al]; cbn [snd]; try contradiction; [destruct H as (_ & _ & H)|]; lia.
Qed.

(* the carried BGP message is a part of the BMP message *)
Lemma decode_rm_len : forall msg h upd k, decode msg = (Ok (MRouteMon h upd), k) -> len upd <= len msg.
Proof. intros msg h upd k H. destruct (decode_costs msg) as (_ & Q). rewrite H in Q. exact Q. Qed.

Lemma inner_alloc_msg_bound : forall c st msg, inner_alloc_msg c st msg <= 65535 + 3 * len msg.
Proof.
  intros c st msg. unfold inner_alloc_msg. destruct (decode msg) as [r k] eqn:D.
  destruct r as [m| | |]; try lia.
  destruct m as [h upd|h cnt0 stats|h rs data|h lo lp rp sent rcvd info|ts|ts|h ts]; cbn [inner_alloc]; try lia.
  - pose proof (decode_rm_len _ _ _ _ D) as L.
    destruct ((ignore_pre c && negb (flag_l h)) || (ignore_post c && flag_l h)); [lia|].
    destruct (mem_src (src_of h) (r_ignored st)); [lia|].
    destruct (find_nbr (p_rd h, p_addr h) (r_nbrs st)) as [n|]; [|lia].
    pose proof (BGPCodecProofs.alloc_bounded (stack_options (n_ap4 n) (n_ap6 n) (negb (flag_a h))) upd) as A.
    unfold BGPCodecSpec.alloc_bound, BGPCodecSpec.alloc_c1, BGPCodecSpec.alloc_c2 in A.
    unfold BGPCodec.len in A. unfold len in *. lia.
  - destruct (ignored_asn c (p_as h)); [lia|]. rewrite !open_alloc_zero.
    destruct (stack_open_decode sent); lia.
Qed.

(* a frame has at least 6 bytes (recv_spec), and 65535 <= 10923 * 6 *)
Lemma inner_alloc_stream_bound : forall c fuel st s, inner_alloc_stream c fuel st s <= 10926 * len s.
Proof.
  intros c. induction fuel as [|f IH]; intros st s; cbn [inner_alloc_stream]; [lia|].
  destruct (r_closed st); [lia|].
  pose proof (recv_spec s) as RS. destruct (recv s) as [m rest k|k|k|]; try lia.
  destruct RS as (R1 & R2 & _). unfold min_len in R1.
  pose proof (inner_alloc_msg_bound c st m) as B.
  destruct (stack_process c st m) as [[o st'] k2]. destruct o.
  - specialize (IH st' rest). lia.
  - lia.
Qed.

(* 11901 = 975 (C27, BMP layer) + 10926 (inner_alloc_stream_bound) *)
Theorem stack_alloc_linear : forall (c : cfg) (st : rstate) (s : bytes), bytes_ok s ->
  stack_alloc c st s <= 11901 * len s + 5800.
Proof.
  intros c st s Hb. unfold stack_alloc, stack_serve.
  destruct (serve_total stack_open_decode stack_upd_apply c st s) as (st' & cost & frames & E & _).
  rewrite E. pose proof (serve_alloc_linear _ _ _ _ _ _ _ _ Hb E).
  pose proof (inner_alloc_stream_bound c (S (length s)) st s). lia.
Qed.
