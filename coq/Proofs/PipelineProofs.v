(* The receiving side of the composed model.  The Loc-RIB's candidates of a prefix are, up to
   Path.Compare, the union over ALL sessions of what the component model says client 0 of that session's Adj-RIB-In
   holds (Jp); every Adj-RIB-In is a run of the component model (Model.AdjRIBIn.run) on the recorded calls (SgoodW);
   client 0 is registered iff the session is up (LinkOk).  Inv is these three; with C05 (mirror_fixed) as a black box
   it gives: the Loc-RIB is the union of the contributions of the sessions that are up (Inv_union), nothing of a
   session that is down (Inv_session_down).  Moves: an event as a sequence of moves, for what every single move keeps
   (used by PipelineOut, PipelineSend, PipelineOrder). *)
From Coq Require Import List NArith Bool Permutation.
Import ListNotations.
From BioVerif Require Import Lib.ListFacts Model.Pipeline Spec.PipelineSpec Proofs.PipelineIn Proofs.PipelineLoc.
From BioVerif Require Model.AdjRIBIn Model.LocRIBClients Model.AdjRIBOut Model.UpdateSender Model.LocView
  Spec.AdjRIBInSpec Spec.LocRIBClientsSpec Proofs.AdjRIBInProofs Proofs.LocRIBClientsProofs.


Section Pipe.
  Variable P : Type.
  Variable apply : P -> N -> AdjRIBOut.path -> option AdjRIBOut.path.
  Variable sel : nat -> list (LocRIBClients.entry AdjRIBOut.path) -> list (LocRIBClients.entry AdjRIBOut.path) * nat.
  Variable tagf : AdjRIBOut.bgp -> N.
  Hypothesis Hsel : LocRIBClientsSpec.sel_ok AdjRIBOut.path sel.
  Variable cfgs : list (scfg P).

  Notation sst := (sst P).
  Notation pst := (pst P).
  Notation lstep := (LocRIBClients.step AdjRIBOut.path AdjRIBOut.path_compare AdjRIBOut.path_equal sel).
  Notation loc_op := (loc_op P apply sel tagf cfgs).
  Notation in_op := (in_op P apply sel tagf cfgs).
  Notation pstep := (Pipeline.step P apply sel tagf cfgs).
  Notation prun := (Pipeline.run P apply sel tagf cfgs).

  (* Spec.SpeakerSpec.recv_state is the same triple *)
  Definition inpart (s : sst) := (ss_up P s, ss_in P s, ss_ops P s).

  Lemma set_out_inpart : forall s a u l, inpart (set_out P s a u l) = inpart s.
  Proof. reflexivity. Qed.
  Lemma set_hist_inpart : forall s h, inpart (set_hist P s h) = inpart s.
  Proof. reflexivity. Qed.

  Lemma with_cfg_inpart : forall k f ss, (forall c s, inpart (f c s) = inpart s) ->
    map inpart (with_cfg P cfgs k f ss) = map inpart ss.
  Proof.
    intros k f ss H. unfold with_cfg. destruct (nth_error cfgs k) as [c|]; [|reflexivity].
    apply map_upd_nth, H.
  Qed.

  Lemma deliver_inpart : forall ss b, map inpart (deliver P apply tagf cfgs ss b) = map inpart ss.
  Proof.
    intros ss b. destruct b; cbn [deliver]; try reflexivity; apply with_cfg_inpart; intros; reflexivity.
  Qed.

  Lemma deliver_fold_inpart : forall cbs ss,
    map inpart (fold_left (deliver P apply tagf cfgs) cbs ss) = map inpart ss.
  Proof.
    intros cbs. apply (fold_left_rel _ (fun a b => map inpart b = map inpart a)); [reflexivity|congruence|].
    intros ss b _. apply deliver_inpart.
  Qed.

  Lemma note_views_inpart : forall loc ps only ss, map inpart (note_views P loc ps only ss) = map inpart ss.
  Proof.
    intros loc ps only ss. unfold note_views. apply map_indexed_keeps. intros k s.
    destruct (LocRIBClients.lookup k (LocRIBClients.clients loc)); [|reflexivity].
    destruct (match only with Some k' => Nat.eqb k k' | None => true end); reflexivity.
  Qed.

  Lemma loc_op_inpart : forall st o, map inpart (ps_sess P (loc_op st o)) = map inpart (ps_sess P st).
  Proof.
    intros st o. unfold Pipeline.loc_op. destruct (lstep (ps_loc P st) o) as [loc' cbs|]; [|reflexivity].
    destruct (op_prefixes loc' o) as [ps only]. cbn [ps_sess].
    rewrite note_views_inpart. apply deliver_fold_inpart.
  Qed.

  Lemma loc_op_ok : forall st o loc' cbs, lstep (ps_loc P st) o = LocRIBClients.Ok loc' cbs ->
    ps_loc P (loc_op st o) = loc'.
  Proof.
    intros st o loc' cbs H. unfold Pipeline.loc_op. rewrite H. now destruct (op_prefixes loc' o).
  Qed.

  Lemma loc_op_length : forall st o, length (ps_sess P (loc_op st o)) = length (ps_sess P st).
  Proof. intros. rewrite <- (map_length inpart), loc_op_inpart. apply map_length. Qed.

  Definition bag0 (s : sst) : AdjRIBIn.ctable := AdjRIBIn.ct_get 0%N (AdjRIBIn.ctabs (ss_in P s)).

  Definition part (c : scfg P) (B : AdjRIBIn.ctable) (p : N) : list AdjRIBOut.path :=
    map ckey (map (lift_of P c) (AdjRIBIn.at_pfx p B)).

  Definition parts (cs : list (scfg P)) (bs : list AdjRIBIn.ctable) (p : N) : list (list AdjRIBOut.path) :=
    map (fun cb : scfg P * AdjRIBIn.ctable => part (fst cb) (snd cb) p) (combine cs bs).

  Lemma part_rmf : forall c q l,
    map ckey (map (lift_of P c) (rmf q l)) =
    rm1 LocView.path_eq_dec (ckey (lift_of P c q)) (map ckey (map (lift_of P c) l)).
  Proof.
    intros c q l. rewrite !map_map. unfold rmf.
    apply (rm1_map_first LocView.path_eq_dec (fun a => ckey (lift_of P c a))
             (fun a => AdjRIBIn.pcmp a q) (x := ckey (lift_of P c q)) l).
    intros a. rewrite AdjRIBInProofs.pcmp_iff. unfold lift_of. symmetry. apply ckey_lift_iff.
  Qed.

  Lemma part_src : forall c b p x, In x (part c b p) -> src_of x = Some (sc_ip P c).
  Proof.
    intros c b p x H. unfold part in H. rewrite map_map in H. apply in_map_iff in H. destruct H as [q [<- _]].
    rewrite src_ckey. reflexivity.
  Qed.

  Lemma parts_src : forall cs bs p x, In x (concat (parts cs bs p)) -> exists c, In c cs /\ src_of x = Some (sc_ip P c).
  Proof.
    intros cs bs p x H. apply in_concat in H. destruct H as [l [Hl Hx]]. unfold parts in Hl. apply in_map_iff in Hl.
    destruct Hl as [[c b] [<- Hcb]]. exists c. split; [exact (in_combine_l _ _ _ _ Hcb)|exact (part_src c b p x Hx)].
  Qed.

  Lemma lpfx_inj : forall p q, lpfx p = lpfx q -> p = q.
  Proof. intros p q H. now apply N2Nat.inj. Qed.

  (* the Loc-RIB's candidates, up to Path.Compare, are the union of the bags bs (one per session) *)
  Definition Jp (st : pst) (bs : list AdjRIBIn.ctable) : Prop :=
    forall p, Permutation (map ckey (candidates P st p)) (concat (parts cfgs bs p)).

  Definition ev_op (c : scfg P) (acc : pst) (e : AdjRIBIn.event) : pst :=
    match loc_of_event P c e with Some lo => loc_op acc lo | None => acc end.

  Definition foreign (c : scfg P) (R : N -> list AdjRIBOut.path) : Prop :=
    forall p x, In x (R p) -> src_of x <> Some (sc_ip P c).

  (* Jp with session k's bag B taken out of the union: the rest R stays as it is under every call on session k, and
     a path of session k is told from it by its Source *)
  Lemma parts_split : forall cs k c bs B, NoDup (map (sc_ip P) cs) -> nth_error cs k = Some c -> nth_error bs k = Some B ->
    exists R, foreign c R /\
      forall B' p, Permutation (concat (parts cs (upd_nth k (fun _ => B') bs) p)) (R p ++ part c B' p).
  Proof.
    induction cs as [|c0 cs IH]; intros [|k] c [|b0 bs] B ND Hc Hb; try discriminate; cbn in Hc, Hb;
      inversion ND as [|? ? N0 ND']; subst.
    - injection Hc as ->. exists (fun p => concat (parts cs bs p)). split; [|intros; apply Permutation_app_comm].
      intros p x Hx E. apply parts_src in Hx. destruct Hx as [c' [Hc' E']]. apply N0. rewrite E in E'. injection E' as ->.
      now apply in_map.
    - destruct (IH k c bs B ND' Hc Hb) as [R [HR HP]]. exists (fun p => part c0 b0 p ++ R p). split.
      + intros p x Hx. apply in_app_or in Hx. destruct Hx as [Hx|Hx]; [|exact (HR p x Hx)].
        apply part_src in Hx. intros E. rewrite E in Hx. injection Hx as Hx. apply N0. rewrite <- Hx.
        apply in_map. eapply nth_error_In; eassumption.
      + intros B' p. unfold parts. cbn. rewrite <- app_assoc. apply Permutation_app_head, HP.
  Qed.

  Definition Jsess (c : scfg P) (st : pst) (B : AdjRIBIn.ctable) (R : N -> list AdjRIBOut.path) : Prop :=
    forall p, Permutation (map ckey (candidates P st p)) (R p ++ part c B p).

  Lemma J_add : forall c st B R p0 q, Jsess c st B R ->
    Jsess c (loc_op st (LocRIBClients.OAdd (lpfx p0) (lift_of P c q))) (AdjRIBIn.ct_add p0 q B) R.
  Proof.
    intros c st B R p0 q J p.
    destruct (loc_add sel Hsel (ps_loc P st) (lpfx p0) (lift_of P c q)) as [loc' [cbs [Hs [HP [HO _]]]]].
    unfold candidates. rewrite (loc_op_ok _ _ _ _ Hs). fold (vals loc' (lpfx p)). unfold part. rewrite at_pfx_add.
    destruct (N.eqb_spec p0 p) as [->|NE].
    - rewrite !map_app, app_assoc. cbn [map]. eapply Permutation_trans; [apply Permutation_map, HP|]. rewrite map_app.
      apply Permutation_app_tail, J.
    - rewrite HO by (intros E; apply NE; symmetry; now apply lpfx_inj). apply J.
  Qed.

  Lemma J_remove : forall c st B R p0 q, foreign c R -> Jsess c st B R ->
    Jsess c (loc_op st (LocRIBClients.ORemove (lpfx p0) (lift_of P c q))) (AdjRIBIn.ct_remove p0 q B) R.
  Proof.
    intros c st B R p0 q HR J p.
    destruct (loc_remove sel Hsel (ps_loc P st) (lpfx p0) (lift_of P c q)) as [loc' [cbs [Hs [HP [HO _]]]]].
    unfold candidates. rewrite (loc_op_ok _ _ _ _ Hs). fold (vals loc' (lpfx p)). unfold part. rewrite at_pfx_remove.
    destruct (N.eqb_spec p0 p) as [->|NE].
    - rewrite part_rmf, <- rm1_app_r by (intros HI; apply (HR p _ HI); now rewrite src_ckey).
      eapply Permutation_trans; [apply Permutation_map, HP|].
      unfold lift_of at 1, lift. rewrite rm_first_ckey. apply rm1_perm, J.
    - rewrite HO by (intros E; apply NE; symmetry; now apply lpfx_inj). apply J.
  Qed.

  Lemma in_event1 : forall c e st B R, foreign c R -> plain e -> Jsess c st B R ->
    Jsess c (ev_op c st e) (ev_apply 0%N B e) R.
  Proof.
    intros c e st B R HR PL J. unfold ev_op.
    destruct e as [k' p0 q|k' p0 q|k' p0 q|k' p0 o n|k']; cbn [loc_of_event ev_apply]; try contradiction; try exact J;
      destruct (N.eqb k' 0); try exact J.
    - now apply J_add.
    - now apply J_add.
    - now apply J_remove.
  Qed.

  Lemma ev_fold_inpart : forall c evs st,
    map inpart (ps_sess P (fold_left (ev_op c) evs st)) = map inpart (ps_sess P st).
  Proof.
    intros c evs. apply (fold_left_rel _ (fun a b => map inpart (ps_sess P b) = map inpart (ps_sess P a)));
      [reflexivity|congruence|]. intros st e _. unfold ev_op. destruct (loc_of_event P c e); [apply loc_op_inpart|reflexivity].
  Qed.

  (* tbag (inpart s) is bag0 s *)
  Definition bagI (i : AdjRIBIn.st) : AdjRIBIn.ctable := AdjRIBIn.ct_get 0%N (AdjRIBIn.ctabs i).
  Notation itriple := (bool * AdjRIBIn.st * list AdjRIBIn.op)%type.
  Definition tbag (t : itriple) : AdjRIBIn.ctable := bagI (snd (fst t)).
  Definition tstep (o : AdjRIBIn.op) (t : itriple) : itriple :=
    (fst (fst t), AdjRIBIn.step (snd (fst t)) o, snd t ++ [o]).

  Lemma bag0_inpart : forall ss, map bag0 ss = map tbag (map inpart ss).
  Proof. intros. rewrite map_map. reflexivity. Qed.

  Lemma in_op_inparts : forall k o st,
    map inpart (ps_sess P (in_op k st o)) =
    match nth_error cfgs k, nth_error (ps_sess P st) k with
    | Some _, Some _ => upd_nth k (tstep o) (map inpart (ps_sess P st))
    | _, _ => map inpart (ps_sess P st)
    end.
  Proof.
    intros k o st. unfold Pipeline.in_op. destruct (nth_error cfgs k) as [c|]; [|reflexivity].
    destruct (nth_error (ps_sess P st) k) as [s|] eqn:Hs; [|reflexivity].
    fold (ev_op c). rewrite ev_fold_inpart. cbn [with_sess ps_sess].
    now apply (map_upd_nth_at _ _ inpart _ (tstep o) k _ s).
  Qed.

  Lemma in_op_inpart : forall k c s o st, nth_error cfgs k = Some c -> nth_error (ps_sess P st) k = Some s ->
    map inpart (ps_sess P (in_op k st o)) = upd_nth k (tstep o) (map inpart (ps_sess P st)).
  Proof. intros k c s o st Hc Hs. now rewrite in_op_inparts, Hc, Hs. Qed.

  Lemma sess_of_cfg : forall st k c, length (ps_sess P st) = length cfgs -> nth_error cfgs k = Some c ->
    exists s, nth_error (ps_sess P st) k = Some s.
  Proof. intros st k c HL. apply nth_error_same_length. now symmetry. Qed.

  Lemma in_op_inv : forall k c o st,
    distinct_peers P cfgs -> nth_error cfgs k = Some c -> not_replace o ->
    length (ps_sess P st) = length cfgs ->
    Jp st (map bag0 (ps_sess P st)) ->
    Jp (in_op k st o) (map bag0 (ps_sess P (in_op k st o))) /\
    map inpart (ps_sess P (in_op k st o)) = upd_nth k (tstep o) (map inpart (ps_sess P st)).
  Proof.
    intros k c o st DP Hc NR HL J.
    destruct (sess_of_cfg st k c HL Hc) as [s Hs].
    pose proof (in_op_inpart k c s o st Hc Hs) as I1. split; [|exact I1].
    pose proof (map_nth_error bag0 _ _ Hs) as Hb.
    destruct (parts_split cfgs k c _ _ DP Hc Hb) as [R [HR HP]].
    destruct (Ext_step o (ss_in P s)) as [new [HLog [HPl HBag]]].
    rewrite bag0_inpart, I1, (map_upd_nth_at _ _ tbag (tstep o) (fun _ => replay 0%N (rev new) (bag0 s)) k _ _ (map_nth_error inpart _ _ Hs) (HBag 0%N)),
      <- bag0_inpart.
    intros p. eapply Permutation_trans; [|apply Permutation_sym, HP].
    unfold Pipeline.in_op. rewrite Hc, Hs, HLog, gained_app. fold (ev_op c).
    apply (fold_left_sim _ _ (fun a B => Jsess c a B R)).
    { intros a B e He. apply (in_event1 c e a B R HR), (proj1 (Forall_forall _ _) (HPl NR)), in_rev, He. }
    intros p'. eapply Permutation_trans; [apply J|]. rewrite <- (upd_nth_same _ k _ _ Hb) at 1. apply HP.
  Qed.

  (* the premises of C05's mirror *)
  Definition SgoodW (c : scfg P) (t : itriple) : Prop :=
    snd (fst t) = AdjRIBIn.run (sc_sa P c) (sc_pol P c) (snd t) /\
    AdjRIBInSpec.reg_once [] (snd t) = true /\ AdjRIBInSpec.fixed_policy (snd t).

  Definition tlink (t : itriple) : bool * list N := (fst (fst t), AdjRIBInSpec.spec_regs (snd t)).
  Definition LinkOk (x : bool * list N) : Prop := snd x = if fst x then [0%N] else [].

  (* the calls the pipeline makes *)
  Definition okop (o : AdjRIBIn.op) (x : bool * list N) : Prop :=
    match o with
    | AdjRIBIn.ReplaceChain _ => False
    | AdjRIBIn.Register c' => ~ In c' (snd x)
    | _ => True
    end.

  Lemma SgoodW_tstep : forall c o t, SgoodW c t -> okop o (tlink t) -> SgoodW c (tstep o t).
  Proof.
    intros c o [[u i] ops] [HR [HO HF]] OK. unfold SgoodW, tstep, tlink in *. cbn [fst snd] in *. split; [|split].
    - rewrite AdjRIBInProofs.run_snoc. now rewrite HR.
    - rewrite AdjRIBInProofs.reg_once_snoc, HO, <- AdjRIBInProofs.spec_regs_fold. destruct o; try reflexivity.
      apply negb_true_iff, AdjRIBInProofs.mem_false_notin, OK.
    - intros x Hx. apply in_app_or in Hx. destruct Hx as [Hx|[<-|[]]]; [now apply HF|].
      destruct o; try exact I. contradiction.
  Qed.

  Lemma tlink_tstep : forall o t, tlink (tstep o t) = (fst (tlink t), AdjRIBInProofs.regs_step (snd (tlink t)) o).
  Proof. intros o [[u i] ops]. unfold tlink, tstep. cbn [fst snd]. now rewrite AdjRIBInProofs.spec_regs_snoc. Qed.

  Lemma tbag_vrf : forall o t, vrf_op o -> tbag (tstep o t) = tbag t.
  Proof.
    intros o [[u i] ops] H. unfold tbag, tstep, bagI. cbn [fst snd].
    destruct (vrf_op_frame o i H) as [_ [_ [_ [E _]]]]. now rewrite E.
  Qed.

  (* what is carried from event to event *)
  Record Inv (st : pst) : Prop := mkInv {
    inv_J : Jp st (map bag0 (ps_sess P st));
    inv_W : Forall2 SgoodW cfgs (map inpart (ps_sess P st));
    inv_L : Forall LinkOk (map tlink (map inpart (ps_sess P st)))
  }.

  Lemma SgoodW_length : forall ss, Forall2 SgoodW cfgs (map inpart ss) -> length ss = length cfgs.
  Proof. intros ss W. apply Forall2_length in W. now rewrite map_length in W. Qed.

  (* what every move of an event keeps.  T: who is up, whom each Adj-RIB-In serves; LinkOk of it, the third field of
     Inv, holds again only at the end of the event *)
  Definition JW (st : pst) (T : list (bool * list N)) : Prop :=
    Jp st (map bag0 (ps_sess P st)) /\ Forall2 SgoodW cfgs (map inpart (ps_sess P st)) /\
    map tlink (map inpart (ps_sess P st)) = T.

  Lemma JW_Inv : forall st T, JW st T -> Forall LinkOk T -> Inv st.
  Proof. intros st T [J [W <-]] L. now constructor. Qed.

  Lemma in_op_JW : forall k c o st T,
    distinct_peers P cfgs -> nth_error cfgs k = Some c -> JW st T ->
    (forall x, nth_error T k = Some x -> okop o x) ->
    JW (in_op k st o) (upd_nth k (fun x => (fst x, AdjRIBInProofs.regs_step (snd x) o)) T).
  Proof.
    intros k c o st T DP Hc [J [W <-]] OK.
    pose proof (SgoodW_length _ W) as HL.
    destruct (Forall2_nth_error k W Hc) as [t [Ht Gt]].
    specialize (OK _ (map_nth_error tlink _ _ Ht)).
    assert (NR : not_replace o) by (destruct o; try exact I; contradiction).
    destruct (in_op_inv k c o st DP Hc NR HL J) as [J' I'].
    split; [exact J'|]. rewrite I'. split; [|apply map_upd_nth_comm, tlink_tstep].
    apply Forall2_upd_nth; [exact W|].
    intros x y Hx Hy Rxy. rewrite Hc in Hx. rewrite Ht in Hy. inversion Hx; inversion Hy; subst x y.
    now apply SgoodW_tstep.
  Qed.

  Definition noreg (o : AdjRIBIn.op) : Prop :=
    match o with AdjRIBIn.Register _ | AdjRIBIn.Unregister _ | AdjRIBIn.ReplaceChain _ => False | _ => True end.

  Lemma in_op_noreg : forall j o st T, distinct_peers P cfgs -> noreg o -> JW st T -> JW (in_op j st o) T.
  Proof.
    intros j o st T DP NO H. destruct (nth_error cfgs j) as [c|] eqn:Hc; [|unfold Pipeline.in_op; now rewrite Hc].
    pose proof (in_op_JW j c o st T DP Hc H) as H'.
    rewrite upd_nth_id in H' by (intros [u r]; destruct o; try contradiction; reflexivity).
    apply H'. intros x _. destruct o; try contradiction; exact I.
  Qed.

  Lemma broadcast_rel : forall (R : pst -> pst -> Prop) js ops st,
    (forall a, R a a) -> (forall a b c, R a b -> R b c -> R a c) -> Forall vrf_op ops ->
    (forall j a o, vrf_op o -> R a (in_op j a o)) -> R st (vrf_broadcast P apply sel tagf cfgs js ops st).
  Proof.
    intros R js ops st Rr Rt VO H. unfold vrf_broadcast. apply fold_left_rel; auto. intros a j _. apply fold_left_rel; auto.
    intros b o Ho. apply H. exact (proj1 (Forall_forall _ _) VO o Ho).
  Qed.

  Lemma vrf_broadcast_inv : forall js ops st T, distinct_peers P cfgs -> Forall vrf_op ops -> JW st T ->
    JW (vrf_broadcast P apply sel tagf cfgs js ops st) T.
  Proof.
    intros js ops st T DP VO. apply (broadcast_rel (fun a b => JW a T -> JW b T)); auto.
    intros j a o Ho. apply in_op_noreg; [exact DP|now destruct o].
  Qed.

  Lemma vrf_add_ops : forall c, Forall vrf_op (vrf_add P c).
  Proof. intros c. unfold vrf_add. destruct (sc_cid P c); repeat constructor. Qed.
  Lemma vrf_del_ops : forall c, Forall vrf_op (vrf_del P c).
  Proof. intros c. unfold vrf_del. destruct (sc_cid P c); repeat constructor. Qed.

  Definition client_op (o : LocRIBClients.op AdjRIBOut.path) : Prop :=
    match o with LocRIBClients.ORegister _ _ | LocRIBClients.OUnregister _ => True | _ => False end.

  Lemma loc_op_client_candidates : forall st o, client_op o ->
    forall p, candidates P (loc_op st o) p = candidates P st p.
  Proof.
    intros st o Ho p. unfold candidates, Pipeline.loc_op.
    destruct o as [? ?|? ?|? ? ?|c oc|c|c]; try contradiction; cbn [LocRIBClients.step].
    - destruct (LocRIBClients.dump_routes AdjRIBOut.path c oc (LocRIBClients.routes (ps_loc P st))); reflexivity.
    - reflexivity.
  Qed.

  Lemma JW_same : forall st st' T, (forall p, candidates P st' p = candidates P st p) ->
    map inpart (ps_sess P st') = map inpart (ps_sess P st) -> JW st T -> JW st' T.
  Proof.
    intros st st' T HC HI [J W]. split; [|now rewrite HI].
    intros p. rewrite HC, bag0_inpart, HI, <- bag0_inpart. apply J.
  Qed.

  Lemma JW_fresh : forall st T k c s V a u l, nth_error cfgs k = Some c -> nth_error (ps_sess P st) k = Some s ->
    bag0 s = [] -> Forall vrf_op V -> JW st T ->
    JW (with_sess P st (upd_nth k (fun _ => mkSst P true (fold_left AdjRIBIn.step V (AdjRIBIn.init (sc_sa P c) (sc_pol P c)))
                                                  a u V [] l) (ps_sess P st)))
       (upd_nth k (fun _ => (true, [])) T).
  Proof.
    intros st T k c s V a u l Hc Hs B0 VP [J [W <-]].
    destruct (vrf_history V VP) as [HF HV]. destruct (HV [] (AdjRIBIn.init (sc_sa P c) (sc_pol P c))) as [HO [HR HB]].
    set (fresh := mkSst _ _ _ _ _ _ _ _). unfold JW. cbn [with_sess ps_sess].
    rewrite (map_upd_nth_comm _ _ inpart (fun _ => fresh) (fun _ => inpart fresh)) by reflexivity.
    assert (B1 : bag0 fresh = bag0 s) by (rewrite B0; unfold bag0, fresh; cbn [ss_in]; now rewrite HB).
    split; [|split].
    - intros p. rewrite (map_upd_nth_at _ _ bag0 (fun _ => fresh) (fun B => B) k _ s Hs), (upd_nth_id _ k (fun B => B)) by trivial.
      apply J.
    - apply Forall2_upd_nth; [exact W|]. intros x y Hx _ _. rewrite Hc in Hx. inversion Hx; subst x. now repeat split.
    - apply map_upd_nth_comm. intros _. exact (f_equal (pair true) HR).
  Qed.

  Lemma JW_down : forall st T k, JW st T ->
    JW (with_sess P st (upd_nth k (fun s => set_up P s false) (ps_sess P st))) (upd_nth k (fun x => (false, snd x)) T).
  Proof.
    intros st T k [J [W <-]]. unfold JW. cbn [with_sess ps_sess]. split; [|split].
    - intros p. rewrite (map_upd_nth _ _ bag0 k) by reflexivity. apply J.
    - rewrite (map_upd_nth_comm _ _ inpart _ (fun t : itriple => (false, snd (fst t), snd t))) by reflexivity.
      apply Forall2_upd_nth; [exact W|]. now intros x y _ _ G.
    - rewrite !map_map. now apply map_upd_nth_comm.
  Qed.

  (* what a session coming up and a session going down have in common: the VRF change told to every Adj-RIB-In, one
     call on the session's own, one client operation on the Loc-RIB *)
  Lemma session_calls : forall st T k c js V o lo, distinct_peers P cfgs -> nth_error cfgs k = Some c ->
    Forall vrf_op V -> client_op lo -> JW st T -> (forall x, nth_error T k = Some x -> okop o x) ->
    JW (loc_op (in_op k (vrf_broadcast P apply sel tagf cfgs js V st) o) lo)
       (upd_nth k (fun x => (fst x, AdjRIBInProofs.regs_step (snd x) o)) T).
  Proof.
    intros st T k c js V o lo DP Hc HV Hlo H OK.
    apply (JW_same _ _ _ (loc_op_client_candidates _ lo Hlo) (loc_op_inpart _ lo)).
    apply (in_op_JW k c o _ T DP Hc); [now apply vrf_broadcast_inv|exact OK].
  Qed.

  Lemma cfg_of_sess : forall st k s, Inv st -> nth_error (ps_sess P st) k = Some s -> exists c, nth_error cfgs k = Some c.
  Proof. intros st k s HI. apply nth_error_same_length, SgoodW_length, (inv_W st HI). Qed.

  (* a plain call (AddPath / RemovePath of the peer) on the Adj-RIB-In of a session *)
  Lemma Inv_in_op_noreg : forall st k o, distinct_peers P cfgs -> Inv st -> noreg o -> Inv (in_op k st o).
  Proof.
    intros st k o DP [J W L] NO. exact (JW_Inv _ _ (in_op_noreg k o st _ DP NO (conj J (conj W eq_refl))) L).
  Qed.

  Lemma us_event_inpart : forall k l st, map inpart (ps_sess P (us_event P cfgs k l st)) = map inpart (ps_sess P st).
  Proof.
    intros k l st. unfold us_event. destruct (is_up P st k); [|reflexivity]. apply with_cfg_inpart. intros. reflexivity.
  Qed.

  Lemma Inv_us_event : forall st k l, Inv st -> Inv (us_event P cfgs k l st).
  Proof.
    intros st k l [J W L].
    refine (JW_Inv _ _ (JW_same st _ _ _ (us_event_inpart k l st) (conj J (conj W eq_refl))) L).
    intros p. unfold us_event. now destruct (is_up P st k).
  Qed.

  Lemma bag_of_down : forall c s, SgoodW c (inpart s) -> LinkOk (tlink (inpart s)) -> ss_up P s = false -> bag0 s = [].
  Proof.
    intros c s [HR [HO HF]] LO Hd. unfold LinkOk, tlink, inpart, bag0 in *. cbn [fst snd] in *. rewrite Hd in LO. rewrite HR.
    apply (AdjRIBInProofs.mirror_fixed (sc_sa P c) (sc_pol P c) _ HF HO 0%N). rewrite LO. intros [].
  Qed.

  Lemma down_bag0 : forall st k c s, Inv st -> nth_error cfgs k = Some c -> nth_error (ps_sess P st) k = Some s ->
    ss_up P s = false -> bag0 s = [].
  Proof.
    intros st k c s [_ W L] Hc Hs. pose proof (map_nth_error inpart _ _ Hs) as Hi. apply (bag_of_down c).
    - destruct (Forall2_nth_error k W Hc) as [t [Ht Gt]]. rewrite Hi in Ht. now injection Ht as <-.
    - exact (proj1 (Forall_forall _ _) L _ (in_map tlink _ _ (nth_error_In _ _ Hi))).
  Qed.

  Lemma Inv_step_up : forall st k, distinct_peers P cfgs -> Inv st -> Inv (pstep st (EUp k)).
  Proof.
    intros st k DP HI. cbn [Pipeline.step]. destruct (nth_error cfgs k) as [c|] eqn:Hc; [|exact HI].
    destruct (is_up P st k) eqn:Hup; [exact HI|].
    destruct (sess_of_cfg st k c (SgoodW_length _ (inv_W st HI)) Hc) as [s Hs].
    assert (Hdown : ss_up P s = false) by (unfold is_up in Hup; now rewrite Hs in Hup).
    pose proof (down_bag0 st k c s HI Hc Hs Hdown) as B0.
    destruct HI as [J W L]. eapply JW_Inv.
    - eapply (session_calls _ _ k c _ (vrf_add P c) (AdjRIBIn.Register 0%N) (LocRIBClients.ORegister k (sc_opts P c))
               DP Hc (vrf_add_ops c) I).
      + eapply (JW_fresh st _ k c s _ _ _ _ Hc Hs B0); [|exact (conj J (conj W eq_refl))].
        apply Forall_flat_map, Forall_forall. intros j _. unfold cfg_ops.
        destruct (nth_error cfgs j) as [cj|]; [apply vrf_add_ops|constructor].
      + intros x Hx. rewrite nth_error_upd in Hx. destruct (nth_error (map tlink _) k); [|discriminate]. inversion Hx.
        exact (fun H => H).
    - rewrite upd_nth_twice. apply Forall_upd_nth; [exact L|]. reflexivity.
  Qed.

  Lemma Inv_step_down : forall st k, distinct_peers P cfgs -> Inv st -> Inv (pstep st (EDown k)).
  Proof.
    intros st k DP HI. cbn [Pipeline.step]. destruct (nth_error cfgs k) as [c|] eqn:Hc; [|exact HI].
    destruct (is_up P st k); [|exact HI]. cbn [negb].
    destruct HI as [J W L]. eapply JW_Inv.
    - apply JW_down, (session_calls st _ k c (others_up P cfgs st k ++ [k]) (vrf_del P c) (AdjRIBIn.Unregister 0%N)
                        (LocRIBClients.OUnregister k) DP Hc (vrf_del_ops c) I (conj J (conj W eq_refl)) (fun _ _ => I)).
    - rewrite upd_nth_twice. apply Forall_upd_nth; [exact L|]. unfold LinkOk. intros x Lx.
      cbn [fst snd AdjRIBInProofs.regs_step]. rewrite Lx. now destruct (fst x).
  Qed.

  Lemma Inv_step : forall st ev, distinct_peers P cfgs -> Inv st -> Inv (pstep st ev).
  Proof.
    intros st ev DP HI. destruct ev as [k|k|k p q|k p i|k key|k].
    - now apply Inv_step_up.
    - now apply Inv_step_down.
    - cbn [Pipeline.step]. destruct (is_up P st k); [|exact HI]. now apply Inv_in_op_noreg.
    - cbn [Pipeline.step]. destruct (is_up P st k); [|exact HI]. now apply Inv_in_op_noreg.
    - now apply Inv_us_event.
    - now apply Inv_us_event.
  Qed.

  Lemma parts_dead : forall cs p, concat (parts cs (map bag0 (map (dead_sst P) cs)) p) = [].
  Proof. induction cs as [|c cs IH]; intros p; [reflexivity|]. unfold parts in *. cbn. apply IH. Qed.

  Lemma Inv_init : Inv (Pipeline.init P cfgs).
  Proof.
    constructor; unfold Pipeline.init; cbn [ps_sess].
    - intros p. rewrite parts_dead. reflexivity.
    - induction cfgs as [|c cs IH]; cbn; constructor; [|exact IH].
      unfold SgoodW, inpart. cbn. split; [reflexivity|]. split; [reflexivity|]. intros x [].
    - induction cfgs as [|c cs IH]; cbn; constructor; [reflexivity|exact IH].
  Qed.

  Lemma Inv_run : forall evs, distinct_peers P cfgs -> Inv (prun evs).
  Proof.
    intros evs DP. unfold Pipeline.run. generalize Inv_init.
    apply (fold_left_rel _ (fun a b => Inv a -> Inv b)); auto. intros st ev _. now apply Inv_step.
  Qed.

  Lemma part_perm : forall c p A B,
    Permutation (map AdjRIBInSpec.ekey A) (map AdjRIBInSpec.ekey B) ->
    Permutation (map ckey (map (lift_of P c) (AdjRIBIn.at_pfx p A))) (map ckey (map (lift_of P c) (AdjRIBIn.at_pfx p B))).
  Proof.
    intros c p A B H.
    assert (G : forall X, map ckey (map (lift_of P c) (AdjRIBIn.at_pfx p X)) =
                          map (fun q => ckey (lift_of P c q)) (AdjRIBIn.at_pfx p (map AdjRIBInSpec.ekey X))).
    { intros X. rewrite at_pfx_ekey, !map_map. apply map_ext. intros q. unfold lift_of. apply ckey_lift_pkey. }
    rewrite !G. apply Permutation_map. unfold AdjRIBIn.at_pfx. apply Permutation_map. now apply Permutation_filter.
  Qed.

  Lemma part_contribution : forall c s p, SgoodW c (inpart s) -> LinkOk (tlink (inpart s)) ->
    Permutation (part c (bag0 s) p) (map ckey (if ss_up P s then contribution_at P c (ss_ops P s) p else [])).
  Proof.
    intros c s p G LO. destruct (ss_up P s) eqn:Hu.
    - destruct G as [HR [HO HF]]. unfold LinkOk, tlink, inpart in LO. cbn [fst snd] in *. rewrite Hu in LO.
      unfold part, contribution_at, bag0. cbn [inpart fst snd] in HR. rewrite HR.
      apply part_perm.
      apply (AdjRIBInProofs.mirror_fixed (sc_sa P c) (sc_pol P c) (ss_ops P s) HF HO 0%N). rewrite LO. now left.
    - unfold part. now rewrite (bag_of_down c s G LO Hu).
  Qed.

  Lemma parts_union : forall cs ss p,
    Forall2 SgoodW cs (map inpart ss) -> Forall LinkOk (map tlink (map inpart ss)) ->
    Permutation (concat (parts cs (map bag0 ss) p))
      (map ckey (flat_map (fun x : scfg P * sst => if ss_up P (snd x) then contribution_at P (fst x) (ss_ops P (snd x)) p else [])
                          (combine cs ss))).
  Proof.
    induction cs as [|c cs IH]; intros [|s ss] p W L.
    - reflexivity.
    - reflexivity.
    - cbn [map] in W. inversion W.
    - cbn [map] in W, L. inversion W as [|? ? ? ? W1 W2]; subst. inversion L as [|? ? L1 L2]; subst.
      unfold parts. cbn [map combine concat flat_map fst snd]. rewrite map_app.
      apply Permutation_app; [now apply part_contribution|].
      apply (IH ss p W2 L2).
  Qed.

  (* C05 + C06 + C07, composed: in any state of the invariant the candidates of a prefix are (up to Path.Compare) the union
     over the sessions that are up of their eligible, current, import-policy-rewritten announcements *)
  Theorem Inv_union : forall st p, Inv st ->
    Permutation (map ckey (candidates P st p)) (map ckey (union_of_contributions P cfgs st p)).
  Proof.
    intros st p [J W L]. eapply Permutation_trans; [apply J|]. unfold union_of_contributions. now apply parts_union.
  Qed.

  (* ... in particular, while session k is down nothing learned from it is a candidate, nor shown to any session: no such
     path carries its address as Source *)
  Theorem Inv_session_down : forall st k c s,
    distinct_peers P cfgs -> Inv st ->
    nth_error cfgs k = Some c -> nth_error (ps_sess P st) k = Some s -> ss_up P s = false ->
    forall (p : N) (x : AdjRIBOut.path),
      (In x (candidates P st p) -> src_of x <> Some (sc_ip P c)) /\
      (forall o, In x (visible o (ps_loc P st) (lpfx p)) -> src_of x <> Some (sc_ip P c)).
  Proof.
    intros st k c s DP HI Hc Hs Hd p x.
    assert (G : In x (candidates P st p) -> src_of x <> Some (sc_ip P c)).
    { intros Hx. pose proof (map_nth_error bag0 _ _ Hs) as Hb.
      destruct (parts_split cfgs k c _ _ DP Hc Hb) as [R [HR HP]].
      assert (Hk : In (ckey x) (R p ++ part c (bag0 s) p)).
      { eapply Permutation_in; [apply HP|]. rewrite (upd_nth_same _ k _ _ Hb).
        eapply Permutation_in; [apply (inv_J st HI)|]. now apply in_map. }
      rewrite (down_bag0 st k c s HI Hc Hs Hd) in Hk. apply in_app_or in Hk. destruct Hk as [Hk|[]].
      rewrite <- src_ckey. exact (HR p _ Hk). }
    split; [exact G|]. intros o Hx. apply G. unfold visible in Hx. apply in_map_iff in Hx. destruct Hx as [e [<- He]].
    unfold candidates. apply in_map. exact (limit_slice_incl o _ e He).
  Qed.

  (* what a session's Adj-RIB-In holds and does: everything but the VRF's refcounters it reads *)
  Definition icore (t : itriple) :=
    (fst (fst t), AdjRIBIn.tab (snd (fst t)), AdjRIBIn.regs (snd (fst t)), AdjRIBIn.ctabs (snd (fst t)),
     AdjRIBIn.log (snd (fst t)), AdjRIBIn.chain (snd (fst t)), AdjRIBIn.sa (snd (fst t))).

  Lemma icore_vrf : forall o t, vrf_op o -> icore (tstep o t) = icore t.
  Proof.
    intros o [[u i] ops] H. unfold icore, tstep. cbn [fst snd].
    destruct (vrf_op_frame o i H) as [E1 [E2 [E3 [E4 [E5 E6]]]]]. now rewrite E1, E2, E3, E4, E5, E6.
  Qed.

  Lemma in_op_other : forall k o st j, j <> k ->
    nth_error (map inpart (ps_sess P (in_op k st o))) j = nth_error (map inpart (ps_sess P st)) j.
  Proof.
    intros k o st j NE. rewrite in_op_inparts. destruct (nth_error cfgs k), (nth_error (ps_sess P st) k); try reflexivity.
    now apply nth_error_upd_other.
  Qed.

  Lemma in_op_icore : forall k o st, vrf_op o ->
    map icore (map inpart (ps_sess P (in_op k st o))) = map icore (map inpart (ps_sess P st)).
  Proof.
    intros k o st VO. rewrite in_op_inparts. destruct (nth_error cfgs k), (nth_error (ps_sess P st) k); try reflexivity.
    apply map_upd_nth. intros x. now apply icore_vrf.
  Qed.

  Lemma vrf_broadcast_icore : forall js ops st, Forall vrf_op ops ->
    map icore (map inpart (ps_sess P (vrf_broadcast P apply sel tagf cfgs js ops st))) = map icore (map inpart (ps_sess P st)).
  Proof.
    intros js ops st VO.
    apply (broadcast_rel (fun a b => map icore (map inpart (ps_sess P b)) = map icore (map inpart (ps_sess P a)))); [reflexivity|congruence|exact VO|].
    intros j a' o. apply in_op_icore.
  Qed.

  Definition ev_session (ev : Pipeline.event) : nat :=
    match ev with EUp k | EDown k | EAnnounce k _ _ | EWithdraw k _ _ | EDequeue k _ | EEmit k => k end.

  (* an event of session k never changes what another session's Adj-RIB-In holds, whom it serves, what it told them, or
     its policy; only a session coming up / going down is seen by the others, through the VRF's contributing ASNs and
     cluster ids *)
  Theorem noninterference : forall st ev j,
    ev_session ev <> j ->
    nth_error (map icore (map inpart (ps_sess P (pstep st ev)))) j = nth_error (map icore (map inpart (ps_sess P st))) j /\
    (match ev with EUp _ | EDown _ => True
     | _ => nth_error (map inpart (ps_sess P (pstep st ev))) j = nth_error (map inpart (ps_sess P st)) j end).
  Proof.
    intros st ev j NE.
    destruct ev as [k|k|k p q|k p i|k key|k]; cbn [Pipeline.step ev_session] in *.
    - split; [|exact I].
      destruct (nth_error cfgs k) as [c|]; [|reflexivity]. destruct (is_up P st k); [reflexivity|].
      rewrite loc_op_inpart.
      eapply eq_trans; [apply nth_error_map_eq, in_op_other; congruence|].
      rewrite vrf_broadcast_icore by apply vrf_add_ops.
      apply nth_error_map_eq. cbn [with_sess ps_sess]. apply nth_error_map_eq, nth_error_upd_other. congruence.
    - split; [|exact I].
      destruct (nth_error cfgs k) as [c|]; [|reflexivity]. destruct (negb (is_up P st k)); [reflexivity|].
      eapply eq_trans; [apply nth_error_map_eq; cbn [with_sess ps_sess]; apply nth_error_map_eq, nth_error_upd_other; congruence|].
      rewrite loc_op_inpart.
      eapply eq_trans; [apply nth_error_map_eq, in_op_other; congruence|].
      now rewrite vrf_broadcast_icore by apply vrf_del_ops.
    - destruct (is_up P st k); [|now split]. pose proof (in_op_other k (AdjRIBIn.Announce p q) st j (not_eq_sym NE)) as E.
      split; [now apply nth_error_map_eq|exact E].
    - destruct (is_up P st k); [|now split]. pose proof (in_op_other k (AdjRIBIn.Withdraw p i) st j (not_eq_sym NE)) as E.
      split; [now apply nth_error_map_eq|exact E].
    - rewrite us_event_inpart. now split.
    - rewrite us_event_inpart. now split.
  Qed.
  Definition plain_op (o : LocRIBClients.op AdjRIBOut.path) : Prop :=
    match o with LocRIBClients.OAdd _ _ | LocRIBClients.ORemove _ _ => True | _ => False end.
  Definition sender_label (l : UpdateSender.label) : Prop :=
    match l with UpdateSender.Dequeue _ | UpdateSender.EmitOne => True | _ => False end.

  Section Moves.
    (* R relates a state to a later one (for a property I: R a b := I a -> I b); shown for each kind of move, it holds across
       every event.  Inv above and PipelineOut.Oinv are not kept by every move of an event: "up <-> registered" holds between
       events only, and J is restored only when all the calls an Adj-RIB-In call logged have been carried out. *)
    Variable R : pst -> pst -> Prop.
    Hypothesis R_refl : forall st, R st st.
    Hypothesis R_trans : forall a b c, R a b -> R b c -> R a c.
    Hypothesis R_in : forall st k i o,
      R st (with_sess P st (upd_nth k (fun s => set_in P s i (ss_ops P s ++ [o])) (ps_sess P st))).
    Hypothesis R_route : forall st o, plain_op o -> R st (loc_op st o).

    (* the calls an Adj-RIB-In call logs for the Loc-RIB are AddPath / RemovePath unless the call is ReplaceFilterChain *)
    Lemma in_op_moves : forall k st o, not_replace o -> R st (in_op k st o).
    Proof.
      intros k st o NR. unfold Pipeline.in_op. destruct (nth_error cfgs k) as [c|]; [|apply R_refl].
      destruct (nth_error (ps_sess P st) k) as [s|]; [|apply R_refl].
      eapply R_trans; [apply R_in|]. destruct (Ext_step o (ss_in P s)) as [new [HLog [HPl _]]]. rewrite HLog, gained_app.
      apply fold_left_rel; [exact R_refl|exact R_trans|]. intros acc e He.
      apply in_rev, (proj1 (Forall_forall _ _) (HPl NR)) in He.
      destruct e as [j p q|j p q|j p q|j p o0 n|j]; cbn [loc_of_event]; try contradiction; try destruct (N.eqb j 0);
        try apply R_refl; now apply R_route.
    Qed.

    Lemma broadcast_moves : forall js ops st, Forall vrf_op ops -> R st (vrf_broadcast P apply sel tagf cfgs js ops st).
    Proof.
      intros js ops st VO. apply broadcast_rel; [exact R_refl|exact R_trans|exact VO|]. intros j a o Ho. apply in_op_moves. now destruct o.
    Qed.

    Hypothesis R_client : forall st o, client_op o -> R st (loc_op st o).
    Hypothesis R_fresh : forall st k c i ops, nth_error cfgs k = Some c ->
      R st (with_sess P st (upd_nth k (fun _ => mkSst P true i (AdjRIBOut.init P (sc_exp P c)) UpdateSender.init ops [] [])
                                    (ps_sess P st))).
    Hypothesis R_down : forall st k, R st (with_sess P st (upd_nth k (fun s => set_up P s false) (ps_sess P st))).
    Hypothesis R_sender : forall st k l, sender_label l -> R st (us_event P cfgs k l st).

    Lemma step_moves : forall st ev, R st (pstep st ev).
    Proof.
      intros st ev. destruct ev as [k|k|k p q|k p i|k key|k]; cbn [Pipeline.step].
      - destruct (nth_error cfgs k) as [c|] eqn:Hc; [|apply R_refl]. destruct (is_up P st k); [apply R_refl|].
        eapply R_trans; [|now apply R_client]. eapply R_trans; [|now apply in_op_moves].
        eapply R_trans; [|apply broadcast_moves, vrf_add_ops]. now apply R_fresh.
      - destruct (nth_error cfgs k) as [c|]; [|apply R_refl]. destruct (negb (is_up P st k)); [apply R_refl|].
        eapply R_trans; [|apply R_down]. eapply R_trans; [|now apply R_client].
        eapply R_trans; [|now apply in_op_moves]. apply broadcast_moves, vrf_del_ops.
      - destruct (is_up P st k); [now apply in_op_moves|apply R_refl].
      - destruct (is_up P st k); [now apply in_op_moves|apply R_refl].
      - now apply R_sender.
      - now apply R_sender.
    Qed.

    Lemma run_moves : forall evs st, R st (fold_left pstep evs st).
    Proof. intros evs st. apply fold_left_rel; [exact R_refl|exact R_trans|]. intros a ev _. apply step_moves. Qed.
  End Moves.

  Section LocInv.
    Variable Q : LocRIBClients.state AdjRIBOut.path -> Prop.
    Hypothesis HQ : forall loc o loc' cbs, Q loc -> lstep loc o = LocRIBClients.Ok loc' cbs -> Q loc'.

    Lemma loc_inv_loc_op : forall (st : pst) o, Q (ps_loc P st) -> Q (ps_loc P (loc_op st o)).
    Proof.
      intros st o H. unfold Pipeline.loc_op. destruct (lstep (ps_loc P st) o) as [loc' cbs|] eqn:E; [|exact H].
      destruct (op_prefixes loc' o). cbn [ps_loc]. eapply HQ; eassumption.
    Qed.

    Lemma loc_inv_run : forall evs, Q (ps_loc P (Pipeline.init P cfgs)) -> Q (ps_loc P (prun evs)).
    Proof.
      intros evs. unfold Pipeline.run. apply (run_moves (fun a b => Q (ps_loc P a) -> Q (ps_loc P b))); auto.
      - intros st o _. apply loc_inv_loc_op.
      - intros st o _. apply loc_inv_loc_op.
      - intros st k l _ H. unfold us_event. now destruct (is_up P st k).
    Qed.
  End LocInv.
End Pipe.
