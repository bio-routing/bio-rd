(* Proofs for C21 (framing never panics: [recv_msg_no_panic] in FSMProofs.v; a step of one session
   leaves the others alone: [other_sessions_untouched] in FSMSysProofs.v): the function without the
   length guard panics exactly outside 19..4096; the decoder's classified errors are exactly what
   RFC 4271 section 6 owes; a classified error is answered with that NOTIFICATION before the
   connection is closed. *)
From Coq Require Import List NArith Lia.
Import ListNotations.
From BioVerif Require Import Model.FSM Spec.RFC4271Errors Proofs.FSMProofs.
Local Open Scope N_scope.

Lemma recv_msg_unguarded_panics : forall len avail,
  recv_msg_unguarded len avail = FrPanic <-> (len < 19 \/ 4096 < len).
Proof.
  intros len avail. unfold recv_msg_unguarded, slice_in_range, MinLen, MaxLen.
  destruct (N.leb_spec 19 len), (N.leb_spec len 4096); cbn [andb negb].
  - destruct (avail <? len - 19); split; try discriminate; lia.
  - split; [lia | reflexivity].
  - split; [lia | reflexivity].
  - split; [lia | reflexivity].
Qed.

(* header_error is a relation: which clause the decoder reports first where several apply is its own
   choice, the RFC does not say *)
Lemma decode_header_spec : forall mk len typ,
  match decode_header mk len typ with
  | Some e => header_error mk len typ e
  | None => forall e, ~ header_error mk len typ e
  end.
Proof.
  intros mk len typ. unfold decode_header, MinLen, MaxLen.
  destruct mk; cbn [negb]; [|apply he_marker; reflexivity].
  destruct (N.ltb_spec len 19); [apply he_len_range; auto|].
  destruct (N.ltb_spec 4096 len); [apply he_len_range; auto|].
  destruct (N.eqb_spec typ 0); [apply he_type; auto|].
  destruct (N.ltb_spec 4 typ); [apply he_type; auto|].
  assert (T : typ = 1 \/ typ = 2 \/ typ = 3 \/ typ = 4) by lia.
  destruct T as [->|[->|[->| ->]]]; cbn [N.eqb Pos.eqb andb orb].
  - destruct (N.ltb_spec len 29); [apply he_len_open; auto | intros e0 He; inversion He; try discriminate; lia].
  - destruct (N.ltb_spec len 23); [apply he_len_update; auto | intros e0 He; inversion He; try discriminate; lia].
  - destruct (N.ltb_spec len 21); [apply he_len_notification; auto | intros e0 He; inversion He; try discriminate; lia].
  - destruct (N.eqb_spec len 19); [intros e0 He; inversion He; try discriminate; lia | apply he_len_keepalive; auto].
Qed.

Lemma validate_open_spec : forall o,
  match validate_open o with
  | Some e => open_error o e
  | None => forall e, ~ open_error o e
  end.
Proof.
  intro o. unfold validate_open.
  destruct (N.eqb_spec (o_ver o) 4); cbn [negb]; [|apply oe_version; assumption].
  destruct (N.eqb_spec (o_id o) 0); [apply oe_id; assumption|].
  destruct (N.eqb_spec (o_hold o) 1); [apply oe_hold; auto|].
  destruct (N.eqb_spec (o_hold o) 2); [apply oe_hold; auto|].
  intros e0 He. inversion He; tauto.
Qed.

(* whatever the decoder classifies is an error RFC 4271 owes for that transmission ... *)
Theorem decode_owes : forall m e, decode m = DErr (Some e) -> owes m e.
Proof.
  intros m e H. destruct m as [ | o | ann wd | pr pb pv | c0 s0 | mk len typ avail | n | ]; cbn [decode] in H; try discriminate.
  - pose proof (validate_open_spec o) as S. destruct (validate_open o); [|discriminate]. inversion H; subst. apply ow_open, S.
  - destruct (notification_valid c0 s0); discriminate.
  - pose proof (decode_header_spec mk len typ) as S. destruct (decode_header mk len typ).
    + inversion H; subst. apply ow_header, S.
    + destruct (typ =? 4); [discriminate|]. destruct (N.eqb_spec typ 1) as [->|].
      * inversion H; subst. apply ow_zero_open.
      * destruct (typ =? 3); discriminate.
Qed.

(* ... and every malformed transmission of a classified kind is classified *)
Theorem malformed_classified : forall m, classified m = true -> malformed m -> exists e, decode m = DErr (Some e).
Proof.
  intros m Hc [e He]. destruct He as [mk len typ avail e He | mk len avail | o e He | sub code Hcode]; cbn [decode].
  - pose proof (decode_header_spec mk len typ) as S. destruct (decode_header mk len typ); [eexists; reflexivity | destruct (S _ He)].
  - destruct (decode_header mk len 1); [eexists; reflexivity|]. cbn. eexists; reflexivity.
  - pose proof (validate_open_spec o) as S. destruct (validate_open o); [eexists; reflexivity | destruct (S _ He)].
  - discriminate.
Qed.

(* needs no invariant: the three handlers answer alike whatever the attachment flag *)
Lemma classified_error_exit : forall c s m code sub,
  listens s = true -> wr_ok s = true ->
  frame_of m = FrFrame ->
  decode m = DErr (Some (code, sub)) ->
  exists post,
    snd (step c s (EMsg m)) = SentNotification code sub :: post /\
    In Closed post /\
    s_st (fst (step c s (EMsg m))) = Idle /\ s_conn (fst (step c s (EMsg m))) = ConnClosed.
Proof.
  intros c s m code sub Hl Hw Hf Hd. destruct s as [st att cn ng rt up im]. cbn in Hl, Hw.
  destruct cn as [|[]|]; try discriminate Hw. destruct st; try discriminate Hl.
  all: unfold step; cbv beta iota zeta delta [s_st s_conn listens andb]; rewrite Hf;
       cbv beta iota zeta delta [handle s_st]; rewrite Hd; rdx; eexists; repeat split; cbn; tauto.
Qed.

(* The witness of [C21_malformed_notified_refuted]: an established session receives a body that the decoder
   rejects without a BGPError. *)
Definition wit_cfg : cfg :=
  {| c_las := 65001; c_pas := 65002; c_rid := 10; c_hold := 90; c_v4 := true; c_v6 := false;
     c_apr4 := false; c_aps4 := false; c_apr6 := false; c_aps6 := false; c_mp4 := false; c_nx4 := false;
     c_role := 0; c_strict := false; c_rr := false; c_cluster := 0; c_imp := ImpAccept; c_passive := false |}.
Definition wit_open : open_msg := {| o_ver := 4; o_asn := 65002; o_hold := 90; o_id := 7; o_caps := [CapASN4 65002] |}.
Definition wit_sess : sess := final wit_cfg [EAdmin 1; ETcpUp false; EMsg (MOpen wit_open); EMsg MKeepalive].
