(* C31 proofs. Every event in normal form: the checker is a [sweep] of [check] ([check_all_eq]), an accepted
   hello stores [heard] ([on_hello_eq]); [step_lookup] is the one case analysis on events, and the invariants
   ([wf], [up_ok], [tm], [lsp_ok]) are read off it. A silent neighbor's [rank] falls with every checker run;
   [tm] (state changes lie in the past) bounds the rank a hello leaves. *)
From Coq Require Import List Bool NArith Lia.
Import ListNotations.
From BioVerif Require Import Lib.ListFacts Lib.KeyedTable Model.Adj Spec.AdjSpec.

Lemma lookup_update : forall k k' v t,
  lookup k (update k' v t) = if N.eqb k' k then Some v else lookup k t.
Proof. exact (get_put N.eqb_eq). Qed.

Lemma lookup_in : forall k t nb, lookup k t = Some nb -> In (k, nb) t.
Proof. exact (get_in N.eqb_eq). Qed.

Lemma lookup_none_notin : forall k t, lookup k t = None -> ~ In k (map fst t).
Proof. exact (get_none_notin N.eqb_eq). Qed.

Lemma check_eq : forall nw nb,
  check nw nb =
  if is_down (state nb) then (if down_keep <? nw - changed nb then None else Some nb, false)
  else if timeout nb <? nw then (Some (mkNbr Down (timeout nb) nw), is_up (state nb))
  else (Some nb, false).
Proof.
  intros nw [st to ch]. unfold check. cbn [state timeout changed].
  destruct st; cbn [state timeout changed is_down negb andb is_up];
    try (destruct (to <? nw); cbn [state timeout changed is_down negb andb is_up]; [rewrite N.sub_diag |]; reflexivity).
  destruct (down_keep <? nw - ch); reflexivity.
Qed.

Lemma check_alive : forall nw nb nb1, fst (check nw nb) = Some nb1 -> state nb1 <> Down ->
  nb1 = nb /\ nw <= timeout nb.
Proof.
  intros nw nb nb1 H Hnd. rewrite check_eq in H. destruct (is_down (state nb)) eqn:Ed.
  - destruct (down_keep <? nw - changed nb); [discriminate |]. injection H as <-.
    destruct (state nb); try discriminate. contradiction.
  - destruct (timeout nb <? nw) eqn:Et; injection H as <-; [exfalso; apply Hnd; reflexivity |].
    apply N.ltb_ge in Et. auto.
Qed.

Lemma check_all_eq : forall nw t,
  check_all nw t = (sweep (fun _ nb => fst (check nw nb)) t, existsb (fun kv => snd (check nw (snd kv))) t).
Proof.
  induction t as [| [k nb] r IH]; [reflexivity |]. cbn [check_all sweep existsb snd]. rewrite IH.
  destruct (check nw nb) as [[nb' |] req]; reflexivity.
Qed.

Lemma tick_eq : forall s d,
  step s (Tick d) = mkSrv (now s + d) (fst (check_all (now s + d) (nbrs s)))
                          (pending s || snd (check_all (now s + d) (nbrs s))) (lsp s).
Proof. intros. cbn [step]. destruct (check_all _ _). reflexivity. Qed.

Lemma check_all_in : forall nw t k nb1, In (k, nb1) (fst (check_all nw t)) ->
  exists nb req, In (k, nb) t /\ check nw nb = (Some nb1, req).
Proof.
  intros nw t k nb1 H. rewrite check_all_eq in H. destruct (sweep_in _ _ _ _ H) as (nb & Hi & Hf).
  exists nb, (snd (check nw nb)). split; [exact Hi |]. rewrite <- Hf. apply surjective_pairing.
Qed.

Lemma check_all_lookup : forall nw t k, NoDup (map fst t) ->
  lookup k (fst (check_all nw t)) =
  match lookup k t with
  | None => None
  | Some nb => fst (check nw nb)
  end.
Proof. intros nw t. rewrite check_all_eq. exact (get_sweep N.eqb_eq _ t). Qed.

Lemma check_all_req : forall nw t k nb, lookup k t = Some nb -> snd (check nw nb) = true ->
  snd (check_all nw t) = true.
Proof.
  intros nw t k nb Hl Hr. rewrite check_all_eq. apply existsb_exists.
  exists (k, nb). split; [apply lookup_in, Hl | exact Hr].
Qed.

Definition accepted (v : verdict) : option bool :=
  match v with Lists => Some true | NotLists => Some false | Rejected | Ignored => None end.

Lemma step_hello : forall s k hold v,
  step s (Hello k hold v) = match accepted v with Some lists => on_hello s k hold lists | None => s end.
Proof. intros s k hold []; reflexivity. Qed.

Definition heard (s : srv) (k hold : N) (lists : bool) : nbr * bool :=
  match lookup k (nbrs s) with
  | None => (mkNbr Init (now s + hold) (now s), false)
  | Some nb => hello_existing (now s) nb hold lists
  end.

Lemma on_hello_eq : forall s k hold lists,
  on_hello s k hold lists =
  mkSrv (now s) (update k (fst (heard s k hold lists)) (nbrs s)) (pending s || snd (heard s k hold lists)) (lsp s).
Proof.
  intros. unfold on_hello, heard. destruct (lookup k (nbrs s)) as [nb |].
  - destruct (hello_existing (now s) nb hold lists). reflexivity.
  - rewrite orb_false_r. reflexivity.
Qed.

Lemma on_hello_lookup : forall s k hold lists x,
  lookup x (nbrs (on_hello s k hold lists)) =
  if N.eqb x k then Some (fst (heard s k hold lists)) else lookup x (nbrs s).
Proof. intros. rewrite on_hello_eq. cbn [nbrs]. rewrite lookup_update, N.eqb_sym. reflexivity. Qed.

Lemma hello_existing_eq : forall nw nb hold lists,
  hello_existing nw nb hold lists =
  if is_up (state nb) then (if lists then (mkNbr Up (nw + hold) (changed nb), false) else (mkNbr Down (nw + hold) nw, true))
  else (if lists then (mkNbr Up (nw + hold) nw, true) else (mkNbr (state nb) (nw + hold) (changed nb), false)).
Proof.
  intros nw [st to ch] hold lists. unfold hello_existing. cbn [state changed].
  destruct st, lists; reflexivity.
Qed.

Lemma heard_notlists : forall s k hold, state (fst (heard s k hold false)) <> Up.
Proof.
  intros s k hold. unfold heard. destruct (lookup k (nbrs s)) as [nb |]; [| discriminate].
  rewrite hello_existing_eq. destruct (is_up (state nb)) eqn:E; cbn [fst state]; [discriminate |].
  intros H. rewrite H in E. discriminate.
Qed.

Definition wf (s : srv) : Prop := NoDup (map fst (nbrs s)).

Lemma step_wf : forall s e, wf s -> wf (step s e).
Proof.
  intros s e H. unfold wf in *. destruct e as [k hold v | d | |].
  - rewrite step_hello. destruct (accepted v); [| exact H]. rewrite on_hello_eq. apply (put_nodup N.eqb_eq), H.
  - rewrite tick_eq, check_all_eq. apply sweep_nodup, H.
  - cbn [step]. destruct (pending s); exact H.
  - exact H.
Qed.

Lemma run_wf : forall evs s, wf s -> wf (run s evs).
Proof. intros evs. apply (fold_left_invariant _ wf). intros s e _. apply step_wf. Qed.

Lemma init_wf : wf init.
Proof. constructor. Qed.

Lemma step_now : forall s e, now (step s e) = match e with Tick d => now s + d | _ => now s end.
Proof.
  intros s e. destruct e as [k hold v | d | |].
  - rewrite step_hello. destruct (accepted v); [rewrite on_hello_eq |]; reflexivity.
  - rewrite tick_eq. reflexivity.
  - cbn [step]. destruct (pending s); reflexivity.
  - reflexivity.
Qed.

Lemma step_lookup : forall s e x, wf s ->
  lookup x (nbrs (step s e)) =
  match e with
  | Hello k hold v =>
    match accepted v with
    | Some lists => if N.eqb x k then Some (fst (heard s k hold lists)) else lookup x (nbrs s)
    | None => lookup x (nbrs s)
    end
  | Tick d => match lookup x (nbrs s) with None => None | Some nb => fst (check (now s + d) nb) end
  | _ => lookup x (nbrs s)
  end.
Proof.
  intros s e x H. destruct e as [k hold v | d | |].
  - rewrite step_hello. destruct (accepted v); [| reflexivity].
    apply on_hello_lookup.
  - rewrite tick_eq. apply check_all_lookup, H.
  - cbn [step]. destruct (pending s); reflexivity.
  - reflexivity.
Qed.

Definition up_ok (lv : N -> option bool) (s : srv) : Prop :=
  forall k nb, lookup k (nbrs s) = Some nb -> state nb = Up -> lv k = Some true.

Lemma step_up_ok : forall s e lv, wf s -> up_ok lv s -> up_ok (track lv e) (step s e).
Proof.
  intros s e lv Hwf Hok x nb Hl Hup. rewrite step_lookup in Hl by exact Hwf.
  destruct e as [k hold v | d | |]; try exact (Hok x nb Hl Hup).
  - destruct v; cbn [accepted track] in *; try exact (Hok x nb Hl Hup);
      (destruct (N.eqb x k); [| exact (Hok x nb Hl Hup)]).
    + reflexivity.
    + injection Hl as <-. destruct (heard_notlists s k hold Hup).
  - cbn [track]. destruct (lookup x (nbrs s)) as [nb0 |] eqn:E0; [| discriminate].
    destruct (check_alive _ _ _ Hl) as [-> _]; [rewrite Hup; discriminate |]. exact (Hok x nb0 E0 Hup).
Qed.

Lemma run_up_ok : forall evs s lv, wf s -> up_ok lv s -> up_ok (fold_left track evs lv) (run s evs).
Proof.
  induction evs as [| e r IH]; intros s lv Hwf Hok; [exact Hok |].
  apply IH; [apply step_wf | apply step_up_ok]; assumption.
Qed.

Theorem up_on_threeway : forall s k hold nb0,
  lookup k (nbrs s) = Some nb0 ->
  exists nb, lookup k (nbrs (step s (Hello k hold Lists))) = Some nb /\ state nb = Up /\
             timeout nb = now s + hold.
Proof.
  intros s k hold nb0 Hl. cbn [step]. rewrite on_hello_lookup, N.eqb_refl.
  eexists. split; [reflexivity |]. unfold heard. rewrite Hl, hello_existing_eq.
  destruct (is_up (state nb0)); split; reflexivity.
Qed.

Theorem down_on_mismatch : forall s k hold,
  (forall nb, lookup k (nbrs (step s (Hello k hold NotLists))) = Some nb -> state nb <> Up) /\
  (forall nb0, lookup k (nbrs s) = Some nb0 -> state nb0 = Up ->
     lookup k (nbrs (step s (Hello k hold NotLists))) = Some (mkNbr Down (now s + hold) (now s)) /\
     pending (step s (Hello k hold NotLists)) = true).
Proof.
  intros s k hold. cbn [step]. rewrite on_hello_lookup, N.eqb_refl. split.
  - intros nb [= <-]. apply heard_notlists.
  - intros nb0 Hl Hup. rewrite on_hello_eq. cbn [pending]. unfold heard.
    rewrite Hl, hello_existing_eq, Hup. split; [reflexivity | apply orb_true_r].
Qed.

Theorem down_on_timeout : forall s d k, wf s ->
  (forall nb, lookup k (nbrs (step s (Tick d))) = Some nb -> state nb <> Down ->
     now (step s (Tick d)) <= timeout nb) /\
  (forall nb0, lookup k (nbrs s) = Some nb0 -> state nb0 = Up -> timeout nb0 < now s + d ->
     lookup k (nbrs (step s (Tick d))) = Some (mkNbr Down (timeout nb0) (now s + d)) /\
     pending (step s (Tick d)) = true).
Proof.
  intros s d k Hwf. rewrite step_now, (step_lookup s (Tick d) k Hwf). split.
  - intros nb Hl Hnd. destruct (lookup k (nbrs s)) as [nb0 |]; [| discriminate].
    destruct (check_alive _ _ _ Hl Hnd) as [-> Ht]. exact Ht.
  - intros nb0 Hl Hup Hto.
    assert (Hc : check (now s + d) nb0 = (Some (mkNbr Down (timeout nb0) (now s + d)), true)).
    { rewrite check_eq, Hup. cbn [is_down is_up]. apply N.ltb_lt in Hto. rewrite Hto. reflexivity. }
    rewrite Hl, Hc. split; [reflexivity |]. rewrite tick_eq. cbn [pending].
    rewrite (check_all_req _ _ k nb0 Hl); [apply orb_true_r | rewrite Hc; reflexivity].
Qed.

Definition tm (s : srv) : Prop :=
  forall k nb, lookup k (nbrs s) = Some nb -> changed nb <= now s.

Lemma step_tm : forall s e, wf s -> tm s -> tm (step s e).
Proof.
  intros s e Hwf Ht x nb Hl. rewrite step_now. rewrite step_lookup in Hl by exact Hwf.
  destruct e as [k hold v | d | |]; try exact (Ht x nb Hl).
  - destruct (accepted v) as [lists |]; [| exact (Ht x nb Hl)].
    destruct (N.eqb x k); [| exact (Ht x nb Hl)]. injection Hl as <-. unfold heard.
    destruct (lookup k (nbrs s)) as [nb0 |] eqn:E0; [| cbn [fst changed]; lia].
    specialize (Ht k nb0 E0). rewrite hello_existing_eq.
    destruct (is_up (state nb0)), lists; cbn [fst changed]; lia.
  - destruct (lookup x (nbrs s)) as [nb0 |] eqn:E0; [| discriminate]. specialize (Ht x nb0 E0).
    rewrite check_eq in Hl. destruct (is_down (state nb0)).
    + destruct (down_keep <? now s + d - changed nb0); [discriminate |]. injection Hl as <-. lia.
    + destruct (timeout nb0 <? now s + d); injection Hl as <-; cbn [changed]; lia.
Qed.

Lemma run_tm : forall evs s, wf s -> tm s -> tm (run s evs).
Proof.
  intros evs s Hwf Ht. apply (fold_left_invariant _ (fun s => wf s /\ tm s)); [| split; assumption].
  intros s0 e _ [H1 H2]. split; [apply step_wf | apply step_tm]; assumption.
Qed.

Lemma init_tm : tm init.
Proof. intros k nb H. discriminate. Qed.

(* Absent counts as 0 and present as at least 1, so "removed or ranked lower" is one inequality, and with
   truncated subtraction "stays absent" is a case of it. *)
Definition orank (nw : N) (o : option nbr) : N :=
  match o with None => 0 | Some nb => 1 + rank nw nb end.

Lemma check_rank : forall nw0 d nb, 0 < d ->
  orank (nw0 + d) (fst (check (nw0 + d) nb)) <= rank nw0 nb.
Proof.
  intros nw0 d nb Hd. rewrite check_eq. unfold orank, rank. destruct (is_down (state nb)) eqn:Ed.
  - destruct (down_keep <? nw0 + d - changed nb) eqn:Ek; cbn [fst]; [lia |]. rewrite Ed.
    apply N.ltb_ge in Ek. unfold down_keep in Ek. lia.
  - destruct (timeout nb <? nw0 + d) eqn:Et; cbn [fst state is_down changed].
    + lia.
    + rewrite Ed. apply N.ltb_ge in Et. lia.
Qed.

Definition rk (s : srv) (k : N) : N := orank (now s) (lookup k (nbrs s)).

Lemma silent_step : forall s e k, wf s -> silent_ev k e = true -> tick_pos e = true ->
  rk (step s e) k <= rk s k - count_ticks [e].
Proof.
  intros s e k Hwf Hs Hp. unfold rk. rewrite step_now, step_lookup by exact Hwf.
  destruct e as [k' hold v | d | |]; cbn [count_ticks]; try lia.
  - destruct v; cbn [accepted silent_ev] in *; try lia;
      apply negb_true_iff in Hs; rewrite (N.eqb_sym k k'), Hs; lia.
  - destruct (lookup k (nbrs s)) as [nb |]; [| cbn [orank]; lia].
    apply N.ltb_lt in Hp. pose proof (check_rank (now s) d nb Hp). cbn [orank] in *. lia.
Qed.

Lemma silent_rank : forall evs s k, wf s -> silent k evs = true -> ticks_pos evs = true ->
  rk (run s evs) k <= rk s k - count_ticks evs.
Proof.
  induction evs as [| e r IH]; intros s k Hwf Hs Hp; [cbn; lia |].
  unfold silent, ticks_pos in Hs, Hp. cbn [forallb] in Hs, Hp.
  apply andb_true_iff in Hs. destruct Hs as [He Hr]. apply andb_true_iff in Hp. destruct Hp as [Hpe Hpr].
  specialize (IH (step s e) k (step_wf s e Hwf) Hr Hpr). pose proof (silent_step s e k Hwf He Hpe).
  change (run s (e :: r)) with (run (step s e) r). destruct e; cbn [count_ticks] in *; lia.
Qed.

Theorem eventually_removed : forall s evs k nb, wf s ->
  lookup k (nbrs s) = Some nb ->
  silent k evs = true -> ticks_pos evs = true ->
  rank (now s) nb < count_ticks evs ->
  lookup k (nbrs (run s evs)) = None.
Proof.
  intros s evs k nb Hwf Hl Hs Hp Hr. pose proof (silent_rank evs s k Hwf Hs Hp) as H.
  unfold rk in H. rewrite Hl in H. destruct (lookup k (nbrs (run s evs))); [cbn [orank] in H; lia | reflexivity].
Qed.

Lemma heard_rank : forall s k hold lists, tm s -> rank (now s) (fst (heard s k hold lists)) <= hold + 123.
Proof.
  intros s k hold lists Htm. unfold heard, rank.
  destruct (lookup k (nbrs s)) as [nb0 |] eqn:E0; [| cbn [fst state is_down timeout]; lia].
  specialize (Htm k nb0 E0). rewrite hello_existing_eq.
  destruct (is_up (state nb0)), lists; cbn [fst state is_down timeout changed]; try lia.
  destruct (is_down (state nb0)); lia.
Qed.

Theorem removed_after_hello : forall s k hold v evs, wf s -> tm s ->
  accepted v <> None ->
  silent k evs = true -> ticks_pos evs = true ->
  hold + 124 <= count_ticks evs ->
  lookup k (nbrs (run (step s (Hello k hold v)) evs)) = None.
Proof.
  intros s k hold v evs Hwf Htm Hv Hs Hp Hc.
  destruct (accepted v) as [lists |] eqn:Ea; [| contradiction].
  apply (eventually_removed _ evs k (fst (heard s k hold lists)) (step_wf _ _ Hwf)); try assumption.
  - rewrite step_lookup, Ea, N.eqb_refl by exact Hwf. reflexivity.
  - rewrite step_now. pose proof (heard_rank s k hold lists Htm). lia.
Qed.

Lemma up_ids_update : forall k v t,
  is_up (state v) = match lookup k t with Some old => is_up (state old) | None => false end ->
  up_ids (update k v t) = up_ids t.
Proof.
  unfold up_ids. induction t as [| [k' v'] r IH]; cbn [update lookup]; intros Hu.
  - cbn [filter snd]. rewrite Hu. reflexivity.
  - destruct (N.eqb k' k); cbn [filter snd].
    + rewrite Hu. destruct (is_up (state v')); reflexivity.
    + destruct (is_up (state v')); cbn [map]; rewrite (IH Hu); reflexivity.
Qed.

Lemma check_noreq_up : forall nw nb, snd (check nw nb) = false ->
  match fst (check nw nb) with
  | None => is_up (state nb) = false
  | Some nb1 => is_up (state nb1) = is_up (state nb)
  end.
Proof.
  intros nw nb. rewrite check_eq. destruct (is_down (state nb)) eqn:Ed.
  - intros _. destruct (down_keep <? nw - changed nb); cbn [fst]; [| reflexivity].
    destruct (state nb); try discriminate. reflexivity.
  - destruct (timeout nb <? nw); cbn [fst snd]; [| reflexivity]. intros ->. reflexivity.
Qed.

Lemma check_all_up_ids : forall nw t, snd (check_all nw t) = false ->
  up_ids (fst (check_all nw t)) = up_ids t.
Proof.
  intros nw t. rewrite check_all_eq. cbn [fst snd]. induction t as [| [k nb] r IH]; intros H; [reflexivity |].
  cbn [existsb snd sweep] in *. apply orb_false_iff in H. destruct H as [H1 H2].
  specialize (IH H2). pose proof (check_noreq_up nw nb H1) as Hc.
  unfold up_ids in *. cbn [filter snd].
  destruct (fst (check nw nb)) as [nb1 |]; cbn [filter snd]; rewrite Hc; [| exact IH].
  destruct (is_up (state nb)); cbn [map]; rewrite IH; reflexivity.
Qed.

Lemma heard_noreq : forall s k hold lists, snd (heard s k hold lists) = false ->
  is_up (state (fst (heard s k hold lists))) =
  match lookup k (nbrs s) with Some old => is_up (state old) | None => false end.
Proof.
  intros s k hold lists. unfold heard. destruct (lookup k (nbrs s)) as [nb |]; [| reflexivity].
  rewrite hello_existing_eq.
  destruct (is_up (state nb)) eqn:E, lists; cbn [fst snd state is_up]; try discriminate; intros _;
    [reflexivity | exact E].
Qed.

Definition lsp_ok (s : srv) : Prop := pending s = true \/ lsp s = up_ids (nbrs s).

Lemma step_lsp_ok : forall s e, lsp_ok s -> lsp_ok (step s e).
Proof.
  intros s e H. unfold lsp_ok in *. destruct e as [k hold v | d | |].
  - rewrite step_hello. destruct (accepted v) as [lists |]; [| exact H].
    rewrite on_hello_eq. cbn [pending lsp nbrs].
    destruct (snd (heard s k hold lists)) eqn:Er; [left; apply orb_true_r |]. rewrite orb_false_r.
    destruct H as [H | H]; [left; exact H | right]. rewrite H. symmetry. apply up_ids_update, heard_noreq, Er.
  - rewrite tick_eq. cbn [pending lsp nbrs].
    destruct (snd (check_all (now s + d) (nbrs s))) eqn:Er; [left; apply orb_true_r |]. rewrite orb_false_r.
    destruct H as [H | H]; [left; exact H | right]. rewrite H. symmetry. apply check_all_up_ids, Er.
  - cbn [step]. destruct (pending s) eqn:Ep; [right; reflexivity | rewrite Ep; exact H].
  - right. reflexivity.
Qed.

Lemma run_lsp_ok : forall evs s, lsp_ok s -> lsp_ok (run s evs).
Proof. intros evs. apply (fold_left_invariant _ lsp_ok). intros s e _. apply step_lsp_ok. Qed.

Lemma up_ids_spec : forall t k, NoDup (map fst t) ->
  (In k (up_ids t) <-> exists nb, lookup k t = Some nb /\ state nb = Up).
Proof.
  intros t k Hnd. unfold up_ids. rewrite in_map_iff. split.
  - intros ([k' nb] & <- & Hin). apply filter_In in Hin. destruct Hin as [Hin Hu]. cbn [snd] in Hu. exists nb.
    split; [apply (in_get N.eqb_eq); assumption | destruct (state nb); try discriminate; reflexivity].
  - intros (nb & Hl & Hs). exists (k, nb). split; [reflexivity |]. apply filter_In.
    split; [apply lookup_in, Hl | cbn [snd]; rewrite Hs; reflexivity].
Qed.

(* [ForceRegen], the build, makes [lsp_ok] true by itself, so this holds in any state *)
Theorem build_then_change : forall s0 k hold v,
  let s := run s0 [ForceRegen; Hello k hold v; Regen] in
  lsp s = up_ids (nbrs s) /\ pending s = false.
Proof.
  intros s0 k hold v s.
  assert (H : lsp_ok (step (step s0 ForceRegen) (Hello k hold v))) by (apply step_lsp_ok; right; reflexivity).
  subst s. cbn [run fold_left]. set (s2 := step (step s0 ForceRegen) (Hello k hold v)) in *.
  cbn [step]. destruct (pending s2) eqn:Ep; [split; reflexivity |].
  destruct H as [H | H]; [congruence | split; assumption].
Qed.

(* an updater that also clears the flag AFTER building (seeded change C31-2r3) loses that request *)
Definition drained (s : srv) : srv := mkSrv (now s) (nbrs s) false (lsp s).
