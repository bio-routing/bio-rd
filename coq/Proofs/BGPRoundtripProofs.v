(* C17: decoding what the serializer model wrote gives back the structure (with the length and flag fields
   the serializer computed), and the size bounds.
   runs_to m bs v : the decoder m, started on bs followed by anything, consumes exactly bs and returns v.
   Every structure has its byte image (nlriBytes, segBytes, capBytes, ...); the serializer writes it on
   well-formed input, and the matching decoder runs to the structure on it. *)
From Coq Require Import List NArith Bool Arith Lia.
From Coq Require ZifyBool ZifyN.
Import ListNotations.
From BioVerif Require Import Lib.ListFacts Model.BGPCodec Model.BGPEncode Spec.BGPRoundtripSpec Proofs.BGPCodecFacts.
Local Open Scope N_scope.

Definition runs_to {A} (m : M A) (bs : list N) (v : A) : Prop :=
  forall rest al, exists al', m (bs ++ rest) al = (Ok v rest, al').

Lemma rt_ret : forall A (v : A), runs_to (ret v) [] v.
Proof. intros A v rest al. exists al. reflexivity. Qed.

Lemma rt_ret_eq : forall A (v v' : A), v = v' -> runs_to (ret v) [] v'.
Proof. intros A v v' <-. apply rt_ret. Qed.

Lemma rt_bind : forall A B (m : M A) (k : A -> M B) b1 b2 v1 v2,
  runs_to m b1 v1 -> runs_to (k v1) b2 v2 -> runs_to (bind m k) (b1 ++ b2) v2.
Proof.
  intros A B m k b1 b2 v1 v2 H1 H2 rest al. unfold bind. rewrite <- app_assoc.
  destruct (H1 (b2 ++ rest) al) as (al1 & ->). apply H2.
Qed.

Lemma rt_bind_r : forall A B (m : M A) (k : A -> M B) b v1 v2,
  runs_to m b v1 -> runs_to (k v1) [] v2 -> runs_to (bind m k) b v2.
Proof. intros. rewrite <- (app_nil_r b). eapply rt_bind; eauto. Qed.

Lemma rt_bind_l : forall A B (m : M A) (k : A -> M B) b v1 v2,
  runs_to m [] v1 -> runs_to (k v1) b v2 -> runs_to (bind m k) b v2.
Proof. intros A B m k b. exact (rt_bind A B m k [] b). Qed.

Lemma rt_guard : forall c, c = true -> runs_to (guard c) [] tt.
Proof. intros c ->. apply rt_ret. Qed.

Lemma rt_alloc : forall n, runs_to (alloc n) [] tt.
Proof. intros n rest al. exists (al + n). reflexivity. Qed.

Lemma rt_getBuf_nil : forall A (k : list N -> M A) bs v,
  (forall rest, runs_to (k (bs ++ rest)) bs v) -> forall rest al, exists al', bind getBuf k (bs ++ rest) al = (Ok v rest, al').
Proof. intros A k bs v H rest al. unfold bind, getBuf. apply H. Qed.

(* the decoder consumes the whole buffer: for readers that look at all that remains (getBuf) *)
Definition runs_all {A} (m : M A) (bs : list N) (v : A) : Prop :=
  forall al, exists al', m bs al = (Ok v [], al').

Lemma rt_all : forall A (m : M A) bs v, runs_to m bs v -> runs_all m bs v.
Proof. intros A m bs v H al. destruct (H [] al) as (al' & E). rewrite app_nil_r in E. eauto. Qed.

Lemma all_bind : forall A B (m : M A) (k : A -> M B) b1 b2 v1 v2,
  runs_to m b1 v1 -> runs_all (k v1) b2 v2 -> runs_all (bind m k) (b1 ++ b2) v2.
Proof. intros A B m k b1 b2 v1 v2 H1 H2 al. unfold bind. destruct (H1 b2 al) as (al1 & ->). apply H2. Qed.

Lemma all_getBuf : forall A (k : list N -> M A) bs v, runs_all (k bs) bs v -> runs_all (bind getBuf k) bs v.
Proof. intros A k bs v H. exact H. Qed.

Lemma all_dropBuf : forall A (k : unit -> M A) b1 b2 v,
  runs_all (k tt) b2 v -> runs_all (bind (dropBuf (length b1)) k) (b1 ++ b2) v.
Proof. intros A k b1 b2 v H al. unfold bind, dropBuf. rewrite skipn_app_length. apply H. Qed.

Lemma byte_id : forall x, x < 256 -> byte x = x.
Proof. intros. apply N.mod_small. assumption. Qed.

Lemma map_byte_id : forall l, bytes_ok l -> map byte l = l.
Proof.
  intros l H. induction H as [|x l Hx _ IH]; [reflexivity|]. cbn [map]. rewrite byte_id, IH; auto.
Qed.

Lemma bytes_ok_app : forall a b, bytes_ok a -> bytes_ok b -> bytes_ok (a ++ b).
Proof. intros. apply Forall_app. split; assumption. Qed.

Lemma bytes_ok_cons : forall x l, x < 256 -> bytes_ok l -> bytes_ok (x :: l).
Proof. intros. constructor; assumption. Qed.

Lemma bytes_ok_nil : bytes_ok [].
Proof. constructor. Qed.

Lemma u16be_ok : forall v, bytes_ok (u16be v).
Proof. intros. repeat constructor; apply byte_lt. Qed.

Lemma bytes32_ok : forall v, bytes_ok (bytes32 v).
Proof. intros. repeat constructor; apply byte_lt. Qed.

Create HintDb bytes.
#[local] Hint Resolve bytes_ok_app bytes_ok_cons bytes_ok_nil u16be_ok bytes32_ok : bytes.
#[local] Hint Extern 1 (_ < 256) => lia : bytes.

Lemma bytes64_ok : forall v, bytes_ok (bytes64 v).
Proof. intros. unfold bytes64. auto with bytes. Qed.

Lemma ipBytes_ok : forall a, bytes_ok (ipBytes a).
Proof. intros [v|hi lo]; cbn [ipBytes]; auto using bytes64_ok with bytes. Qed.
#[local] Hint Resolve ipBytes_ok : bytes.

Lemma len_u16be : forall v, len (u16be v) = 2.
Proof. reflexivity. Qed.
Lemma len_u32be : forall v, len (u32be v) = 4.
Proof. reflexivity. Qed.

(* one step of positional notation: the digit of weight k in base c, above the digits below it *)
Lemma digit_step : forall v k c m, k <> 0 -> c <> 0 -> k * c = m -> v / k mod c * k + v mod k = v mod m.
Proof. intros v k c m Hk Hc <-. rewrite N.mod_mul_r by assumption. rewrite N.mul_comm. apply N.add_comm. Qed.

Lemma u16_digits : forall v, v < 65536 -> v / 256 mod 256 * 256 + v mod 256 = v.
Proof.
  intros v Hv. rewrite (digit_step v 256 256 65536) by first [discriminate | reflexivity].
  apply N.mod_small. exact Hv.
Qed.

Lemma be32_bytes32_mod : forall v, be32 (bytes32 v) = v mod 4294967296.
Proof.
  intros v. unfold be32, bytes32. cbn [nth]. rewrite <- !N.add_assoc.
  rewrite (digit_step v 256 256 65536), (digit_step v 65536 256 16777216) by first [discriminate | reflexivity].
  apply digit_step; first [discriminate | reflexivity].
Qed.

Lemma be32_bytes32 : forall v, v < 4294967296 -> be32 (bytes32 v) = v.
Proof. intros v Hv. rewrite be32_bytes32_mod. apply N.mod_small. exact Hv. Qed.

Lemma be32_bytes32_app : forall v r, be32 (bytes32 v ++ r) = be32 (bytes32 v).
Proof. reflexivity. Qed.

Lemma be64_bytes64 : forall hi rest, hi < 18446744073709551616 -> be64 (bytes64 hi ++ rest) = hi.
Proof.
  intros hi rest H. unfold be64, bytes64. rewrite <- app_assoc.
  change (skipn 4 (bytes32 (hi / 4294967296) ++ bytes32 (hi mod 4294967296) ++ rest))
    with (bytes32 (hi mod 4294967296) ++ rest).
  rewrite !be32_bytes32_app, !be32_bytes32_mod, N.mod_mod by discriminate.
  rewrite (digit_step hi 4294967296 4294967296 18446744073709551616) by first [discriminate | reflexivity].
  apply N.mod_small. exact H.
Qed.

Lemma rt_readByte : forall x, x < 256 -> runs_to readByte [x] x.
Proof. intros x Hx rest al. exists al. cbn. rewrite byte_id; auto. Qed.

Lemma rt_byte : forall A (k : N -> M A) x bs v,
  x < 256 -> runs_to (k x) bs v -> runs_to (bind readByte k) (x :: bs) v.
Proof. intros A k x bs v Hx Hk. apply (rt_bind _ _ _ _ [x] bs x); [apply rt_readByte; exact Hx|exact Hk]. Qed.

Lemma rt_readU16 : forall v, v < 65536 -> runs_to readU16 (u16be v) v.
Proof.
  intros v Hv. unfold readU16, u16be. repeat (apply rt_byte; [apply byte_lt|]).
  apply rt_ret_eq, u16_digits, Hv.
Qed.

Lemma u32be_small : forall v, u32 v -> u32be v = bytes32 v.
Proof. intros. unfold u32be. rewrite N.mod_small; auto. Qed.

Lemma rt_readU32 : forall v, v < 4294967296 -> runs_to readU32 (u32be v) v.
Proof.
  intros v Hv. rewrite (u32be_small v Hv). unfold readU32, bytes32. repeat (apply rt_byte; [apply byte_lt|]).
  apply rt_ret_eq. exact (be32_bytes32 v Hv).
Qed.

Lemma rt_binRead : forall bs, bytes_ok bs -> runs_to (binRead (len bs)) bs bs.
Proof.
  intros bs Hb rest al. exists al. unfold binRead. rewrite to_nat_len, firstn_app_length, skipn_app_length.
  rewrite N.eqb_refl, map_byte_id; auto.
Qed.

Lemma rt_dumpN : forall bs, runs_to (dumpN (len bs)) bs tt.
Proof.
  intros bs rest al. exists al. unfold dumpN. rewrite to_nat_len, firstn_app_length, skipn_app_length.
  rewrite N.eqb_refl. reflexivity.
Qed.

Lemma rt_bufReadFull : forall bs, bytes_ok bs -> runs_to (bufReadFull (len bs)) bs bs.
Proof. intros bs Hb rest al. rewrite bufReadFull_binRead. apply rt_binRead, Hb. Qed.

Lemma rt_read4 : forall v, v < 4294967296 -> runs_to read4 (u32be v) v.
Proof.
  intros v Hv. rewrite (u32be_small v Hv). unfold read4.
  eapply rt_bind_r; [apply (rt_bufReadFull (bytes32 v)), bytes32_ok|].
  apply rt_ret_eq. exact (be32_bytes32 v Hv).
Qed.

(* the count as the decoders compute it, from a length field *)
Lemma rt_repeatM : forall A (m : M A) (enc : A -> list N) (P : A -> Prop) (l : list A) c,
  (forall x, P x -> runs_to m (enc x) x) -> Forall P l -> c = len l ->
  runs_to (repeatM (N.to_nat c) m) (flat_map enc l) l.
Proof.
  intros A m enc P l c Hm H ->. rewrite to_nat_len.
  induction H as [|x l Hx Hl IH]; cbn [repeatM length flat_map]; [apply rt_ret|].
  eapply rt_bind; [apply Hm; exact Hx|]. eapply rt_bind_r; [exact IH|]. apply rt_ret.
Qed.

Lemma len_flat_map_const : forall A (f : A -> list N) k (l : list A),
  (forall x, len (f x) = k) -> len (flat_map f l) = k * len l.
Proof.
  intros A f k l Hk. induction l as [|x l IH]; [cbn; lia|].
  cbn [flat_map]. rewrite len_app, IH, Hk, len_cons. lia.
Qed.

Lemma allZero_repeat : forall l, allZero l = true -> l = repeat 0 (length l).
Proof.
  induction l as [|x l IH]; intros H; [reflexivity|].
  apply andb_true_iff in H. destruct H as (Hx & Hl). apply N.eqb_eq in Hx.
  cbn [length repeat]. f_equal; auto.
Qed.

(* copy(ipBytes, b) for b = the first nb bytes of a byte-clean address gives the address back *)
Lemma pad_clean : forall addr nb n,
  length addr = n -> (nb <= n)%nat -> allZero (skipn nb addr) = true ->
  firstn n (firstn nb addr ++ repeat 0 n) = addr.
Proof.
  intros addr nb n <- Hnb Hz.
  replace (repeat 0 (length addr)) with (repeat 0 (length addr - nb) ++ repeat 0 nb)
    by (rewrite <- repeat_app; f_equal; lia).
  rewrite app_assoc, <- skipn_length, <- (allZero_repeat _ Hz), firstn_skipn. apply firstn_app_length.
Qed.

Lemma nth_pad0 : forall (l : list N) k i, nth i (l ++ repeat 0 k) 0 = nth i l 0.
Proof.
  intros l k i. destruct (Nat.lt_ge_cases i (length l)) as [H|H].
  - apply app_nth1. exact H.
  - rewrite app_nth2, (nth_overflow l) by lia. apply nth_repeat.
Qed.

Lemma be32_pad0 : forall l k, be32 (l ++ repeat 0 k) = be32 l.
Proof. intros. unfold be32. rewrite !nth_pad0. reflexivity. Qed.

Lemma be32_clean : forall l nb, allZero (skipn nb l) = true -> be32 (firstn nb l) = be32 l.
Proof.
  intros l nb Hz. rewrite <- (firstn_skipn nb l) at 2. rewrite (allZero_repeat _ Hz). symmetry. apply be32_pad0.
Qed.

Definition addrBytes (p : prefix) : list N := firstn (N.to_nat (bytesInAddr (p_len p))) (ipBytes (p_ip p)).

Lemma addrBytes_ok : forall p, bytes_ok (addrBytes p).
Proof. intros. apply Forall_firstn, ipBytes_ok. Qed.

Lemma wf_prefix_family : forall afi p, wf_prefix afi p -> len (ipBytes (p_ip p)) = afiAddrLen afi.
Proof. intros afi [[v|hi lo] pl] (_ & _ & Hip); destruct Hip as (-> & _); reflexivity. Qed.

Lemma len_addrBytes : forall afi p, wf_prefix afi p ->
  len (addrBytes p) = bytesInAddr (p_len p) /\ bytesInAddr (p_len p) <= afiAddrLen afi <= 16.
Proof.
  intros afi p H. pose proof (wf_prefix_family _ _ H) as Hf. destruct H as (Hl & _ & _).
  unfold addrBytes. rewrite len_firstn, Hf. unfold bytesInAddr, afiAddrLen in *.
  destruct (afi =? 1); [lia|]. destruct (afi =? 2); lia.
Qed.

Lemma rt_deserializePrefix : forall afi p,
  wf_prefix afi p -> runs_to (deserializePrefix (addrBytes p) (p_len p) afi) [] p.
Proof.
  intros afi p Hwf. destruct (len_addrBytes _ _ Hwf) as (Hlen & Hnb).
  destruct p as [a pl]. destruct Hwf as (Hl & Hz & Hip). unfold addrBytes in *. cbn [p_ip p_len] in *.
  unfold deserializePrefix.
  eapply rt_bind_l; [apply rt_guard; lia|]. eapply rt_bind_l; [apply rt_guard; lia|].
  destruct a as [v|hi lo].
  - destruct Hip as (-> & Hv). cbn [N.eqb Pos.eqb]. apply rt_ret_eq. f_equal.
    unfold ipv4FromBytes. replace (_ <=? 4) with true by (cbn in Hnb; lia).
    cbn [ipBytes] in *. rewrite be32_clean by exact Hz. f_equal. apply be32_bytes32, Hv.
  - destruct Hip as (-> & Hhi & Hlo & Hvalid). cbn [N.eqb Pos.eqb afiAddrLen].
    change (N.to_nat (afiAddrLen 2)) with 16%nat.
    rewrite pad_clean; [|reflexivity|cbn in Hnb; lia|exact Hz].
    cbn [ipBytes].
    assert (E1 : be64 (bytes64 hi ++ bytes64 lo) = hi) by (apply be64_bytes64; exact Hhi).
    assert (E2 : be64 (skipn 8 (bytes64 hi ++ bytes64 lo)) = lo).
    { change (skipn 8 (bytes64 hi ++ bytes64 lo)) with (bytes64 lo).
      rewrite <- (app_nil_r (bytes64 lo)). apply be64_bytes64. exact Hlo. }
    unfold ipFromBytes.
    change (len (bytes64 hi ++ bytes64 lo)) with 16. cbn [N.eqb Pos.eqb].
    destruct (allZero _ && _ && _); rewrite E1, E2;
      (eapply rt_bind_l; [apply rt_guard; exact Hvalid|apply rt_ret]).
Qed.

Definition nlriBytes (ap : bool) (n : nlri) : list N :=
  (if ap then u32be (n_id n) else []) ++ [p_len (n_pfx n)] ++ addrBytes (n_pfx n).
Definition nlrisBytes (ap : bool) (l : list nlri) : list N := flat_map (nlriBytes ap) l.

Lemma wf_nlri_plen : forall afi ap n, wf_nlri afi ap n -> p_len (n_pfx n) <= 128.
Proof.
  intros afi ap n (_ & _ & _ & (Hl & _)). unfold afiAddrLen in Hl.
  destruct (afi =? 1); [lia|]. destruct (afi =? 2); lia.
Qed.

Lemma len_nlriBytes : forall afi ap n, wf_nlri afi ap n ->
  len (nlriBytes ap n) = (if ap then 4 else 0) + 1 + bytesInAddr (p_len (n_pfx n)) /\ len (nlriBytes ap n) <= 21.
Proof.
  intros afi ap n (_ & _ & _ & Hp). destruct (len_addrBytes _ _ Hp) as (Hlen & Hnb).
  unfold nlriBytes. rewrite !len_app, Hlen, len_cons, len_nil. destruct ap; rewrite ?len_u32be, ?len_nil; lia.
Qed.

Lemma nlriBytes_nonempty : forall ap n, (1 <= length (nlriBytes ap n))%nat.
Proof. intros. unfold nlriBytes. rewrite !app_length. cbn [length]. lia. Qed.

Lemma encodeNLRI_wf : forall afi ap safi n, wf_nlri afi ap n -> (safi =? 4) = false ->
  encodeNLRI ap safi n = Some (nlriBytes ap n, len (nlriBytes ap n)).
Proof.
  intros afi ap safi n Hwf Hs. pose proof (wf_nlri_plen _ _ _ Hwf) as Hpl.
  destruct (len_nlriBytes _ _ _ Hwf) as (Hlen & H21). destruct Hwf as (_ & _ & _ & Hp).
  pose proof (wf_prefix_family _ _ Hp) as Hfam. destruct (len_addrBytes _ _ Hp) as (_ & Hnb).
  unfold encodeNLRI. rewrite Hs, Hfam. replace (_ <? _) with false by lia.
  rewrite N.mod_small, Hlen by lia. apply f_equal, f_equal. rewrite len_nil.
  destruct ap; rewrite ?len_u32be, ?len_nil, N.mod_small; lia.
Qed.

Lemma rt_decodeNLRI : forall fuel afi ap n, wf_nlri afi ap n ->
  runs_to (decodeNLRI fuel afi 1 ap) (nlriBytes ap n) (n, len (nlriBytes ap n)).
Proof.
  intros fuel afi ap n Hwf. pose proof (wf_nlri_plen _ _ _ Hwf) as Hpl.
  destruct (len_nlriBytes _ _ _ Hwf) as (Hlen & _). destruct Hwf as (Hlab & Hid & Hap & Hp).
  destruct (len_addrBytes _ _ Hp) as (Hal & _).
  destruct n as [id labels pfx]. cbn [n_id n_labels n_pfx] in *. subst labels.
  unfold decodeNLRI, nlriBytes. cbn [n_id n_pfx].
  eapply rt_bind with (v1 := (id, if ap then 4 else 0)).
  { destruct ap.
    - eapply rt_bind_r; [apply rt_readU32; exact Hid|apply rt_ret].
    - rewrite (Hap eq_refl). apply rt_ret. }
  cbv beta iota. apply rt_byte; [lia|]. cbv beta zeta. cbn [N.eqb Pos.eqb].
  eapply rt_bind_l; [apply rt_ret|]. cbv beta iota.
  eapply rt_bind_l; [apply rt_alloc|].
  eapply rt_bind_r; [rewrite <- Hal; apply rt_bufReadFull, addrBytes_ok|]. cbv beta zeta.
  eapply rt_bind_l; [apply rt_deserializePrefix; exact Hp|].
  apply rt_ret_eq, f_equal, eq_sym, Hlen.
Qed.

(* the loops' results as rev_append acc l: pushing an item onto acc is then a conversion *)
Lemma rt_decodeNLRIs : forall afi ap l, Forall (wf_nlri afi ap) l ->
  forall fuel p acc, (length (nlrisBytes ap l) < fuel)%nat ->
  runs_to (decodeNLRIs fuel (p + len (nlrisBytes ap l)) p afi 1 ap acc) (nlrisBytes ap l) (rev_append acc l).
Proof.
  intros afi ap l Hwf. induction Hwf as [|n l Hn Hl IH]; intros fuel p acc Hf;
    (destruct fuel as [|f]; [lia|]).
  - cbn [nlrisBytes flat_map decodeNLRIs].
    rewrite len_nil, N.add_0_r, N.ltb_irrefl.
    eapply rt_bind_l; [apply rt_guard, N.eqb_refl|]. apply rt_ret_eq, rev_alt.
  - cbn [nlrisBytes flat_map] in *. fold (nlrisBytes ap l) in *.
    cbn [decodeNLRIs].
    pose proof (nlriBytes_nonempty ap n) as Hne.
    rewrite app_length in Hf. rewrite len_app.
    replace (p <? _) with true by (unfold len; lia).
    eapply rt_bind; [apply rt_decodeNLRI; exact Hn|]. cbv beta iota.
    rewrite N.add_assoc.
    apply (IH f _ (n :: acc)). lia.
Qed.

Lemma encodeNLRIs_wf : forall afi ap safi l, Forall (wf_nlri afi ap) l -> (safi =? 4) = false ->
  encodeNLRIs ap safi l = Some (nlrisBytes ap l).
Proof.
  intros afi ap safi l Hwf Hs. induction Hwf as [|n l Hn Hl IH]; [reflexivity|].
  cbn [encodeNLRIs nlrisBytes flat_map]. rewrite (encodeNLRI_wf _ _ _ _ Hn Hs), IH. reflexivity.
Qed.

Lemma nlriSection_wf : forall afi ap safi l, Forall (wf_nlri afi ap) l -> (safi =? 4) = false ->
  forall acc budget x b', nlriSection ap safi l acc budget = SOk x b' -> x = acc ++ nlrisBytes ap l.
Proof.
  intros afi ap safi l Hwf Hs. induction Hwf as [|n l Hn Hl IH]; intros acc budget x b' E.
  - cbn in E. inversion E. rewrite app_nil_r. reflexivity.
  - cbn [nlriSection] in E. rewrite (encodeNLRI_wf _ _ _ _ Hn Hs) in E.
    destruct (budget <? _); [discriminate|]. apply IH in E. subst x.
    cbn [nlrisBytes flat_map]. rewrite app_assoc. reflexivity.
Qed.

Lemma nlriBytes_ok : forall afi ap n, wf_nlri afi ap n -> bytes_ok (nlriBytes ap n).
Proof.
  intros afi ap n Hwf. pose proof (wf_nlri_plen _ _ _ Hwf) as Hpl. pose proof (addrBytes_ok (n_pfx n)).
  unfold nlriBytes, u32be. destruct ap; auto with bytes.
Qed.

Lemma nlrisBytes_ok : forall afi ap l, Forall (wf_nlri afi ap) l -> bytes_ok (nlrisBytes ap l).
Proof.
  intros afi ap l H. induction H as [|n l Hn Hl IH]; [constructor|].
  cbn [nlrisBytes flat_map]. apply bytes_ok_app; [eapply nlriBytes_ok; eauto|exact IH].
Qed.

Lemma nlrisBytes_nil : forall ap l, nlrisBytes ap l = [] -> l = [].
Proof.
  intros ap l H. destruct l as [|n l]; [reflexivity|]. exfalso. cbn [nlrisBytes flat_map] in H.
  pose proof (nlriBytes_nonempty ap n) as Hn. apply (f_equal (@length N)) in H. rewrite app_length in H. cbn in H. lia.
Qed.

Lemma len_encodeU32s : forall l, len (encodeU32s l) = 4 * len l.
Proof. intros. apply len_flat_map_const, len_u32be. Qed.

Lemma rt_decodeU32List : forall l, Forall u32 l -> runs_to (decodeU32List (len (encodeU32s l))) (encodeU32s l) l.
Proof.
  intros l H. unfold decodeU32List. rewrite len_encodeU32s.
  eapply rt_bind_l; [apply rt_guard; lia|]. eapply rt_bind_l; [apply rt_alloc|].
  apply (rt_repeatM _ _ _ _ _ _ rt_read4 H). lia.
Qed.

Definition largeBytes (l : list (N * N * N)) : list N :=
  flat_map (fun c => u32be (fst (fst c)) ++ u32be (snd (fst c)) ++ u32be (snd c)) l.

Lemma len_largeBytes : forall l, len (largeBytes l) = 12 * len l.
Proof. intros. apply len_flat_map_const. reflexivity. Qed.

Lemma rt_decodeLarge : forall l, Forall large_ok l -> runs_to (decodeLarge (len (largeBytes l))) (largeBytes l) l.
Proof.
  intros l H. unfold decodeLarge. rewrite len_largeBytes.
  eapply rt_bind_l; [apply rt_guard; lia|]. eapply rt_bind_l; [apply rt_alloc|].
  apply (rt_repeatM _ _ _ large_ok); [|exact H|lia]. intros [[a b] c] (Ha & Hb & Hc). cbn [fst snd] in *.
  eapply rt_bind; [apply rt_read4; exact Ha|]. eapply rt_bind; [apply rt_read4; exact Hb|].
  eapply rt_bind_r; [apply rt_read4; exact Hc|]. apply rt_ret.
Qed.

Lemma known_type_neq : forall t c, known_type t = false -> known_type c = true -> (t =? c) = false.
Proof. intros t c Ht Hc. apply N.eqb_neq. intros ->. congruence. Qed.

Definition asnBytes (as4 : bool) (l : list N) : list N :=
  if as4 then flat_map u32be l else flat_map (fun a => u16be (a mod 65536)) l.
Definition segBytes (as4 : bool) (s : N * list N) : list N := [fst s; len (snd s)] ++ asnBytes as4 (snd s).

Lemma len_asnBytes : forall as4 l, len (asnBytes as4 l) = (if as4 then 4 else 2) * len l.
Proof. intros [|] l; apply len_flat_map_const; reflexivity. Qed.

Lemma len_segBytes : forall as4 s, len (segBytes as4 s) = 2 + (if as4 then 4 else 2) * len (snd s).
Proof. intros. unfold segBytes. rewrite len_app, len_asnBytes. reflexivity. Qed.

Lemma rt_asns : forall as4 l, Forall (asn_ok as4) l ->
  runs_to (repeatM (N.to_nat (len l)) (decodeASN (if as4 then 4 else 2))) (asnBytes as4 l) l.
Proof.
  intros [|] l H; unfold asnBytes, decodeASN; cbn [N.eqb Pos.eqb].
  - exact (rt_repeatM _ _ _ _ _ _ rt_readU32 H eq_refl).
  - apply (rt_repeatM _ _ _ (fun a => a < 65536)); [|exact H|reflexivity].
    intros x Hx. rewrite N.mod_small by exact Hx. apply rt_readU16, Hx.
Qed.

Lemma rt_decodeASPath : forall as4 segs, Forall (seg_ok as4) segs ->
  forall fuel p acc, (length (flat_map (segBytes as4) segs) < fuel)%nat ->
  runs_to (decodeASPath fuel (p + len (flat_map (segBytes as4) segs)) (if as4 then 4 else 2) p acc)
          (flat_map (segBytes as4) segs) (AVASPath (rev_append acc segs)).
Proof.
  intros as4 segs H. induction H as [|[ty asns] segs (Hty & Hc & Ha) Hs IH]; intros fuel p acc Hf;
    (destruct fuel as [|f]; [lia|]).
  - cbn [flat_map decodeASPath].
    rewrite len_nil, N.add_0_r, N.ltb_irrefl.
    eapply rt_bind_l; [apply rt_guard, N.eqb_refl|]. apply rt_ret_eq, f_equal, rev_alt.
  - cbn [flat_map fst snd] in *.
    set (rest := flat_map (segBytes as4) segs) in *.
    rewrite app_length in Hf. unfold segBytes in *. cbn [fst snd app length] in *.
    cbn [decodeASPath]. rewrite len_cons, len_cons, len_app, len_asnBytes.
    replace (p <? _) with true by lia.
    apply rt_byte; [lia|]. apply rt_byte; [lia|]. cbv zeta.
    eapply rt_bind_l; [apply rt_guard; lia|]. eapply rt_bind_l; [apply rt_guard; lia|].
    eapply rt_bind_l; [apply rt_alloc|].
    eapply rt_bind; [apply rt_asns; exact Ha|]. cbv beta.
    replace (p + _) with (p + 2 + len asns * (if as4 then 4 else 2) + len rest) by (destruct as4; lia).
    apply (IH f _ ((ty, asns) :: acc)). lia.
Qed.

Lemma encodeSegments_spec : forall as4 segs,
  Forall (seg_ok as4) (filter nonempty_seg segs) ->
  encodeSegments as4 segs = (flat_map (segBytes as4) (filter nonempty_seg segs),
                             len (flat_map (segBytes as4) (filter nonempty_seg segs)) mod 65536).
Proof.
  intros as4 segs. induction segs as [|[ty asns] segs IH]; intros Hok; [reflexivity|].
  cbn [encodeSegments filter] in *. change (nonempty_seg (ty, asns)) with (negb (len asns =? 0)) in *.
  destruct (len asns =? 0); cbn [negb] in *; [rewrite IH by assumption; reflexivity|].
  inversion Hok as [|x l (Hty & Hc & Ha) Hrest]; subst. cbn [fst snd] in *.
  rewrite IH by assumption. cbn [flat_map]. unfold segBytes at 1 3. cbn [fst snd].
  rewrite (N.mod_small ty), (N.mod_small (len asns) 256), (N.mod_small (len asns) 65536) by lia.
  apply f_equal2; [rewrite <- app_assoc; reflexivity|].
  rewrite len_app, len_segBytes. cbn [snd]. rewrite (N.mul_comm (len asns)).
  rewrite (N.mod_small (_ * len asns)) by (destruct as4; lia).
  apply N.add_mod_idemp_r. discriminate.
Qed.

Lemma rt_subparse : forall A (inner : M A) body v,
  bytes_ok body -> runs_all inner body v -> runs_to (subparse (len body) inner) body v.
Proof.
  intros A inner body v Hb Hin rest al. unfold subparse, bind, alloc.
  destruct (rt_bufReadFull body Hb rest (al + len body)) as (al1 & ->).
  unfold runSub. destruct (Hin al1) as (al2 & ->). eauto.
Qed.

Lemma ipFromBytes_some : forall l a, ipFromBytes l = Some a -> len l = 4 \/ len l = 16.
Proof.
  intros l a H. unfold ipFromBytes in H.
  destruct (len l =? 4) eqn:E4; [left; lia|].
  destruct (len l =? 16) eqn:E16; [right; lia|]. discriminate.
Qed.

Lemma nexthop_len : forall nh, nexthop_ok nh -> len (ipBytes nh) = 4 \/ len (ipBytes nh) = 16.
Proof. intros nh H. eapply ipFromBytes_some; eauto. Qed.

Definition mpReachBody (ap : bool) (afi safi : N) (nh : ip) (nl : list nlri) : list N :=
  u16be afi ++ [safi] ++ [len (ipBytes nh)] ++ ipBytes nh ++ [0] ++ nlrisBytes ap nl.

Lemma all_MPReachBody : forall fuel o afi ap nh nl,
  afi < 65536 -> nexthop_ok nh -> addPathFor o afi 1 = ap -> Forall (wf_nlri afi ap) nl ->
  len (nlrisBytes ap nl) < 65536 -> (length (nlrisBytes ap nl) < fuel)%nat ->
  runs_all (deserializeMPReachBody fuel o) (mpReachBody ap afi 1 nh nl) (AVMPReach afi 1 nh nl).
Proof.
  intros fuel o afi ap nh nl Hafi Hnh Hap Hwf Hlen Hf. set (nb := nlrisBytes ap nl) in *.
  pose proof (nexthop_len _ Hnh) as Hnl. unfold nexthop_ok in Hnh. set (nhb := ipBytes nh) in *.
  unfold deserializeMPReachBody, mpReachBody. fold nhb nb.
  eapply all_bind; [apply rt_readU16, Hafi|].
  eapply all_bind; [apply rt_readByte; lia|]. eapply all_bind; [apply rt_readByte; lia|].
  apply all_getBuf. cbv zeta.
  set (variable := nhb ++ [0] ++ nb).
  assert (Hlv : len variable = len nhb + 1 + len nb) by (subst variable; rewrite !len_app, len_cons, len_nil; lia).
  apply (all_bind _ _ _ _ [] variable tt); [apply rt_guard; lia|].
  replace (len nhb =? 32) with false by lia. replace (len variable <? len nhb) with false by lia.
  replace (map byte (firstn (N.to_nat (len nhb)) variable)) with nhb
    by (subst variable; rewrite to_nat_len, firstn_app_length; symmetry; apply map_byte_id, ipBytes_ok).
  rewrite Hnh. replace (len variable - len nhb =? 0) with false by lia.
  rewrite (N.mod_small (1 + len nhb)) by lia. replace (len variable <? 1 + len nhb) with false by lia.
  replace (N.to_nat (1 + len nhb)) with (length (nhb ++ [0])) by (rewrite app_length; unfold len; cbn [length]; lia).
  subst variable. rewrite app_assoc. apply all_dropBuf, all_getBuf.
  rewrite Hap, (N.mod_small (len nb)) by exact Hlen.
  apply rt_all. eapply rt_bind_r; [|apply rt_ret]. exact (rt_decodeNLRIs afi ap nl Hwf fuel 0 [] Hf).
Qed.

Definition mpUnreachBody (ap : bool) (afi safi : N) (nl : list nlri) : list N :=
  u16be afi ++ [safi] ++ nlrisBytes ap nl.

Lemma all_MPUnreachBody : forall fuel o afi ap nl,
  afi < 65536 -> addPathFor o afi 1 = ap -> Forall (wf_nlri afi ap) nl ->
  len (nlrisBytes ap nl) < 65536 -> (length (nlrisBytes ap nl) < fuel)%nat ->
  runs_all (deserializeMPUnreachBody fuel o) (mpUnreachBody ap afi 1 nl) (AVMPUnreach afi 1 nl).
Proof.
  intros fuel o afi ap nl Hafi Hap Hwf Hlen Hf. set (nb := nlrisBytes ap nl) in *.
  unfold deserializeMPUnreachBody, mpUnreachBody. fold nb.
  eapply all_bind; [apply rt_readU16, Hafi|]. eapply all_bind; [apply rt_readByte; lia|].
  apply all_getBuf. apply rt_all.
  destruct (len nb =? 0) eqn:E0.
  - assert (nb = []) as Hnb by (destruct nb; [reflexivity|discriminate]).
    rewrite Hnb, (nlrisBytes_nil _ _ Hnb). apply rt_ret.
  - rewrite Hap, (N.mod_small (len nb)) by exact Hlen.
    eapply rt_bind_r; [|apply rt_ret]. exact (rt_decodeNLRIs afi ap nl Hwf fuel 0 [] Hf).
Qed.

(* the MP attributes: the value is copied into a buffer of its own and parsed there *)
Lemma rt_mp : forall A (inner : M A) (c : bool) n bs v,
  bytes_ok bs -> c = true -> runs_all inner bs v ->
  runs_to (subparse (len bs) (_ <- guard c ;; _ <- alloc n ;; inner)) bs v.
Proof.
  intros A inner c n bs v Hb -> Hrun. apply rt_subparse; [exact Hb|]. intros al. exact (Hrun (al + n)).
Qed.

Definition emitted (o : eopts) (a a' : attr) (bs : list N) (fuel : nat) : Prop :=
  runs_to (decodePathAttr fuel (doptsOf o)) bs (a', len bs) /\ same_attr a a' /\ (1 <= length bs)%nat.

Definition flagByte (c : attr) : N :=
  (if a_opt c then 128 else 0) + (if a_trans c then 64 else 0) + (if a_part c then 32 else 0) + (if a_ext c then 16 else 0).

Definition attrWire (c : attr) (vb : list N) : list N := [flagByte c; a_type c] ++ lenBytes (a_ext c) (len vb) ++ vb.

Lemma rt_attr_wire : forall fuel o c vb,
  a_type c < 256 -> a_len c = len vb -> (a_ext c = false -> len vb <= 255) -> len vb <= 4096 ->
  runs_to (decodeAttrValue fuel o (a_type c) (len vb)) vb (a_val c) ->
  runs_to (decodePathAttr fuel o) (attrWire c vb) (c, len (attrWire c vb)).
Proof.
  intros fuel o [op tr pa ex ty L v] vb Ht HL Hext H4 Hv. unfold decodePathAttr, attrWire, flagByte.
  cbn [a_opt a_trans a_part a_ext a_type a_len a_val app] in *. subst L.
  set (fl := _ + _ + _ + _).
  assert (Hfl : fl < 256 /\ N.testbit fl 7 = op /\ N.testbit fl 6 = tr /\ N.testbit fl 5 = pa /\ N.testbit fl 4 = ex)
    by (subst fl; destruct op, tr, pa, ex; repeat split; reflexivity).
  clearbody fl. destruct Hfl as (Hf & <- & <- & <- & <-).
  apply rt_byte; [exact Hf|]. apply rt_byte; [exact Ht|]. cbv zeta.
  eapply rt_bind with (v1 := (len vb, if N.testbit fl 4 then 2 else 1)).
  { unfold lenBytes. destruct (N.testbit fl 4).
    - eapply rt_bind_r; [apply (rt_readU16 (len vb)); lia|apply rt_ret].
    - specialize (Hext eq_refl). rewrite N.mod_small by lia. apply rt_byte; [lia|apply rt_ret]. }
  cbv beta iota. eapply rt_bind_r; [exact Hv|]. apply rt_ret_eq. f_equal.
  rewrite !len_cons, len_app. unfold lenBytes.
  destruct (N.testbit fl 4); rewrite ?len_cons, len_nil, N.mod_small; lia.
Qed.

Inductive attr_kind (o : eopts) : N -> attrval -> Prop :=
| KOrigin v : v < 256 -> attr_kind o 1 (AVOrigin v)
| KASPath segs : Forall (seg_ok (use32 o)) (filter nonempty_seg segs) -> attr_kind o 2 (AVASPath segs)
| KNextHop v : u32 v -> attr_kind o 3 (AVNextHop (IP4 v))
| KU32 t v : t = 4 \/ t = 5 \/ t = 9 -> u32 v -> attr_kind o t (AVU32 v)
| KAtomic : attr_kind o 6 AVNone
| KAggregator asn ad : asn < 65536 -> u32 ad -> attr_kind o 7 (AVAggregator asn ad)
| KComms l : Forall u32 l -> attr_kind o 8 (AVComms l)
| KLarge l : Forall large_ok l -> attr_kind o 32 (AVLarge l)
| KCluster l : Forall u32 l -> attr_kind o 10 (AVCluster l)
| KMPReach afi nh nl : afi = 1 \/ afi = 2 -> nexthop_ok nh -> Forall (wf_nlri afi (useAddPath o)) nl ->
    attr_kind o 14 (AVMPReach afi 1 nh nl)
| KMPUnreach afi nl : afi = 1 \/ afi = 2 -> Forall (wf_nlri afi (useAddPath o)) nl ->
    attr_kind o 15 (AVMPUnreach afi 1 nl)
| KUnknown t b : known_type t = false -> t < 256 -> bytes_ok b -> attr_kind o t (AVUnknown b).

Lemma addPathFor_unicast : forall o afi, afi = 1 \/ afi = 2 -> addPathFor (doptsOf o) afi 1 = useAddPath o.
Proof. intros o afi [-> | ->]; reflexivity. Qed.

Lemma wf_attr_kind : forall o a, wf_attr o a -> attr_kind o (a_type a) (a_val a).
Proof.
  intros o a H. unfold wf_attr in H. cbv zeta in H.
  destruct (N.eqb_spec (a_type a) 1) as [->|_]; [destruct H as (v & -> & Hv); constructor; exact Hv|].
  destruct (N.eqb_spec (a_type a) 2) as [->|_]; [destruct H as (segs & -> & Hs); constructor; exact Hs|].
  destruct (N.eqb_spec (a_type a) 3) as [->|_]; [destruct H as (v & -> & Hv); constructor; exact Hv|].
  destruct ((a_type a =? 4) || (a_type a =? 5) || (a_type a =? 9)) eqn:E;
    [destruct H as (v & -> & Hv); constructor; [lia|exact Hv]|].
  destruct (N.eqb_spec (a_type a) 6) as [->|_]; [rewrite H; constructor|].
  destruct (N.eqb_spec (a_type a) 7) as [->|_]; [destruct H as (asn & ad & -> & Ha & Had); constructor; assumption|].
  destruct (N.eqb_spec (a_type a) 8) as [->|_]; [destruct H as (l & -> & Hl); constructor; exact Hl|].
  destruct (N.eqb_spec (a_type a) 32) as [->|_]; [destruct H as (l & -> & Hl); constructor; exact Hl|].
  destruct (N.eqb_spec (a_type a) 10) as [->|_]; [destruct H as (l & -> & Hl); constructor; exact Hl|].
  destruct (N.eqb_spec (a_type a) 14) as [->|_].
  { destruct H as (afi & nh & nl & -> & Hafi & Hnh & Hnl). rewrite (addPathFor_unicast o afi Hafi) in Hnl.
    constructor; assumption. }
  destruct (N.eqb_spec (a_type a) 15) as [->|_].
  { destruct H as (afi & nl & -> & Hafi & Hnl). rewrite (addPathFor_unicast o afi Hafi) in Hnl.
    constructor; assumption. }
  destruct H as (Hk & Ht & b & -> & Hb). constructor; assumption.
Qed.

Definition valBytes (o : eopts) (v : attrval) : list N :=
  match v with
  | AVOrigin x => [x]
  | AVASPath segs => flat_map (segBytes (use32 o)) (filter nonempty_seg segs)
  | AVNextHop a => ipBytes a
  | AVU32 x => u32be x
  | AVAggregator asn ad => u16be asn ++ u32be ad
  | AVComms l | AVCluster l => encodeU32s l
  | AVLarge l => largeBytes l
  | AVMPReach afi safi nh nl => mpReachBody (useAddPath o) afi safi nh nl
  | AVMPUnreach afi safi nl => mpUnreachBody (useAddPath o) afi safi nl
  | AVUnknown b => b
  | AVNone | AVNil => []
  end.

Lemma rt_val : forall o t v, attr_kind o t v -> len (valBytes o v) < 65536 ->
  forall fuel, (length (valBytes o v) < fuel)%nat ->
  runs_to (decodeAttrValue fuel (doptsOf o) t (len (valBytes o v))) (valBytes o v) (norm_val v).
Proof.
  intros o t v K HL fuel Hf. unfold decodeAttrValue.
  destruct K as [v Hv|segs Hs|v Hv|t v Ht Hv| |asn ad Ha Had|l Hl|l Hl|l Hl|afi nh nl Hafi Hnh Hnl|afi nl Hafi Hnl|t b Hk Ht Hb];
    cbn [valBytes norm_val N.eqb Pos.eqb] in *.
  - eapply rt_bind_l; [apply rt_guard; reflexivity|]. apply rt_byte; [assumption|].
    eapply rt_bind_l; [apply (rt_dumpN [])|]. apply rt_ret.
  - cbn [doptsOf asn32]. apply (rt_decodeASPath _ _ Hs fuel 0 []), Hf.
  - cbn [ipBytes]. rewrite <- (u32be_small v Hv). eapply rt_bind_l; [apply rt_guard; reflexivity|].
    eapply rt_bind_r; [apply rt_readU32; exact Hv|]. apply rt_ret.
  - destruct Ht as [->|[->| ->]]; cbn [N.eqb Pos.eqb]; unfold decodeU32Dump;
      (eapply rt_bind_l; [apply rt_guard; reflexivity|]);
      (eapply rt_bind_r; [first [apply rt_readU32 | apply rt_read4]; exact Hv|]);
      [apply rt_ret ..|eapply rt_bind_l; [apply (rt_dumpN [])|]; apply rt_ret].
  - eapply rt_bind_l; [apply rt_guard; reflexivity|]. apply rt_ret.
  - eapply rt_bind_l; [apply rt_guard; reflexivity|].
    eapply rt_bind; [apply rt_readU16; exact Ha|]. eapply rt_bind_r; [apply rt_readU32; exact Had|].
    eapply rt_bind_l; [apply (rt_dumpN [])|]. apply rt_ret.
  - eapply rt_bind_r; [apply rt_decodeU32List; exact Hl|]. apply rt_ret.
  - eapply rt_bind_r; [apply rt_decodeLarge; exact Hl|]. apply rt_ret.
  - eapply rt_bind_r; [apply rt_decodeU32List; exact Hl|]. apply rt_ret.
  - pose proof (nexthop_len _ Hnh) as Hnl'. pose proof (nlrisBytes_ok _ _ _ Hnl).
    unfold deserializeMPReach. apply rt_mp.
    + unfold mpReachBody. auto 7 with bytes. (* five appends, a cons, its leaf *)
    + unfold mpReachBody. rewrite !len_app, len_u16be, !len_cons, len_nil. lia.
    + unfold mpReachBody in Hf, HL. rewrite !app_length in Hf. rewrite !len_app in HL.
      apply all_MPReachBody; [lia|assumption|apply addPathFor_unicast, Hafi|assumption|lia|lia].
  - pose proof (nlrisBytes_ok _ _ _ Hnl). unfold deserializeMPUnreach. apply rt_mp.
    + unfold mpUnreachBody. auto with bytes.
    + unfold mpUnreachBody. rewrite !len_app, len_u16be, len_cons, len_nil. lia.
    + unfold mpUnreachBody in Hf, HL. rewrite !app_length in Hf. rewrite !len_app in HL.
      apply all_MPUnreachBody; [lia|apply addPathFor_unicast, Hafi|assumption|lia|lia].
  - rewrite !(known_type_neq t _ Hk) by reflexivity.
    eapply rt_bind_l; [apply rt_alloc|]. eapply rt_bind_r; [apply rt_binRead; exact Hb|]. apply rt_ret.
Qed.

Lemma attr_kind_type : forall o t v, attr_kind o t v -> t < 256.
Proof. intros o t v K. destruct K; try reflexivity; [lia|assumption]. Qed.

(* Optional, Transitive, Partial as the serializer of the type code writes them, and whether it honours the structure's
   extended-length flag; unknown type codes keep Optional and Partial and are marked Transitive *)
Definition attrHead (a : attr) : bool * bool * bool * bool :=
  let t := a_type a in
  if (t =? 4) || (t =? 9) || (t =? 10) then (true, false, false, false)
  else if t =? 7 then (true, true, false, false)
  else if (t =? 8) || (t =? 32) then (true, true, true, false)
  else if (t =? 14) || (t =? 15) then (true, a_trans a, false, a_ext a)
  else if known_type t then (false, true, false, false)
  else (a_opt a, true, a_part a, a_ext a).

(* what the receiver decodes: the serializer's flags and length, the value without empty segments *)
Definition canon_attr (o : eopts) (a : attr) : attr :=
  let L := len (valBytes o (a_val a)) in
  let '(op, tr, pa, ex) := attrHead a in
  mkAttr op tr pa ((255 <? L) || ex) (a_type a) L (norm_val (a_val a)).

Definition attrBytes (o : eopts) (a : attr) : list N :=
  if emits o a then attrWire (canon_attr o a) (valBytes o (a_val a)) else [].

Lemma encodeAttr_wf : forall o a bs k,
  wf_attr o a -> encodeAttr o a = Some (bs, k) -> len bs <= 4096 -> bs = attrBytes o a.
Proof.
  (* by kind: once the bounds have removed the serializer's mod, its text converts to the image *)
  intros o a bs k K E H4. apply wf_attr_kind in K. unfold attrBytes, emits. rewrite E.
  destruct a as [op tr pa ex t L av]. unfold canon_attr, attrHead. cbn [a_type a_val a_opt a_trans a_part a_ext] in K |- *.
  destruct K as [v Hv|segs Hs|v Hv|t v Ht Hv| |asn ad Ha Had|l Hl|l Hl|l Hl|afi nh nl Hafi Hnh Hnl|afi nl Hafi Hnl|t b Hk Ht Hb];
    cbn [valBytes]; unfold encodeAttr in E; cbn [a_type a_val a_opt a_trans a_part a_ext N.eqb Pos.eqb] in E.
  - rewrite (N.mod_small v) in E by exact Hv. injection E as <- _. reflexivity.
  - rewrite (encodeSegments_spec _ _ Hs) in E.
    set (sb := flat_map (segBytes (use32 o)) (filter nonempty_seg segs)) in *. injection E as <- _.
    rewrite (N.mod_small (len sb)) by (rewrite !len_cons, len_app in H4; lia).
    destruct (255 <? len sb); reflexivity.
  - injection E as <- _. reflexivity.
  - destruct Ht as [->|[->| ->]]; cbn [N.eqb Pos.eqb] in E; injection E as <- _; reflexivity.
  - injection E as <- _. reflexivity.
  - rewrite (N.mod_small asn) in E by exact Ha. injection E as <- _. reflexivity.
  - destruct l as [|x l]; [injection E as <- _; reflexivity|].
    remember (x :: l) as cl eqn:Hcl. rewrite <- len_encodeU32s in E. injection E as <- _.
    rewrite (N.mod_small (len (encodeU32s cl))) by (rewrite !len_cons, len_app in H4; lia).
    destruct (255 <? len _); reflexivity.
  - destruct l as [|x l]; [injection E as <- _; reflexivity|].
    remember (x :: l) as cl eqn:Hcl. fold (largeBytes cl) in E. rewrite <- len_largeBytes in E. injection E as <- _.
    rewrite (N.mod_small (len (largeBytes cl))) by (rewrite !len_cons, len_app in H4; lia).
    destruct (255 <? len _); reflexivity.
  - destruct l as [|x l]; [injection E as <- _; reflexivity|].
    remember (x :: l) as cl eqn:Hcl. rewrite <- len_encodeU32s in E. injection E as <- _.
    rewrite (N.mod_small (len (encodeU32s cl))) by (rewrite !len_cons, len_app in H4; lia).
    destruct (255 <? len _); reflexivity.
  - change (1 mod 256) with 1 in E.
    rewrite (encodeNLRIs_wf afi _ 1 nl Hnl eq_refl), (N.mod_small afi) in E by lia.
    pose proof (nexthop_len _ Hnh) as Hnhl. rewrite (N.mod_small (len (ipBytes nh))) in E by lia.
    injection E as <- _. destruct tr; reflexivity.
  - change (1 mod 256) with 1 in E.
    rewrite (encodeNLRIs_wf afi _ 1 nl Hnl eq_refl), (N.mod_small afi) in E by lia.
    injection E as <- _. destruct tr; reflexivity.
  - rewrite !(known_type_neq t _ Hk) in E by reflexivity. rewrite (N.mod_small t) in E by exact Ht.
    rewrite !(known_type_neq t _ Hk), Hk by reflexivity.
    injection E as <- _. reflexivity.
Qed.

Lemma canon_attr_same : forall o a, same_attr a (canon_attr o a).
Proof.
  intros o a. unfold canon_attr. destruct (attrHead a) as [[[op tr] pa] ex] eqn:Eh. split; [reflexivity|]. split; [reflexivity|].
  intros Hk. unfold attrHead in Eh. rewrite !(known_type_neq _ _ Hk), Hk in Eh by reflexivity.
  injection Eh as <- <- <- _. repeat split; reflexivity.
Qed.

Lemma emitted_image : forall o a, wf_attr o a -> emits o a = true -> len (attrBytes o a) <= 4096 ->
  forall fuel, (length (attrBytes o a) < fuel)%nat -> emitted o a (canon_attr o a) (attrBytes o a) fuel.
Proof.
  intros o a K Em H4 fuel Hf. apply wf_attr_kind in K. unfold attrBytes in *. rewrite Em in *.
  assert (HL : len (valBytes o (a_val a)) <= 4096 /\ (length (valBytes o (a_val a)) < fuel)%nat)
    by (clear - H4 Hf; unfold attrWire in *; rewrite !len_app in H4; rewrite !app_length in Hf; lia).
  split; [|split; [apply canon_attr_same|apply le_n_S, Nat.le_0_l]].
  unfold canon_attr. destruct (attrHead a) as [[[op tr] pa] ex].
  apply rt_attr_wire; cbn [a_type a_len a_ext a_val]; [exact (attr_kind_type _ _ _ K)|reflexivity|clear; lia|apply HL|].
  apply rt_val; [exact K|clear - HL; lia|apply HL].
Qed.


Lemma app_length_lt : forall (a b : list N) n, (length (a ++ b) < n)%nat -> (length b < n)%nat.
Proof. intros a b n H. rewrite app_length in H. lia. Qed.

Lemma attrSection_wf : forall o l, Forall (wf_attr o) l ->
  forall acc budget x b', attrSection o l acc budget = SOk x b' -> len x <= 4096 -> x = acc ++ flat_map (attrBytes o) l.
Proof.
  intros o l Hwf. induction Hwf as [|a l Ha Hl IH]; intros acc budget x b' E H4.
  - cbn in E. inversion E. rewrite app_nil_r. reflexivity.
  - cbn [attrSection] in E. destruct (encodeAttr o a) as [[b k]|] eqn:Ea; [|discriminate].
    destruct (budget <? k); [discriminate|]. apply IH in E; [|exact H4]. subst x. cbn [flat_map].
    rewrite <- (encodeAttr_wf o a b k Ha Ea) by (rewrite !len_app in H4; lia).
    rewrite app_assoc. reflexivity.
Qed.

Lemma canon_same : forall o l, Forall2 same_attr l (map (canon_attr o) l).
Proof. intros o l. apply Forall2_map_r. intros a _. apply canon_attr_same. Qed.

Lemma attrBytes_nil : forall o l, flat_map (attrBytes o) l = [] -> filter (emits o) l = [].
Proof.
  intros o l. induction l as [|a l IH]; [reflexivity|]. cbn [flat_map filter]. intros H.
  apply app_eq_nil in H. destruct H as (Ha & Hl). unfold attrBytes in Ha. destruct (emits o a); [discriminate|auto].
Qed.

Lemma same_attr_types : forall l l' t, Forall2 same_attr l l' -> hasAttr t l' = hasAttr t l.
Proof.
  intros l l' t H. induction H as [|a a' l l' (Ht & _) _ IH]; [reflexivity|].
  unfold hasAttr in *. cbn [existsb]. rewrite Ht, IH. reflexivity.
Qed.

Lemma hasAttr_app : forall t l1 l2, hasAttr t (l1 ++ l2) = hasAttr t l1 || hasAttr t l2.
Proof. intros. unfold hasAttr. apply existsb_app. Qed.

Lemma rt_attrs_loop : forall o l, Forall (wf_attr o) l ->
  forall fuel p acc, (length (flat_map (attrBytes o) l) < fuel)%nat -> p + len (flat_map (attrBytes o) l) <= 4096 ->
  mand_final (rev_append acc (map (canon_attr o) (filter (emits o) l))) = true ->
  runs_to (decodePathAttrsLoop fuel (doptsOf o) (p + len (flat_map (attrBytes o) l)) p
             (hasAttr 3 acc || hasAttr 14 acc) (hasAttr 1 acc) (hasAttr 2 acc) acc)
          (flat_map (attrBytes o) l) (rev_append acc (map (canon_attr o) (filter (emits o) l))).
Proof.
  intros o l H. induction H as [|a l Ha _ IH]; intros fuel p acc Hf Hp Hm; cbn [flat_map filter] in *.
  - destruct fuel as [|f]; [lia|]. cbn [decodePathAttrsLoop map].
    rewrite len_nil, N.add_0_r, N.ltb_irrefl.
    eapply rt_bind_l; [|apply rt_ret_eq, rev_alt].
    rewrite <- rev_alt in Hm. unfold mand_final in Hm. rewrite !hasAttr_rev in Hm. apply rt_guard, Hm.
  - destruct (emits o a) eqn:Em; [|unfold attrBytes in *; rewrite Em in *; apply IH; assumption].
    destruct fuel as [|f]; [lia|]. cbn [decodePathAttrsLoop map].
    rewrite app_length in Hf. rewrite len_app in *.
    destruct (emitted_image o a Ha Em ltac:(lia) (S f) ltac:(lia)) as (Hrt & _ & Hne).
    replace (p <? _) with true by (unfold len; lia).
    eapply rt_bind; [exact Hrt|]. cbv beta iota zeta.
    rewrite (N.mod_small (p + len (attrBytes o a))), N.add_assoc by lia.
    rewrite orb_swap_inner, <- !hasAttr_cons.
    apply (IH f _ (canon_attr o a :: acc)); [lia|lia|exact Hm].
Qed.

Lemma rt_readMarker : forall n, runs_to (readMarker n) (repeat 255 n) tt.
Proof.
  induction n as [|n IH]; cbn [readMarker repeat]; [apply rt_ret|].
  apply rt_byte; [reflexivity|]. eapply rt_bind_l; [apply rt_guard; reflexivity|]. exact IH.
Qed.

Lemma rt_decodeHeader : forall l ty, 19 <= l <= 4096 -> 1 <= ty <= 4 ->
  negb (((ty =? 1) && (l <? 29)) || ((ty =? 2) && (l <? 23)) || ((ty =? 3) && (l <? 21)) || ((ty =? 4) && negb (l =? 19))) = true ->
  runs_to decodeHeader (header l ty) (l, ty).
Proof.
  intros l ty Hl Hty Hper. unfold decodeHeader, header. rewrite (N.mod_small l) by lia.
  eapply rt_bind; [apply rt_readMarker|]. eapply rt_bind; [apply rt_readU16; lia|].
  apply rt_byte; [lia|].
  eapply rt_bind_l; [apply rt_guard; lia|]. eapply rt_bind_l; [apply rt_guard; lia|].
  eapply rt_bind_l; [apply rt_guard, Hper|]. apply rt_ret.
Qed.

Lemma len_header : forall l ty, len (header l ty) = 19.
Proof. reflexivity. Qed.

Lemma rt_message : forall fuel o ty n bb bd,
  n = len bb + 19 -> runs_to decodeHeader (header n ty) (n, ty) ->
  runs_to (decodeBody fuel o ty (len bb)) bb bd ->
  runs_to (decodeM fuel o) (header n ty ++ bb) (mkMsg n ty bd).
Proof.
  intros fuel o ty n bb bd Hn Hh Hb. unfold decodeM. eapply rt_bind; [exact Hh|]. cbv beta iota.
  replace (n - 19) with (len bb) by lia. eapply rt_bind_r; [exact Hb|apply rt_ret].
Qed.

Lemma rt_decodeUpdate : forall o u wb ab nb fuel,
  wf_update o u ->
  wb = nlrisBytes (useAddPath o) (u_withdrawn u) ->
  ab = flat_map (attrBytes o) (u_attrs u) ->
  nb = nlrisBytes (useAddPath o) (u_nlri u) ->
  len wb + len ab + len nb <= 4096 ->
  (length wb + length ab + length nb < fuel)%nat ->
  runs_to (decodeUpdate fuel (doptsOf o) (4 + len wb + len ab + len nb))
          (u16be (len wb) ++ wb ++ u16be (len ab) ++ ab ++ nb)
          (mkUpdate (len wb) (u_withdrawn u) (len ab) (map (canon_attr o) (filter (emits o) (u_attrs u))) (u_nlri u)).
Proof.
  intros o u wb ab nb fuel Hwf Hwb Hab Hnb H4 Hf. pose proof Hwf as (Hw & Ha & Hn & _).
  subst nb. set (nb := nlrisBytes (useAddPath o) (u_nlri u)) in *.
  pose proof (canon_same o (filter (emits o) (u_attrs u))) as Hsame.
  unfold decodeUpdate.
  eapply rt_bind; [apply rt_readU16; lia|].
  eapply rt_bind; [subst wb; apply (rt_decodeNLRIs 1 (useAddPath o) _ Hw fuel 0 []); lia|].
  eapply rt_bind; [apply rt_readU16; lia|].
  eapply rt_bind_l; [apply rt_guard; lia|].
  eapply rt_bind with (v1 := map (canon_attr o) (filter (emits o) (u_attrs u))).
  { unfold decodePathAttrs. destruct (len ab =? 0) eqn:E0.
    - assert (H : ab = []) by (destruct ab; [reflexivity|discriminate]). rewrite H. rewrite Hab in H.
      rewrite (attrBytes_nil _ _ H). apply rt_ret.
    - subst ab. apply (rt_attrs_loop o _ Ha fuel 0 []); [lia|lia|].
      destruct Hwf as (_ & _ & _ & Hm & _).
      unfold mand_final in *. cbn [rev_append]. rewrite !(same_attr_types _ _ _ Hsame). exact Hm. }
  cbv zeta.
  replace (4 + len wb + len ab + len nb - 4 - len ab - len wb) with (len nb) by lia.
  destruct (0 <? len nb) eqn:En.
  - eapply rt_bind_r; [apply (rt_decodeNLRIs 1 (useAddPath o) _ Hn fuel 0 []); subst nb; lia|].
    assert (Hne : u_nlri u <> []) by (intros E; subst nb; rewrite E in En; discriminate).
    eapply rt_bind_l; [|apply rt_ret].
    destruct Hwf as (_ & _ & _ & _ & Hm3). apply rt_guard. rewrite !(same_attr_types _ _ _ Hsame). exact (Hm3 Hne).
  - assert (Hnil : nb = []) by (destruct nb; [reflexivity|discriminate]).
    rewrite Hnil. rewrite (nlrisBytes_nil _ _ Hnil). apply rt_ret.
Qed.

Lemma decode_of_runs : forall fuel o bs m,
  runs_to (decodeM fuel o) bs m -> exists al, decode fuel o bs = (Ok m [], al).
Proof.
  intros fuel o bs m H. unfold decode. destruct (H [] 0) as (al & E). rewrite app_nil_r in E. eauto.
Qed.

Lemma encodeUpdate_ok : forall o safi u bs, encodeUpdate o safi u = EOk bs ->
  exists wb b1 ab b2 nb b3,
    nlriSection (useAddPath o) safi (u_withdrawn u) [] 4077 = SOk wb b1 /\
    attrSection o (u_attrs u) [] b1 = SOk ab b2 /\
    nlriSection (useAddPath o) safi (u_nlri u) [] b2 = SOk nb b3 /\
    len bs = len wb + len ab + len nb + 23 /\ len bs <= 4096 /\
    bs = header (len bs) 2 ++ u16be (len wb) ++ wb ++ u16be (len ab) ++ ab ++ nb.
Proof.
  intros o safi u bs E. unfold encodeUpdate in E.
  destruct (nlriSection _ _ (u_withdrawn u) _ _) as [wb b1| |] eqn:Ew; try discriminate.
  destruct (attrSection _ _ _ _) as [ab b2| |] eqn:Ea; try discriminate.
  destruct (nlriSection _ _ (u_nlri u) _ _) as [nb b3| |] eqn:En; try discriminate.
  destruct (65535 <? len wb); [discriminate|]. destruct (65535 <? len ab); [discriminate|].
  destruct (4096 <? _) eqn:Et; [discriminate|].
  exists wb, b1, ab, b2, nb, b3. split; [reflexivity|]. split; [exact Ea|]. split; [exact En|].
  set (total := 2 + len wb + len ab + 2 + len nb + 19) in *.
  assert (Hbs : bs = header total 2 ++ u16be (len wb) ++ wb ++ u16be (len ab) ++ ab ++ nb) by congruence.
  assert (Hl : len bs = total) by (rewrite Hbs, !len_app, len_header, !len_u16be; subst total; lia).
  rewrite Hl. subst total. split; [lia|]. split; [lia|exact Hbs].
Qed.

Lemma update_size : forall o safi u bs, encodeUpdate o safi u = EOk bs ->
  len bs <= 4096 /\ exists rest, bs = header (len bs) 2 ++ rest.
Proof.
  intros o safi u bs E. destruct (encodeUpdate_ok _ _ _ _ E) as (wb & b1 & ab & b2 & nb & b3 & _ & _ & _ & _ & H4 & Hbs).
  split; [exact H4|]. eexists. exact Hbs.
Qed.

(* every sufficient fuel, anything after the message: the receiver decodes a zero-padded buffer *)
Theorem update_runs : forall o u bs,
  wf_update o u -> encodeUpdate o 1 u = EOk bs ->
  exists u', same_update o u u' /\
  forall fuel, (length bs < fuel)%nat -> runs_to (decodeM fuel (doptsOf o)) bs (mkMsg (len bs) 2 (BUpdate u')).
Proof.
  intros o u bs Hwf E. pose proof Hwf as (Hw & Ha & Hn & _).
  destruct (encodeUpdate_ok _ _ _ _ E) as (wb & b1 & ab & b2 & nb & b3 & Ew & Eab & En & Hl & H4 & Hbs).
  apply (nlriSection_wf 1 _ 1 _ Hw eq_refl) in Ew. apply (nlriSection_wf 1 _ 1 _ Hn eq_refl) in En.
  apply (attrSection_wf o _ Ha) in Eab; [|lia]. cbn [app] in Ew, En, Eab.
  set (bb := u16be (len wb) ++ wb ++ u16be (len ab) ++ ab ++ nb) in *.
  assert (Hbb : len bb = 4 + len wb + len ab + len nb) by (subst bb; rewrite !len_app, !len_u16be; lia).
  exists (mkUpdate (len wb) (u_withdrawn u) (len ab) (map (canon_attr o) (filter (emits o) (u_attrs u))) (u_nlri u)).
  split; [split; [reflexivity|]; split; [reflexivity|]; apply canon_same|].
  intros fuel Hf. rewrite Hbs at 1. apply rt_message; [lia|apply rt_decodeHeader; [lia|lia|cbn [N.eqb Pos.eqb andb orb]; lia]|].
  unfold decodeBody. cbn [N.eqb Pos.eqb]. eapply rt_bind_r; [|apply rt_ret]. rewrite Hbb.
  apply rt_decodeUpdate; try assumption; try lia. unfold len in *. lia.
Qed.

Lemma update_roundtrip : forall o u bs,
  wf_update o u -> encodeUpdate o 1 u = EOk bs ->
  len bs <= 4096 /\
  exists u' al, decode (S (length bs)) (doptsOf o) bs = (Ok (mkMsg (len bs) 2 (BUpdate u')) [], al) /\
                same_update o u u'.
Proof.
  intros o u bs Hwf E. split; [apply (update_size _ _ _ _ E)|].
  destruct (update_runs o u bs Hwf E) as (u' & Hs & Hrun). exists u'.
  destruct (decode_of_runs _ _ _ _ (Hrun _ (Nat.lt_succ_diag_r _))) as (al & Ed). eauto.
Qed.


Lemma notification_runs : forall fuel o code sub, code < 256 -> sub < 256 -> notificationOK code sub = true ->
  runs_to (decodeM fuel o) (header 21 3 ++ [code; sub]) (mkMsg 21 3 (BNotification code sub)).
Proof.
  intros fuel o code sub Hc Hs Hok.
  apply (rt_message fuel o 3 21 [code; sub]); [reflexivity|apply rt_decodeHeader; [lia|lia|reflexivity]|].
  unfold decodeBody. cbn [N.eqb Pos.eqb]. unfold decodeNotification.
  apply rt_byte; [exact Hc|]. apply rt_byte; [exact Hs|]. eapply rt_bind_l; [apply rt_guard, Hok|]. apply rt_ret.
Qed.


Definition capPayload (v : capval) : list N :=
  match encodeCapValue v with Some p => p | None => [] end.

Lemma wf_cap_image : forall c, wf_cap c ->
  encodeCapValue (c_val c) = Some (capPayload (c_val c)) /\ len (capPayload (c_val c)) = capSize c - 2 /\
  capSize c <= 257 /\
  runs_to (decodeCapValue (c_code c) (capSize c - 2)) (capPayload (c_val c)) (c_val c).
Proof.
  intros [code cl v] Hwf. unfold wf_cap in Hwf. cbn [c_val c_code] in *. unfold capSize, capPayload. cbn [c_val].
  destruct v as [afi safi|l|a|r|l|]; try contradiction; destruct Hwf as (-> & Hwf); cbn [encodeCapValue];
    unfold decodeCapValue; cbn [N.eqb Pos.eqb].
  - destruct Hwf as (Ha & Hs). rewrite (N.mod_small afi), (N.mod_small safi) by lia.
    repeat split; [lia|].
    eapply rt_bind; [apply rt_readU16; exact Ha|]. apply rt_byte; [lia|]. apply rt_byte; [exact Hs|]. apply rt_ret.
  - destruct Hwf as (Hl & Hn).
    set (enc := fun t : N * N * N => u16be (fst (fst t) mod 65536) ++ [snd (fst t) mod 256; snd t mod 256]).
    assert (Hlen : len (flat_map enc l) = 4 * len l) by (apply len_flat_map_const; reflexivity).
    split; [reflexivity|]. split; [lia|]. split; [lia|].
    eapply rt_bind_l; [apply rt_guard; lia|]. eapply rt_bind_r; [|apply rt_ret].
    apply (rt_repeatM _ _ _ (triple_ok 65536 256 256)); [|exact Hl|lia].
    intros [[a b] c] (Ha & Hb & Hc). subst enc. cbn [fst snd] in *.
    rewrite (N.mod_small a), (N.mod_small b), (N.mod_small c) by lia.
    eapply rt_bind; [apply rt_readU16; exact Ha|]. apply rt_byte; [exact Hb|]. apply rt_byte; [exact Hc|]. apply rt_ret.
  - repeat split; [lia|]. eapply rt_bind_r; [apply rt_readU32; exact Hwf|]. apply rt_ret.
  - rewrite (N.mod_small r) by lia. repeat split; [lia|]. apply rt_byte; [exact Hwf|]. apply rt_ret.
  - destruct Hwf as (Hl & Hn).
    set (enc := fun t : N * N * N => u16be (fst (fst t) mod 65536) ++ u16be (snd (fst t) mod 65536) ++ u16be (snd t mod 65536)).
    assert (Hlen : len (flat_map enc l) = 6 * len l) by (apply len_flat_map_const; reflexivity).
    split; [reflexivity|]. split; [lia|]. split; [lia|].
    eapply rt_bind_l; [apply rt_guard; lia|]. eapply rt_bind_r; [|apply rt_ret].
    apply (rt_repeatM _ _ _ (triple_ok 65536 65536 65536)); [|exact Hl|lia].
    intros [[a b] c] (Ha & Hb & Hc). subst enc. cbn [fst snd] in *.
    rewrite (N.mod_small a), (N.mod_small b), (N.mod_small c) by lia.
    eapply rt_bind; [apply rt_readU16; exact Ha|].
    eapply rt_bind; [apply rt_readU16; exact Hb|]. eapply rt_bind_r; [apply rt_readU16; exact Hc|]. apply rt_ret.
Qed.

Definition capBytes (c : cap) : list N := [c_code c; capSize c - 2] ++ capPayload (c_val c).
Definition capsBytes (l : list cap) : list N := flat_map capBytes l.
Definition paramBytes (p : optparam) : list N := [2; capsSize (o_caps p)] ++ capsBytes (o_caps p).
Definition paramsBytes (l : list optparam) : list N := flat_map paramBytes l.

Lemma wf_cap_code : forall c, wf_cap c -> c_code c < 256.
Proof.
  intros [code cl v] H. unfold wf_cap in H. cbn [c_val c_code] in *.
  destruct v; try contradiction; destruct H as (-> & _); reflexivity.
Qed.

Lemma capSize_ge2 : forall c, 2 <= capSize c.
Proof. intros. unfold capSize. lia. Qed.

Lemma len_capBytes : forall c, wf_cap c -> len (capBytes c) = capSize c.
Proof.
  intros c H. destruct (wf_cap_image c H) as (_ & Hl & _ & _). unfold capBytes.
  rewrite len_app, Hl, !len_cons, len_nil. pose proof (capSize_ge2 c). lia.
Qed.

Lemma len_capsBytes : forall l, Forall wf_cap l -> len (capsBytes l) = capsSize l.
Proof.
  intros l H. induction H as [|c l Hc Hl IH]; [reflexivity|].
  cbn [capsBytes flat_map capsSize fold_right]. rewrite len_app, (len_capBytes c Hc). fold (capsBytes l). rewrite IH. reflexivity.
Qed.

Lemma encodeCaps_wf : forall l, Forall wf_cap l -> capsSize l <= 255 -> encodeCaps l = Some (capsBytes l).
Proof.
  intros l H. induction H as [|c l Hc Hl IH]; intros Hs; [reflexivity|].
  cbn [capsSize fold_right] in Hs. fold (capsSize l) in Hs. pose proof (capSize_ge2 c) as H2.
  cbn [encodeCaps]. destruct (wf_cap_image c Hc) as (He & Hlen & _ & _). rewrite He, IH by lia.
  rewrite (N.mod_small (c_code c)) by (apply wf_cap_code; exact Hc). rewrite Hlen.
  rewrite (N.mod_small (capSize c - 2)) by lia. reflexivity.
Qed.

Lemma rt_decodeCapabilities : forall l, Forall wf_cap l ->
  forall fuel read acc, (length (capsBytes l) < fuel)%nat -> read + capsSize l <= 255 ->
  runs_to (decodeCapabilities fuel (read + capsSize l) read acc) (capsBytes l) (rev_append acc (map canon_cap l)).
Proof.
  intros l H. induction H as [|c l Hc Hl IH]; intros fuel read acc Hf Hs;
    (destruct fuel as [|f]; [lia|]).
  - cbn [decodeCapabilities capsBytes flat_map capsSize fold_right map].
    rewrite N.add_0_r, N.ltb_irrefl. apply rt_ret_eq, rev_alt.
  - cbn [capsSize fold_right] in *. fold (capsSize l) in *. cbn [capsBytes flat_map] in *. fold (capsBytes l) in *.
    pose proof (capSize_ge2 c) as H2. destruct (wf_cap_image c Hc) as (He & Hlen & Hmax & Hrt).
    pose proof (len_capBytes c Hc) as Hcb. rewrite app_length in Hf.
    cbn [decodeCapabilities]. replace (read <? _) with true by lia.
    eapply rt_bind.
    { unfold decodeCapability, capBytes. cbn [app].
      apply rt_byte; [apply wf_cap_code, Hc|]. apply rt_byte; [lia|].
      eapply rt_bind_r; [exact Hrt|]. apply rt_ret. }
    cbn [c_len]. replace ((read + (capSize c - 2) + 2) mod 256) with (read + capSize c) by (rewrite N.mod_small; lia).
    rewrite N.add_assoc.
    apply (IH f _ (canon_cap c :: acc)); unfold len in Hcb; lia.
Qed.

Lemma fold_read_caps : forall l r, r + capsSize l <= 255 ->
  fold_left (fun r c => (r + c_len c + 2) mod 256) (map canon_cap l) r = r + capsSize l.
Proof.
  induction l as [|c l IH]; intros r Hr; [cbn; lia|].
  cbn [capsSize fold_right] in *. fold (capsSize l) in *. pose proof (capSize_ge2 c).
  cbn [map fold_left canon_cap c_len]. replace ((r + (capSize c - 2) + 2) mod 256) with (r + capSize c) by (rewrite N.mod_small; lia).
  rewrite IH by lia. lia.
Qed.

Definition param_ok (p : optparam) : Prop := o_type p = 2 /\ Forall wf_cap (o_caps p) /\ capsSize (o_caps p) <= 255.

Lemma len_paramsBytes : forall l, Forall param_ok l -> len (paramsBytes l) = paramsSize l.
Proof.
  intros l H. induction H as [|p l (Ht & Hc & Hs) Hl IH]; [reflexivity|].
  cbn [paramsBytes flat_map paramsSize fold_right]. fold (paramsBytes l). fold (paramsSize l).
  unfold paramBytes. rewrite !len_app, (len_capsBytes _ Hc), IH, !len_cons, len_nil. lia.
Qed.

Lemma encodeParams_wf : forall l, Forall param_ok l -> encodeParams l = Some (paramsBytes l).
Proof.
  intros l H. induction H as [|p l (Ht & Hc & Hs) Hl IH]; [reflexivity|].
  cbn [encodeParams]. rewrite (encodeCaps_wf _ Hc Hs), IH, Ht. rewrite (len_capsBytes _ Hc).
  rewrite (N.mod_small (capsSize (o_caps p))) by lia. reflexivity.
Qed.

Lemma rt_decodeOptParams : forall l, Forall param_ok l ->
  forall fuel read acc, (length (paramsBytes l) < fuel)%nat -> read + paramsSize l <= 255 ->
  runs_to (decodeOptParams fuel (read + paramsSize l) read acc) (paramsBytes l) (rev_append acc (map canon_param l)).
Proof.
  intros l H. induction H as [|p l (Ht & Hc & Hs) Hl IH]; intros fuel read acc Hf Hr;
    (destruct fuel as [|f]; [lia|]).
  - cbn [decodeOptParams paramsBytes flat_map paramsSize fold_right map].
    rewrite N.add_0_r, N.ltb_irrefl. apply rt_ret_eq, rev_alt.
  - cbn [paramsSize fold_right] in *. fold (paramsSize l) in *. cbn [paramsBytes flat_map] in *. fold (paramsBytes l) in *.
    cbn [decodeOptParams]. replace (read <? _) with true by lia.
    unfold paramBytes in *. rewrite !app_length in Hf. cbn [length] in Hf. rewrite <- app_assoc. cbn [app].
    apply rt_byte; [lia|]. apply rt_byte; [lia|]. cbv zeta.
    eapply rt_bind_l; [apply rt_guard; reflexivity|].
    eapply rt_bind; [apply (rt_decodeCapabilities _ Hc (S f) 0 []); lia|].
    cbn [rev_append]. rewrite fold_read_caps by (rewrite N.mod_small; lia).
    rewrite (N.mod_small (read + 2)) by lia.
    replace (read + (2 + capsSize (o_caps p) + paramsSize l)) with (read + 2 + capsSize (o_caps p) + paramsSize l) by lia.
    apply (IH f _ (canon_param p :: acc)); lia.
Qed.

Theorem open_runs : forall o m, wf_open m ->
  exists bs, encodeOpen m = EOk bs /\ len bs <= 4096 /\
  forall fuel, (length bs < fuel)%nat -> runs_to (decodeM fuel o) bs (mkMsg (len bs) 1 (BOpen (canon_open m))).
Proof.
  intros o m (Hv & Ha & Hh & Hh1 & Hh2 & Hid & Hid0 & Hp & Hps).
  assert (Hpo : Forall param_ok (op_params m)) by exact Hp.
  unfold encodeOpen. rewrite (encodeParams_wf _ Hpo). pose proof (len_paramsBytes _ Hpo) as Hlps. rewrite Hlps.
  set (ps := paramsBytes (op_params m)) in *. set (n := paramsSize (op_params m)) in *.
  rewrite Hv. rewrite (N.mod_small (op_asn m)), (N.mod_small (op_hold m)), (N.mod_small n) by lia.
  change (4 mod 256) with 4. eexists. split; [reflexivity|].
  set (bb := [4] ++ u16be (op_asn m) ++ u16be (op_hold m) ++ u32be (op_id m) ++ [n] ++ ps).
  assert (Hbb : len bb = n + 10) by (subst bb; rewrite !len_app, !len_u16be, len_u32be, Hlps, !len_cons, len_nil; lia).
  assert (Hlen : len (header (n + 29) 1 ++ bb) = n + 29) by (rewrite len_app, len_header; lia).
  rewrite Hlen. split; [lia|]. intros fuel Hf. apply rt_message; [lia|apply rt_decodeHeader; [lia|lia|cbn [N.eqb Pos.eqb andb orb]; lia]|].
  unfold decodeBody. cbn [N.eqb Pos.eqb]. unfold decodeOpen. subst bb.
  apply rt_byte; [reflexivity|].
  eapply rt_bind; [apply rt_readU16; exact Ha|].
  eapply rt_bind; [apply rt_readU16; exact Hh|].
  eapply rt_bind; [apply rt_readU32; exact Hid|].
  apply rt_byte; [lia|].
  eapply rt_bind_l; [apply rt_guard; reflexivity|].
  eapply rt_bind_l; [apply rt_guard; lia|]. eapply rt_bind_l; [apply rt_guard; lia|].
  eapply rt_bind_r; [apply (rt_decodeOptParams _ Hpo _ 0 []); [|subst n; lia]|].
  { rewrite !app_length in Hf. fold ps. lia. }
  cbn [rev_append]. unfold canon_open. rewrite Hv. apply rt_ret.
Qed.

