(* The update senders of the composed model.
   - every session's sender is a run of the component model (Model.UpdateSender.run) on the recorded labels;
   - End-of-RIB completes within the registration (toSendMu is held throughout), so the sender is never locked
     when the Adj-RIB-Out calls it: its Add / Remove labels are exactly the Adj-RIB-Out's calls on its client;
   - with C10 (converges_partial) as a black box: once drained the peer's view is what those calls amount to. *)
From Coq Require Import List NArith Arith Permutation.
Import ListNotations.
From BioVerif Require Import Lib.ListFacts Model.Pipeline Spec.PipelineSpec Proofs.PipelineLoc Proofs.PipelineProofs
  Proofs.PipelineOut.
From BioVerif Require Model.LocRIBClients Model.AdjRIBOut Model.UpdateSender
  Spec.ExportViewSpec Spec.UpdateSenderSpec Proofs.UpdateSenderProofs Proofs.AroIDsProofs.

Section Elog.
  Import AdjRIBOut.
  Variable P : Type.
  Variable apply : P -> N -> path -> option path.
  Variable s : sess.

  Lemma step_elog : forall a o, aro_not_replace P o ->
    exists new, elog (step P apply s a o) = new ++ elog a.
  Proof.
    intros a [pfx p|pfx p|nw v] H; [| |contradiction]; apply (AroIDsProofs.prims_elog P s pfx).
    - apply AroIDsProofs.add_path_prims.
    - apply AroIDsProofs.remove_path_prims.
  Qed.
End Elog.

Section Send.
  Import UpdateSender.

  (* what us_take keeps: a run of the component model, on exactly the labels taken *)
  Definition Urun (c : cfg) (ul : st * list label) : Prop := run c (rev (snd ul)) = Some (fst ul).

  Lemma us_take_run : forall c ul l, Urun c ul -> Urun c (us_take c ul l).
  Proof.
    intros c [u lab] l H. unfold us_take, Urun in *. cbn [fst snd] in *.
    destruct (step c u l) as [u'|] eqn:E; cbn [fst snd]; [|exact H].
    unfold run in *. cbn [rev]. rewrite UpdateSenderProofs.run_from_app, H. cbn [run_from]. now rewrite E.
  Qed.

  Lemma us_take_fold_run : forall c ls ul, Urun c ul -> Urun c (fold_left (us_take c) ls ul).
  Proof.
    intros c ls ul. apply (fold_left_rel _ (fun a b => Urun c a -> Urun c b)); auto. intros a l _. apply us_take_run.
  Qed.

  (* Spec.PipelineSpec.is_route_label is the same function *)
  Definition route_label (l : label) : bool := match l with Add _ _ | Remove _ _ => true | _ => false end.

  Lemma us_take_eor : forall c ul l, route_label l = true \/ sender_label l -> eor (fst (us_take c ul l)) = eor (fst ul).
  Proof.
    intros c [u lab] l Hl. unfold us_take. cbn [fst].
    destruct l as [x p|x p|k| |o|]; try (now destruct Hl); cbn [step].
    - now destruct (unlocked u).
    - now destruct (unlocked u).
    - destruct (unlocked u), (inflight u); try reflexivity. now destruct (q_take k (queue u)) as [[e q']|].
    - destruct (inflight u) as [b|]; [|reflexivity]. now destruct (b_msgs b).
  Qed.

  (* while EndOfRIB is not in progress every AddPath / RemovePath is taken *)
  Lemma us_take_route1 : forall c ul l, eor (fst ul) = None -> route_label l = true -> snd (us_take c ul l) = l :: snd ul.
  Proof.
    intros c ul l HE Hl. unfold us_take.
    destruct l as [x p|x p|k| |o|]; try discriminate; cbn [step]; unfold unlocked; now rewrite HE.
  Qed.

  Lemma us_take_routes : forall c ls ul,
    eor (fst ul) = None -> Forall (fun l => route_label l = true) ls ->
    let r := fold_left (us_take c) ls ul in
    eor (fst r) = None /\ snd r = rev ls ++ snd ul.
  Proof.
    intros c ls. induction ls as [|l ls IH]; intros ul HE HF; cbn [fold_left]; [auto|].
    inversion HF as [|? ? Hl HF']; subst.
    destruct (IH (us_take c ul l)) as [F1 F2]; [now rewrite us_take_eor by now left|exact HF'|].
    split; [exact F1|]. rewrite F2, us_take_route1 by assumption. cbn [rev]. now rewrite <- app_assoc.
  Qed.

  Lemma us_take_other : forall c ul l, route_label l = false ->
    filter route_label (rev (snd (us_take c ul l))) = filter route_label (rev (snd ul)).
  Proof.
    intros c ul l H. unfold us_take. destruct (step c (fst ul) l); cbn [snd]; [|reflexivity].
    cbn [rev]. rewrite filter_app. cbn [filter]. rewrite H. apply app_nil_r.
  Qed.

  Lemma us_take_others : forall c ls ul, Forall (fun l => route_label l = false) ls ->
    filter route_label (rev (snd (fold_left (us_take c) ls ul))) = filter route_label (rev (snd ul)).
  Proof.
    intros c ls ul H. apply (fold_left_rel _ (fun a b => filter route_label (rev (snd b)) = filter route_label (rev (snd a))));
      [reflexivity|congruence|]. intros a l Hl. apply us_take_other. exact (proj1 (Forall_forall _ _) H l Hl).
  Qed.

  Fixpoint eor_count (bs : list batch) : nat :=
    match bs with [] => 0 | b :: r => Nat.max 1 (length (b_msgs b)) + eor_count r end.

  (* the EoRSteps EndOfRIB has yet to take before it lets go of toSendMu *)
  Definition owed (u : st) : nat := match eor u with None => 0 | Some bs => S (eor_count bs) end.

  Lemma owed_step : forall c ul, owed (fst (us_take c ul EoRStep)) = pred (owed (fst ul)).
  Proof.
    intros c [u lab]. unfold us_take, owed. cbn [fst step].
    destruct (eor u) as [[|[p [|m [|m' ms]]] bs]|] eqn:E; cbn [fst eor b_msgs]; rewrite ?E; reflexivity.
  Qed.

  Lemma eor_completes : forall c n ul, owed (fst ul) <= n ->
    eor (fst (fold_left (us_take c) (repeat EoRStep n) ul)) = None.
  Proof.
    intros c n. induction n as [|n IH]; intros ul H; cbn [repeat fold_left].
    - unfold owed in H. destruct (eor (fst ul)); [inversion H|reflexivity].
    - apply IH. rewrite owed_step. now apply Nat.le_pred_le_succ.
  Qed.

  Lemma in_order_nil : forall q, in_order [] q = q.
  Proof. reflexivity. Qed.

  Lemma eor_steps_count : forall c q, eor_steps c q = S (eor_count (map (batch_of c) q)).
  Proof.
    intros c q. unfold eor_steps. f_equal.
    induction q as [|e q IH]; [reflexivity|]. cbn [fold_right map eor_count]. now rewrite IH.
  Qed.

  Lemma us_eor_spec : forall c u lab, eor u = None ->
    let r := us_eor c (u, lab) in
    eor (fst r) = None /\ filter route_label (rev (snd r)) = filter route_label (rev lab).
  Proof.
    intros c u lab HE. unfold us_eor. cbn [fst]. split.
    - apply eor_completes. unfold us_take, owed. cbn [fst step]. unfold unlocked. rewrite HE. cbn [fst eor in_order].
      now rewrite eor_steps_count.
    - rewrite us_take_others by (apply Forall_forall; intros l Hl; apply repeat_spec in Hl; now subst).
      now apply us_take_other.
  Qed.

  (* the Adj-RIB-Out as the labels define it only reads the route labels *)
  Lemma adj_rib_out_filter : forall c ls, UpdateSenderSpec.adj_rib_out c ls = UpdateSenderSpec.adj_rib_out c (filter route_label ls).
  Proof.
    intros c ls. unfold UpdateSenderSpec.adj_rib_out. generalize UpdateSenderSpec.rib_empty.
    induction ls as [|l ls IH]; intros r; [reflexivity|]. cbn [fold_left filter].
    destruct l; cbn [route_label fold_left UpdateSenderSpec.rib_step]; apply IH.
  Qed.
End Send.

Section PipeSend.
  Variable P : Type.
  Variable apply : P -> N -> AdjRIBOut.path -> option AdjRIBOut.path.
  Variable sel : nat -> list (LocRIBClients.entry AdjRIBOut.path) -> list (LocRIBClients.entry AdjRIBOut.path) * nat.
  Variable tagf : AdjRIBOut.bgp -> N.
  Variable cfgs : list (scfg P).

  Notation sst := (sst P).
  Notation pst := (pst P).
  Notation prun := (Pipeline.run P apply sel tagf cfgs).

  (* the sending half of one session *)
  Definition Usess (c : scfg P) (s : sst) : Prop :=
    Urun (sc_us P c) (ss_us P s, ss_lab P s) /\
    UpdateSender.eor (ss_us P s) = None /\
    filter route_label (rev (ss_lab P s)) = client_calls P tagf (ss_out P s).

  Lemma lab_of_route : forall e, route_label (lab_of tagf e) = true.
  Proof. intros [p x|p x]; reflexivity. Qed.

  Lemma Usess_aro_call : forall c o s, aro_not_replace P o ->
    Usess c s -> Usess c (aro_call P apply tagf c o s).
  Proof.
    intros c o s Ho [HR [HE HF]]. unfold aro_call.
    destruct (step_elog P apply (sc_sess P c) (ss_out P s) o Ho) as [new HL].
    rewrite HL, gained_app.
    set (ls := map (lab_of tagf) (rev new)).
    assert (FL : Forall (fun l => route_label l = true) ls).
    { unfold ls. apply Forall_forall. intros l Hl. apply in_map_iff in Hl. destruct Hl as [e [<- _]]. apply lab_of_route. }
    destruct (us_take_routes (sc_us P c) ls (ss_us P s, ss_lab P s) HE FL) as [E1 E2]. cbn [snd] in E1, E2.
    unfold Usess. cbn [set_out ss_us ss_lab ss_out]. split; [|split].
    - exact (us_take_fold_run _ ls _ HR).
    - exact E1.
    - rewrite E2, rev_app_distr, rev_involutive, filter_app, HF.
      unfold client_calls. rewrite HL, rev_app_distr, map_app. f_equal.
      apply filter_all, Forall_forall, FL.
  Qed.

  Lemma Usess_aro_eor : forall c s, Usess c s -> Usess c (aro_eor P c s).
  Proof.
    intros c s [HR [HE HF]]. unfold aro_eor.
    destruct (us_eor_spec (sc_us P c) (ss_us P s) (ss_lab P s) HE) as [E1 E2]. cbv zeta in E1, E2.
    unfold Usess. cbn [set_out ss_us ss_lab ss_out]. split; [|split].
    - unfold us_eor. apply us_take_fold_run, us_take_run, HR.
    - exact E1.
    - now rewrite E2.
  Qed.

  Definition Uinv (ss : list sst) : Prop :=
    forall j c s, nth_error cfgs j = Some c -> nth_error ss j = Some s -> Usess c s.

  Lemma Uinv_upd : forall k f ss, (forall c s, nth_error cfgs k = Some c -> Usess c s -> Usess c (f s)) -> Uinv ss -> Uinv (upd_nth k f ss).
  Proof.
    intros k f ss Hf HU j c s' Hc Hs'. destruct (Nat.eq_dec j k) as [->|NE].
    - rewrite nth_error_upd in Hs'. destruct (nth_error ss k) as [s0|] eqn:Hs0; inversion Hs'; subst s'.
      apply Hf; [exact Hc|]. now apply (HU k c s0).
    - rewrite nth_error_upd_other in Hs' by assumption. now apply (HU j c s').
  Qed.

  Lemma Uinv_loc_op : forall st o, Uinv (ps_sess P st) -> Uinv (ps_sess P (loc_op P apply sel tagf cfgs st o)).
  Proof.
    intros st o HU j c s' Hc Hs'.
    destruct (LocRIBClients.step AdjRIBOut.path AdjRIBOut.path_compare AdjRIBOut.path_equal sel (ps_loc P st) o) as [loc' cbs|] eqn:E;
      [|unfold loc_op in Hs'; rewrite E in Hs'; exact (HU j c s' Hc Hs')].
    destruct (op_prefixes loc' o) as [ps only] eqn:Ep.
    destruct (loc_op_sess P apply sel tagf cfgs (fun c _ _ s s' => Usess c s -> Usess c s'))
      with (6 := E) (7 := Ep) (8 := Hc) (9 := Hs') as [s [Hs F]]; auto using Usess_aro_call, Usess_aro_eor.
    exact (F (HU j c s Hc Hs)).
  Qed.

  Lemma Uinv_us_event : forall st k l, sender_label l ->
    Uinv (ps_sess P st) -> Uinv (ps_sess P (us_event P cfgs k l st)).
  Proof.
    intros st k l Hl HU. unfold us_event. destruct (is_up P st k); [|exact HU]. cbn [with_sess ps_sess].
    unfold with_cfg. destruct (nth_error cfgs k) as [c|] eqn:E; [|exact HU].
    apply Uinv_upd; [|exact HU]. intros c' s Hc [HR [HE HF]]. rewrite E in Hc. injection Hc as <-.
    unfold Usess. cbn [set_out ss_us ss_lab ss_out]. split; [|split].
    - exact (us_take_run _ _ l HR).
    - rewrite us_take_eor; [exact HE|now right].
    - rewrite us_take_other; [exact HF|]. destruct l; try contradiction; reflexivity.
  Qed.

  Lemma Usess_fresh : forall c b i ops, Usess c (mkSst P b i (AdjRIBOut.init P (sc_exp P c)) UpdateSender.init ops [] []).
  Proof. intros. unfold Usess. cbn. repeat split. Qed.

  Lemma Uinv_run : forall evs, Uinv (ps_sess P (prun evs)).
  Proof.
    intros evs. unfold Pipeline.run.
    apply (run_moves P apply sel tagf cfgs (fun a b => Uinv (ps_sess P a) -> Uinv (ps_sess P b))); auto.
    - intros st k i o. apply Uinv_upd. intros c s _ H. exact H.
    - intros st o _. apply Uinv_loc_op.
    - intros st o _. apply Uinv_loc_op.
    - intros st k c i ops Hc. apply Uinv_upd. intros c' s' Hc' _. rewrite Hc in Hc'. inversion Hc'. apply Usess_fresh.
    - intros st k. apply Uinv_upd. intros c s _ H. exact H.
    - intros st k l. apply Uinv_us_event.
    - intros j c s Hc Hs. unfold Pipeline.init in Hs. cbn [ps_sess] in Hs.
      rewrite nth_error_map, Hc in Hs. inversion Hs. apply Usess_fresh.
  Qed.

  (* C10, composed: for a session whose sender is a run on the recorded labels (in the pipeline: after every history,
     Uinv_run), under the guards of C10 on these labels: once it is drained, the peer's view is what the calls of the
     session's Adj-RIB-Out on its client amount to *)
  Theorem Usess_peer_view : forall c s, Usess c s ->
    let ls := rev (ss_lab P s) in
    UpdateSenderSpec.client_protocol (sc_us P c) ls -> UpdateSenderSpec.hash_faithful (sc_us P c) ls ->
    UpdateSenderSpec.all_fit (sc_us P c) ls -> UpdateSenderSpec.no_withdraw_in_flight (sc_us P c) ls ->
    drained P s = true ->
    forall p pid, peer_view P s p pid = UpdateSenderSpec.adj_rib_out (sc_us P c) (client_calls P tagf (ss_out P s)) (upfx p) pid.
  Proof.
    intros c s [HR [_ HF]] ls G1 G2 G3 G4 HD p pid. fold ls in HF. change (UpdateSender.run (sc_us P c) ls = Some (ss_us P s)) in HR.
    unfold peer_view, drained in *.
    rewrite (UpdateSenderProofs.converges_partial (sc_us P c) ls (ss_us P s) HR G1 G2 G3 G4 HD).
    now rewrite adj_rib_out_filter, HF.
  Qed.
End PipeSend.

(* Properties/Pipeline.v 3b: Oinv_ribout (2) + Usess_peer_view (3a) + log_tracks_table, in any state of the two invariants *)
Theorem Oinv_peer_view_converges :
  forall (P : Type) (apply : P -> N -> AdjRIBOut.path -> option AdjRIBOut.path)
         (tagf : AdjRIBOut.bgp -> N) (cfgs : list (scfg P)) (st : pst P) (j : nat) (c : scfg P) (s : sst P),
  let ls := rev (ss_lab P s) in
  Oinv P apply cfgs st -> Reg P st -> Usess P tagf c s ->
  nth_error cfgs j = Some c -> nth_error (ps_sess P st) j = Some s -> ss_up P s = true ->
  ExportViewSpec.guards (apply (sc_exp P c)) (sc_sess P c) (ss_hist P s) -> AdjRIBOut.errs (ss_out P s) = 0%N ->
  UpdateSenderSpec.client_protocol (sc_us P c) ls -> UpdateSenderSpec.hash_faithful (sc_us P c) ls ->
  UpdateSenderSpec.all_fit (sc_us P c) ls -> UpdateSenderSpec.no_withdraw_in_flight (sc_us P c) ls ->
  log_tracks_table P tagf (sc_us P c) (ss_out P s) ->
  drained P s = true ->
  (forall p pid, peer_view P s p pid = keyed_table P tagf (sc_us P c) (ss_out P s) p pid) /\
  (forall p : N,
     Permutation (map (ExportViewSpec.norm (sc_sess P c)) (AdjRIBOut.tbl_get p (AdjRIBOut.tbl (ss_out P s))))
                 (map (ExportViewSpec.norm (sc_sess P c))
                      (ExportViewSpec.export_view (apply (sc_exp P c)) (sc_sess P c) p
                         (visible (sc_opts P c) (ps_loc P st) (lpfx p))))).
Proof.
  intros P apply tagf cfgs st j c s ls HO HReg HU Hc Hs Hu HG HE G1 G2 G3 G4 HT Hdr. split.
  - intros p pid. rewrite (Usess_peer_view P tagf c s HU G1 G2 G3 G4 Hdr p pid). apply HT.
  - exact (proj2 (Oinv_ribout P apply cfgs st j c s HO HReg Hc Hs Hu HG HE)).
Qed.
