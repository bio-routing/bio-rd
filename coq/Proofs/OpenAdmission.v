(* Proofs for C22: the capability loop of handleOpenMessage computes exactly the negotiated options
   of Spec/OpenSpec.v. Every capability enables at most the options of its own kind and family,
   under a guard that is a conjunction of a test on the configuration and a test on the capability;
   folding that over the peer's list gives "configured, and some capability of the peer offers it",
   and the configuration's part is what our own OPEN advertises. The rest of handleOpenMessage (peer
   AS, role check = RFC 9234 table) gives [open_admission]: in OpenSent a valid OPEN is answered by
   KEEPALIVE and leads to OpenConfirm with the negotiated options, any other by a NOTIFICATION 2/sub
   and Idle. *)
From Coq Require Import List NArith Bool Lia.
Import ListNotations.
From BioVerif Require Import Lib.ListFacts Model.FSM Spec.OpenSpec Proofs.FSMProofs.
Local Open Scope N_scope.

Lemma existsb_if : forall (A : Type) (h : A -> bool) (b : bool) (l : list A),
  existsb h (if b then l else []) = b && existsb h l.
Proof. intros A h [|] l; reflexivity. Qed.

(* add-path receive, add-path send, multiprotocol *)
Inductive opt := Rx | Tx | Mp.
Definition opt_eqb (a b : opt) : bool :=
  match a, b with Rx, Rx | Tx, Tx | Mp, Mp => true | _, _ => false end.
(* we may receive what the peer sends and send what it receives *)
Definition dual (k : opt) : opt := match k with Rx => Tx | Tx => Rx | Mp => Mp end.

Definition afi_of (v6 : bool) : N := if v6 then 2 else 1.
Definition flag (k : opt) (v6 : bool) (n : neg) : bool :=
  match k with
  | Rx => if v6 then n_rx6 n else n_rx4 n
  | Tx => if v6 then n_tx6 n else n_tx4 n
  | Mp => if v6 then n_mp6 n else n_mp4 n
  end.
Definition setter (k : opt) : neg -> N -> neg :=
  match k with Rx => set_rx | Tx => set_tx | Mp => set_mp end.

(* the setters treat every AFI other than 1 as IPv6: they are only sound for a configured family *)
Lemma flag_setter : forall c k k' v6 a n, fam_cfg c a = true ->
  flag k v6 (setter k' n a) = flag k v6 n || (opt_eqb k k' && (a =? afi_of v6)).
Proof.
  intros c k k' v6 a n. unfold fam_cfg.
  destruct (N.eqb_spec a 1) as [->|_]; [|destruct (N.eqb_spec a 2) as [->|_]; [|discriminate]];
    intros _; destruct v6, k, k'; cbn; rewrite ?orb_true_r, ?orb_false_r; reflexivity.
Qed.

Definition blind {A : Type} (P : neg -> A) : Prop := forall k n a, P (setter k n a) = P n.

Lemma blind_fields : blind n_hold /\ blind n_katimer /\ blind n_asn4 /\ blind n_roleadv /\ blind n_roleremote.
Proof. repeat split; intros [] n a; unfold setter, set_rx, set_tx, set_mp; destruct (a =? 1); reflexivity. Qed.

Definition cap_afi (x : cap) : N := match x with CapAddPath a _ _ | CapMP a _ => a | _ => 0 end.
Definition wants (k : opt) (x : cap) : bool :=
  match x, k with
  | CapAddPath _ s sr, Rx => (s =? 1) && ((sr =? 1) || (sr =? 3))
  | CapAddPath _ s sr, Tx => (s =? 1) && ((sr =? 2) || (sr =? 3))
  | CapMP _ s, Mp => s =? 1
  | _, _ => false
  end.
Definition offers (k : opt) (f : N) (x : cap) : bool := (cap_afi x =? f) && wants k x.

(* the configuration's part of the guard *)
Definition cfg_opt (c : cfg) (k : opt) (f : N) : bool :=
  fam_cfg c f &&
  match k with
  | Rx => cfg_recv c f
  | Tx => cfg_send c f
  | Mp => negb ((f =? 1) && negb (mp4_flag c))
  end.

(* processCapability, one kind of option at a time (process_cap_eq) *)
Definition enable (c : cfg) (x : cap) (k : opt) (n : neg) : neg :=
  if wants (dual k) x && cfg_opt c k (cap_afi x) then setter k n (cap_afi x) else n.

Lemma flag_enable : forall c x k k' v6 n,
  flag k v6 (enable c x k' n) =
  flag k v6 n || (opt_eqb k k' && (offers (dual k') (afi_of v6) x && cfg_opt c k' (afi_of v6))).
Proof.
  intros c x k k' v6 n. unfold enable, offers.
  destruct (wants (dual k') x && cfg_opt c k' (cap_afi x)) eqn:G.
  - rewrite (flag_setter c) by (apply andb_prop, proj2, andb_prop, proj1 in G; exact G).
    destruct (N.eqb_spec (cap_afi x) (afi_of v6)) as [<-|_]; cbn [andb]; rewrite ?G; reflexivity.
  - destruct (N.eqb_spec (cap_afi x) (afi_of v6)) as [<-|_]; cbn [andb]; rewrite ?G, andb_false_r, orb_false_r; reflexivity.
Qed.

Lemma enable_blind : forall (A : Type) (P : neg -> A) c x k n, blind P -> P (enable c x k n) = P n.
Proof. intros A P c x k n HP. unfold enable. destruct (_ && _); [apply HP | reflexivity]. Qed.

Definition plain (c : cfg) (x : cap) (n : neg) : neg :=
  match x with
  | CapASN4 _ => set_asn4 n
  | CapRole r => if role_enabled c then set_role n r else n
  | _ => n
  end.

Lemma flag_plain : forall c x k v6 n, flag k v6 (plain c x n) = flag k v6 n.
Proof. intros c x k v6 n. destruct x; try reflexivity. cbn. destruct (role_enabled c); reflexivity. Qed.

Lemma process_cap_eq : forall c st x,
  process_cap c st x =
  {| k_neg := enable c x Rx (enable c x Tx (enable c x Mp (plain c x (k_neg st))));
     k_asn := match x with CapASN4 a => if k_asn st =? 23456 then a else k_asn st | _ => k_asn st end;
     k_multi :=
       match x with
       | CapRole r =>
           if role_enabled c then k_multi st || (n_roleadv (k_neg st) && negb (n_roleremote (k_neg st) =? r))
           else k_multi st
       | _ => k_multi st
       end |}.
Proof.
  intros c [n a m] x. destruct x; cbn [process_cap k_neg k_asn k_multi]; try reflexivity.
  - unfold enable, cfg_opt. cbn [wants dual cap_afi andb setter plain].
    destruct (safi =? 1), ((afi =? 1) && negb (mp4_flag c)), (fam_cfg c afi); reflexivity.
  - unfold enable, cfg_opt. cbn [wants dual cap_afi andb setter plain].
    destruct (safi =? 1), (fam_cfg c afi); cbn [negb orb andb]; rewrite ?andb_false_r; reflexivity.
  - cbn. destruct (role_enabled c); reflexivity.
Qed.

Lemma process_cap_blind : forall (A : Type) (P : neg -> A) c st x, blind P ->
  P (k_neg (process_cap c st x)) = P (plain c x (k_neg st)).
Proof. intros A P c st x HP. rewrite process_cap_eq. cbn [k_neg]. rewrite !enable_blind by exact HP. reflexivity. Qed.

Lemma process_cap_flag : forall c k v6 st x,
  flag k v6 (k_neg (process_cap c st x)) =
  flag k v6 (k_neg st) || (offers (dual k) (afi_of v6) x && cfg_opt c k (afi_of v6)).
Proof.
  intros c k v6 st x. rewrite process_cap_eq. cbn [k_neg].
  rewrite !flag_enable, flag_plain. destruct k; cbn [opt_eqb andb]; rewrite ?orb_false_r; reflexivity.
Qed.

Definition adv (k : opt) (cs : list cap) (f : N) : bool :=
  match k with Rx => adv_ap_recv cs f | Tx => adv_ap_send cs f | Mp => adv_mp cs f end.

Lemma adv_offers : forall k cs f, adv k cs f = existsb (offers k f) cs.
Proof.
  intros k cs f. destruct k; apply existsb_ext_in; intros [] _; unfold offers; cbn;
    rewrite ?andb_assoc, ?andb_false_r; reflexivity.
Qed.

Lemma offers_add_path_cap : forall k f r s a,
  existsb (offers k f) (add_path_cap r s a) = (a =? f) && match k with Rx => r | Tx => s | Mp => false end.
Proof.
  intros k f [] [] a; destruct k; cbn; unfold offers; cbn; rewrite ?orb_false_r, ?andb_true_r, ?andb_false_r; reflexivity.
Qed.

Lemma sent_adv : forall c k v6, adv k (o_caps (sent_open c)) (afi_of v6) = cfg_opt c k (afi_of v6).
Proof.
  intros c k v6. rewrite adv_offers. unfold cfg_opt, mp4_flag. cbn [sent_open o_caps].
  rewrite !existsb_app, !existsb_if, !offers_add_path_cap.
  destruct v6, k; cbn; rewrite ?andb_false_r, ?andb_true_r; cbn; rewrite ?orb_false_r;
    try reflexivity.
  destruct (c_v4 c), (c_nx4 c), (c_mp4 c); reflexivity.
Qed.

Lemma sent_asn4 : forall c, adv_asn4 (o_caps (sent_open c)) = true.
Proof.
  intro c. unfold adv_asn4. cbn [sent_open o_caps]. rewrite !existsb_app. cbn. rewrite !orb_true_r. reflexivity.
Qed.

Lemma caps_loop : forall c l st,
  let n := k_neg st in
  let n' := k_neg (fold_left (process_cap c) l st) in
  n_hold n' = n_hold n /\ n_katimer n' = n_katimer n /\ n_asn4 n' = n_asn4 n || adv_asn4 l /\
  forall k v6, flag k v6 n' =
               flag k v6 n || (adv k (o_caps (sent_open c)) (afi_of v6) && adv (dual k) l (afi_of v6)).
Proof.
  intros c l. induction l as [|x l IH]; intro st; cbn zeta.
  - rewrite orb_false_r. repeat split. intros k v6. rewrite (adv_offers (dual k)), andb_false_r, orb_false_r. reflexivity.
  - cbn [fold_left]. destruct (IH (process_cap c st x)) as (-> & -> & -> & H).
    rewrite (process_cap_blind _ n_hold), (process_cap_blind _ n_katimer), (process_cap_blind _ n_asn4)
      by apply blind_fields.
    repeat split.
    1-3: unfold adv_asn4; destruct x; cbn; rewrite ?orb_true_r; try reflexivity; destruct (role_enabled c); reflexivity.
    intros k v6. rewrite H, process_cap_flag, !sent_adv, !(adv_offers (dual k)). cbn [existsb].
      rewrite andb_orb_distrib_r, orb_assoc, (andb_comm (offers _ _ _)). reflexivity.
Qed.

Lemma caps_flag : forall c o k v6,
  flag k v6 (k_neg (process_caps c o)) =
  adv k (o_caps (sent_open c)) (afi_of v6) && adv (dual k) (o_caps o) (afi_of v6).
Proof.
  intros c o k v6. unfold process_caps. edestruct (caps_loop c (o_caps o)) as (_ & _ & _ & ->).
  destruct k, v6; reflexivity.
Qed.

Theorem caps_negotiated : forall c o, negotiated_ok c o (k_neg (process_caps c o)).
Proof.
  intros c o. edestruct (caps_loop c (o_caps o)) as (Hh & Ht & Ha & _).
  constructor.
  - exact Hh.
  - rewrite sent_asn4. exact Ha.
  - exact (caps_flag c o Rx false).
  - exact (caps_flag c o Tx false).
  - exact (caps_flag c o Rx true).
  - exact (caps_flag c o Tx true).
  - exact (caps_flag c o Mp false).
  - exact (caps_flag c o Mp true).
  - unfold process_caps. rewrite Hh. exact Ht.
Qed.

Lemma resolve_as_fixed : forall a vals, (a =? AS_TRANS) = false -> resolve_as a vals = a.
Proof. intros a [|v r] H; cbn; [reflexivity | rewrite H; reflexivity]. Qed.

Lemma caps_asn_fold : forall c l k,
  k_asn (fold_left (process_cap c) l k) = resolve_as (k_asn k) (asn4_values l).
Proof.
  intros c l. induction l as [|x l IH]; intro k; cbn [fold_left asn4_values]; [reflexivity|].
  rewrite IH, process_cap_eq. cbn [k_asn]. destruct x; try reflexivity.
  cbn [asn4_values resolve_as]. unfold AS_TRANS.
  destruct (k_asn k =? 23456) eqn:E; [reflexivity|]. apply resolve_as_fixed. exact E.
Qed.

Lemma caps_peer_as : forall c o, k_asn (process_caps c o) = peer_as o.
Proof. intros. unfold process_caps, peer_as. rewrite caps_asn_fold. reflexivity. Qed.

Definition R (k : capst) : bool * N * bool := (n_roleadv (k_neg k), n_roleremote (k_neg k), k_multi k).
Definition role_step (t : bool * N * bool) (r : N) : bool * N * bool :=
  let '(adv, rem, mu) := t in (true, r, mu || (adv && negb (rem =? r))).

Lemma process_cap_role : forall c k x,
  R (process_cap c k x) =
  match x with CapRole r => if role_enabled c then role_step (R k) r else R k | _ => R k end.
Proof.
  intros c k x. unfold R.
  rewrite (process_cap_blind _ n_roleadv), (process_cap_blind _ n_roleremote) by apply blind_fields.
  rewrite process_cap_eq. cbn [k_multi]. destruct x; try reflexivity. cbn. destruct (role_enabled c); reflexivity.
Qed.

Lemma caps_role_fold : forall c l k,
  R (fold_left (process_cap c) l k) = fold_left role_step (if role_enabled c then role_values l else []) (R k).
Proof.
  intros c l. induction l as [|x l IH]; intro k; cbn [fold_left role_values]; [destruct (role_enabled c); reflexivity|].
  rewrite IH, process_cap_role. destruct x, (role_enabled c); reflexivity.
Qed.

Lemma caps_role_fold_disabled : forall c l k, role_enabled c = false ->
  R (fold_left (process_cap c) l k) = R k.
Proof. intros c l k He. rewrite caps_role_fold, He. reflexivity. Qed.

Lemma role_scan : forall c k, role_enabled c = true -> forall rs r mu,
  R k = fold_left role_step rs (true, r, mu) ->
  role_ok c k = negb mu && forallb (N.eqb r) rs && roles_compatible (wire_role (c_role c)) r.
Proof.
  intros c k He. induction rs as [|x rest IH]; intros r mu HR; cbn [fold_left role_step forallb andb] in *.
  - unfold role_ok. rewrite He. injection HR as -> -> ->. rewrite !andb_false_r, andb_true_r. destruct mu; reflexivity.
  - rewrite (IH _ _ HR). destruct (N.eqb_spec r x) as [<-|_]; cbn [negb andb].
    + rewrite orb_false_r. reflexivity.
    + rewrite orb_true_r, andb_false_r. reflexivity.
Qed.

Lemma pair_table : forall l r, roles_compatible l r = rfc9234_pair l r.
Proof.
  intros l r. unfold roles_compatible, rfc9234_pair, rfc9234_pairs. cbn [existsb fst snd].
  destruct ((l =? 0) && (r =? 3)), ((l =? 3) && (r =? 0)), ((l =? 2) && (r =? 1)), ((l =? 1) && (r =? 2)),
    ((l =? 4) && (r =? 4)); reflexivity.
Qed.

Lemma caps_role_ok : forall c o,
  ebgp c && negb (role_ok c (process_caps c o)) = negb (roles_acceptable c o).
Proof.
  intros c o. unfold roles_acceptable. destruct (ebgp c); [|reflexivity]. cbn [negb orb andb]. f_equal.
  destruct (role_enabled c) eqn:He; cbn [negb]; [|unfold role_ok; rewrite He; reflexivity].
  pose proof (caps_role_fold c (o_caps o) _ : R (process_caps c o) = _) as HR. rewrite He in HR.
  destruct (role_values (o_caps o)) as [|r rest]; cbn in HR.
  - unfold role_ok. rewrite He. injection HR as -> _ _. cbn. destruct (c_strict c); reflexivity.
  - rewrite (role_scan c _ He _ _ _ HR), pair_table. reflexivity.
Qed.

Definition valid_openb (c : cfg) (o : open_msg) : bool :=
  (o_ver o =? 4) && negb (o_id o =? 0) && negb ((o_hold o =? 1) || (o_hold o =? 2)) &&
  negb (negb (ebgp c) && (c_rid c =? o_id o)) &&
  (peer_as o =? c_pas c) && roles_acceptable c o.

Lemma valid_open_iff : forall c o, valid_open c o <-> valid_openb c o = true.
Proof.
  intros c o. unfold valid_openb.
  rewrite !andb_true_iff, !negb_true_iff, orb_false_iff, andb_false_iff, negb_false_iff, !N.eqb_eq, !N.eqb_neq.
  split.
  - intros [H1 H2 H3 H4 H5 H6]. repeat split; try assumption; [lia | lia |].
    destruct (ebgp c); [left; reflexivity | right; intro E; exact (H4 eq_refl (eq_sym E))].
  - intros [[[[[H1 H3] [H5 H5']] H4] H2] H6]. constructor; try assumption; [|lia].
    intros E Q. destruct H4; congruence.
Qed.

Lemma verdict_eq : forall c o,
  open_verdict_of c (process_caps c o) =
  if negb (peer_as o =? c_pas c) then OpenReject 2 2
  else if negb (roles_acceptable c o) then OpenReject 2 11 else OpenAccept.
Proof.
  intros c o. unfold open_verdict_of. rewrite caps_peer_as, caps_role_ok. reflexivity.
Qed.

Theorem open_admission : forall c s o,
  s_st s = OpenSent -> wr_ok s = true ->
  let (s', os) := step c s (EMsg (MOpen o)) in
  if valid_openb c o then
     s_st s' = OpenConfirm /\ os = [SentKeepalive] /\ negotiated_ok c o (s_neg s') /\ s_conn s' = s_conn s
  else
     exists sub pre,
       os = pre ++ [SentNotification 2 sub; Closed] /\
       (pre = [] \/ pre = [SentKeepalive]) /\ In sub [1; 2; 3; 6; 11] /\
       s_st s' = Idle /\ s_conn s' = ConnClosed.
Proof.
  intros c s o Hst Hw. destruct s as [st att cn ng rt up im]. cbn in Hst, Hw. subst st.
  destruct cn as [|[|]|]; try discriminate Hw. clear Hw.
  unfold valid_openb.
  unfold step. cbv beta iota zeta delta [s_st s_conn listens frame_of]. cbn [andb].
  cbv beta iota zeta delta [handle s_st decode].
  unfold validate_open.
  case (o_ver o =? 4); cbn [negb andb].
  2: { rdx. exists 1, []. cbn. repeat split; auto. }
  case (o_id o =? 0); cbn [negb andb].
  { rdx. exists 3, []. cbn. repeat split; auto. }
  case ((o_hold o =? 1) || (o_hold o =? 2)); cbn [negb andb].
  { rdx. exists 6, []. cbn. repeat split; auto. }
  unfold open_received.
  case (negb (ebgp c) && (c_rid c =? o_id o)); cbn [negb andb].
  { rdx. exists 3, []. cbn. repeat split; auto. }
  cbv beta iota zeta delta [wr_ok s_conn negb].
  rewrite verdict_eq. case (peer_as o =? c_pas c); [case (roles_acceptable c o)|]; cbn [negb andb]; rdx.
  - cbn. split; [reflexivity|]. split; [reflexivity|]. split; [apply caps_negotiated | reflexivity].
  - exists 11, [SentKeepalive]. cbn. repeat split; auto 7.
  - exists 2, [SentKeepalive]. cbn. repeat split; auto.
Qed.

Theorem enters_openconfirm : forall c s e,
  inv s -> s_st s <> OpenConfirm -> s_st (fst (step c s e)) = OpenConfirm ->
  exists o, e = EMsg (MOpen o) /\ s_st s = OpenSent /\ valid_open c o /\
            negotiated_ok c o (s_neg (fst (step c s e))).
Proof.
  intros c s e Hi Hne Hto.
  destruct (sf_confirm _ _ _ _ (step_facts c s e Hi) Hne Hto) as (Hst & Hw & o & ->).
  exists o. split; [reflexivity|]. split; [exact Hst|].
  pose proof (open_admission c s o Hst Hw) as H. destruct (step c s (EMsg (MOpen o))) as [s' os].
  destruct (valid_openb c o) eqn:V.
  - split; [apply valid_open_iff, V | apply H].
  - destruct H as (sub & pre & _ & _ & _ & Hidle & _). cbn in Hto. rewrite Hidle in Hto. discriminate.
Qed.

Theorem enters_established : forall c s e,
  inv s -> s_st s <> Established -> s_st (fst (step c s e)) = Established -> s_st s = OpenConfirm.
Proof.
  intros c s e Hi Hne Hto. pose proof (sf_edge _ _ _ _ (step_facts c s e Hi)) as He. rewrite Hto in He.
  destruct (s_st s); try discriminate He; [reflexivity | contradiction].
Qed.
