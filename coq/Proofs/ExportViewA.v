(* C08/C12, the table of one prefix: what addPath and removeExportedPath do to it, on add-path sessions
   (path identifiers aside) and on best-only sessions alike. *)
From Coq Require Import List NArith Lia Permutation.
Import ListNotations.
From BioVerif Require Import Lib.ListFacts Model.PathIDs Model.AdjRIBOut Spec.ExportViewSpec Proofs.PathIDsInv Proofs.AroIDsProofs.

Local Open Scope N_scope.

Lemma path_compare_strip : forall x y, path_compare x y = true -> path_compare (strip x) (strip y) = true.
Proof.
  intros [[n|]|r a] [[m|]|r' b]; cbn [path_compare]; intros H; try discriminate; [exact H|].
  rewrite bgp_compare_pid_split in H. now apply andb_prop in H.
Qed.

Lemma is_announcement_bgp : forall r a r' b,
  is_announcement_of (PBgp r a) (PBgp r' b) = path_compare (strip (PBgp r a)) (strip (PBgp r' b)).
Proof.
  intros. cbn [is_announcement_of]. rewrite bgp_compare_pid_split. cbn [set_pid b_pid]. now rewrite N.eqb_refl.
Qed.

Lemma is_announcement_strip : forall sp q,
  is_announcement_of sp q = true -> path_compare (strip sp) (strip q) = true.
Proof. intros [snh|r a] [snh'|r' b] H; try discriminate. now rewrite <- is_announcement_bgp. Qed.

Lemma announcement_of_own : forall i r b, is_announcement_of (PBgp r (set_pid i b)) (PBgp r b) = true.
Proof. intros. rewrite is_announcement_bgp. apply bgp_compare_refl. Qed.

Section Table.
  Variable P : Type.
  Variable s : sess.

  Definition table_is (a : aro P) (pfx : N) (L : list path) : Prop :=
    Permutation (map (norm s) (tbl_get pfx (tbl a))) (map (norm s) L).

  Lemma table_is_perm : forall a pfx L L', Permutation L L' -> table_is a pfx L -> table_is a pfx L'.
  Proof. intros a pfx L L' HP H. exact (Permutation_trans H (Permutation_map _ HP)). Qed.

  (* errs unchanged: the path identifier allocation of an add-path session did not fail *)
  Lemma add_inner_get : forall a pfx r b,
    (s_addpath s = true -> Inv P a) ->
    errs (add_inner P s a pfx (PBgp r b)) = errs a ->
    map (norm s) (tbl_get pfx (tbl (add_inner P s a pfx (PBgp r b)))) =
    (if s_addpath s then map (norm s) (tbl_get pfx (tbl a)) else []) ++ [norm s (PBgp r b)].
  Proof.
    intros a pfx r b I HE. unfold add_inner, norm in *. destruct (s_addpath s); cbn [path_hkey] in *.
    - pose proof (padd_spec _ _ (pm a) (hkey_of b) (I_wf P a (I eq_refl))) as PA.
      destruct (pid_add hkey hkey_eq_dec (hkey_of b) (pm a)) as [m [i| |]]; [|cbn [errs] in HE; lia|destruct PA].
      cbn [tbl]. now rewrite tbl_get_add, N.eqb_refl, map_app.
    - cbn [tbl]. now rewrite tbl_get_add, tbl_get_drop, N.eqb_refl.
  Qed.

  (* a best-only session is only ever handed a path for a prefix it holds nothing for *)
  Lemma table_add : forall a pfx r b L,
    (s_addpath s = true -> Inv P a) -> (s_addpath s = false -> L = []) -> table_is a pfx L ->
    errs (add_inner P s a pfx (PBgp r b)) = errs a ->
    table_is (add_inner P s a pfx (PBgp r b)) pfx (L ++ [PBgp r b]).
  Proof.
    intros a pfx r b L I Best H HE. unfold table_is in *.
    rewrite add_inner_get, map_app by assumption.
    destruct (s_addpath s); [now apply Permutation_app_tail|]. now rewrite Best.
  Qed.

  Lemma remove_exported_tbl : forall a pfx p,
    tbl (fst (remove_exported P s a pfx p)) =
    match (if s_addpath s then find (fun sp => is_announcement_of sp p) (tbl_get pfx (tbl a)) else Some p),
          tbl_get pfx (tbl a) with
    | Some sp, _ :: _ => tbl_remove_first pfx sp (tbl a)
    | _, _ => tbl a
    end.
  Proof.
    intros a pfx p. unfold remove_exported.
    destruct (tbl_get pfx (tbl a)) as [|p0 T] eqn:TG; [now destruct (s_addpath s)|].
    destruct (s_addpath s); [|reflexivity].
    destruct (find _ (p0 :: T)) as [[snh|r b]|] eqn:F; [|cbn [path_hkey]|reflexivity].
    - apply find_some in F. destruct F as [_ F]. discriminate.
    - destruct (pid_release hkey hkey_eq_dec (hkey_of b) (pm a)) as [m [i|]]; reflexivity.
  Qed.

  Lemma remove_exported_get : forall a pfx p,
    tbl_get pfx (tbl (fst (remove_exported P s a pfx p))) =
    match (if s_addpath s then find (fun sp => is_announcement_of sp p) (tbl_get pfx (tbl a)) else Some p) with
    | Some sp => drop_first (fun x => path_compare x sp) (tbl_get pfx (tbl a))
    | None => tbl_get pfx (tbl a)
    end.
  Proof.
    intros a pfx p. rewrite remove_exported_tbl.
    destruct (if s_addpath s then _ else _) as [sp|]; [|reflexivity].
    destruct (tbl_get pfx (tbl a)) eqn:TG; [now rewrite TG|]. now rewrite tbl_get_remove, N.eqb_refl, TG.
  Qed.

  Lemma table_remove : forall a pfx r b L,
    table_is a pfx (PBgp r b :: L) ->
    (forall x, In x L -> path_compare (norm s x) (norm s (PBgp r b)) = false) ->
    table_is (fst (remove_exported P s a pfx (PBgp r b))) pfx L.
  Proof.
    intros a pfx r b L H U. unfold table_is in *. cbn [map] in H.
    rewrite remove_exported_get. set (q := PBgp r b) in *. set (T := tbl_get pfx (tbl a)) in *.
    assert (U' : forall x, In x T -> path_compare (norm s x) (norm s q) = true -> norm s x = norm s q).
    { intros x Hx C. apply (in_map (norm s)) in Hx. apply (Permutation_in _ H) in Hx. destruct Hx as [Hx|Hx]; [auto|].
      apply in_map_iff in Hx. destruct Hx as [y [E Hy]]. rewrite <- E, (U y Hy) in C. discriminate. }
    assert (Hq : In (norm s q) (map (norm s) T)) by (apply (Permutation_in _ (Permutation_sym H)); now left).
    apply in_map_iff in Hq. destruct Hq as [e [Eq He]]. unfold norm in U', Eq, H |- *. destruct (s_addpath s).
    - destruct e as [snh|re be]; [discriminate|].
      destruct (find (fun sp => is_announcement_of sp q) T) as [sp|] eqn:F.
      + apply find_some in F. destruct F as [Hsp A]. destruct sp as [snh|rs bs]; [discriminate|].
        pose proof (U' _ Hsp (is_announcement_strip _ _ A)) as Esp.
        apply (drop_first_perm _ strip q); [| |exact H].
        * exists (PBgp rs bs). split; [exact Hsp|apply bgp_compare_refl].
        * intros x Hx C. apply U'; [exact Hx|]. rewrite <- Esp. now apply path_compare_strip.
      + apply (find_none _ _ F) in He. unfold q in He. rewrite is_announcement_bgp, Eq in He.
        unfold q in He. cbn in He. now rewrite bgp_compare_refl in He.
    - subst e. apply (drop_first_perm _ (fun x => x) q); [| |exact H].
      + exists q. split; [exact He|apply bgp_compare_refl].
      + intros x Hx C. auto.
  Qed.

  Lemma remove_exported_absent : forall a pfx q,
    (forall x, In x (tbl_get pfx (tbl a)) -> path_compare (norm s x) (norm s q) = false) ->
    tbl_get pfx (tbl (fst (remove_exported P s a pfx q))) = tbl_get pfx (tbl a).
  Proof.
    intros a pfx q H. rewrite remove_exported_get. unfold norm in H. destruct (s_addpath s).
    - destruct (find _ _) as [sp|] eqn:F; [|reflexivity].
      apply find_some in F. destruct F as [Hsp A]. apply is_announcement_strip in A. now rewrite H in A.
    - now apply drop_first_none.
  Qed.

End Table.

(* drop_first at Compare, written out; PipelineLoc.rm_first is the same function (the two files do not import each other) *)
Fixpoint remove_first_cmp (p : path) (l : list path) : list path :=
  match l with
  | [] => []
  | x :: l' => if path_compare x p then l' else x :: remove_first_cmp p l'
  end.

Lemma remove_first_cmp_drop : forall p l, remove_first_cmp p l = drop_first (fun x => path_compare x p) l.
Proof. induction l as [|x l IH]; cbn [remove_first_cmp drop_first]; [reflexivity|]. now rewrite IH. Qed.

Lemma remove_first_cmp_none : forall p l,
  (forall x, In x l -> path_compare x p = false) -> remove_first_cmp p l = l.
Proof. intros p l H. rewrite remove_first_cmp_drop. now apply drop_first_none. Qed.

Section Mono.
  Variable P : Type.
  Variable apply : P -> N -> path -> option path.
  Variable s : sess.

  Lemma errs_step_change : forall a pfx o,
    (exists p, o = OAdd pfx p) \/ (exists p, o = ORemove pfx p) -> errs a <= errs (step P apply s a o).
  Proof.
    intros a pfx o [[p ->]|[p ->]]; cbn [step]; apply (prims_errs P s pfx);
      [apply add_path_prims|apply remove_path_prims].
  Qed.
End Mono.
