(* C35 proofs: Topology.SPT computes a shortest-path tree, for every map iteration order.
   One turn of the main loop = relax the out-edges of the current node (relax_all), then move to a
   nearest finite unmarked node (select_min, next_inv) or find none (none_left_final); loop_ok
   strings the three together over the invariant `inv`. *)
From Coq Require Import List ZArith Bool Permutation Lia.
Import ListNotations.
From BioVerif Require Import Lib.ListFacts Model.Dijkstra Spec.DijkstraSpec.
From BioVerif Require Lib.KeyedTable.

(* `get`/`put` are `KeyedTable.get`/`put N.eqb` and `keys` is `map fst`: the library's lemmas apply as they
   stand; the two below are restated because proofs rewrite with them. *)
Lemma get_put {A} k k' (v : A) m : get k' (put k v m) = if N.eqb k k' then Some v else get k' m.
Proof. exact (KeyedTable.get_put N.eqb_eq k' k v m). Qed.

Lemma keys_put_in {A} k (v : A) m : In k (keys m) -> keys (put k v m) = keys m.
Proof.
  intros H. apply (KeyedTable.get_in_keys N.eqb_eq) in H. destruct H as [d H].
  exact (KeyedTable.put_keys_present N.eqb k v m d H).
Qed.

Lemma length_filter_le {A} (f : A -> bool) l : (length (filter f l) <= length l)%nat.
Proof. induction l as [|x l IH]; cbn; auto. destruct (f x); cbn; lia. Qed.

Lemma in_remove_node n x l : In x (remove_node n l) <-> In x l /\ x <> n.
Proof.
  unfold remove_node. rewrite filter_In, negb_true_iff, N.eqb_neq. tauto.
Qed.

Lemma length_remove_node n l : In n l -> (S (length (remove_node n l)) <= length l)%nat.
Proof.
  unfold remove_node. induction l as [|x l IH]; cbn [filter length In]; [tauto|].
  pose proof (length_filter_le (fun x => negb (N.eqb x n)) l) as Hl.
  intros [H|H].
  - subst x. rewrite N.eqb_refl. cbn [negb]. apply le_n_S, Hl.
  - destruct (N.eqb x n); cbn [negb length]; apply le_n_S; [exact Hl|exact (IH H)].
Qed.

Lemma tw_add_edge ns m e u v :
  tw (mkT ns (add_edge m e)) u v =
  if N.eqb (ea e) u && N.eqb (eb e) v then Some (ew e) else tw (mkT ns m) u v.
Proof.
  unfold tw, add_edge. cbn [t_edges]. rewrite get_put.
  destruct (N.eqb (ea e) u) eqn:E1; [|reflexivity].
  apply N.eqb_eq in E1. subst u. rewrite get_put.
  destruct (N.eqb (eb e) v); [reflexivity|]. destruct (get (ea e) m); reflexivity.
Qed.

Lemma tw_fold ns es : forall m u v,
  tw (mkT ns (fold_left add_edge es m)) u v =
  match last_weight es u v with Some w => Some w | None => tw (mkT ns m) u v end.
Proof.
  induction es as [|e r IH]; intros m u v; cbn [fold_left last_weight]; auto.
  rewrite IH, tw_add_edge. destruct (last_weight r u v); auto.
  destruct (N.eqb (ea e) u && N.eqb (eb e) v); auto.
Qed.

Lemma tw_new_topology ns es u v : tw (new_topology ns es) u v = last_weight es u v.
Proof. unfold new_topology. rewrite tw_fold. destruct (last_weight es u v); auto. Qed.

Definition emap_ok (m : list (node * list (node * Z))) : Prop :=
  NoDup (keys m) /\ forall u i, get u m = Some i -> NoDup (keys i).

Lemma emap_ok_add_edge m e : emap_ok m -> emap_ok (add_edge m e).
Proof.
  intros [H1 H2]. unfold add_edge. split.
  - now apply (KeyedTable.put_nodup N.eqb_eq).
  - intros u i. rewrite get_put. destruct (N.eqb (ea e) u); [|apply H2].
    intros Hi. inversion Hi. subst i.
    apply (KeyedTable.put_nodup N.eqb_eq). destruct (get (ea e) m) eqn:G; [eauto|constructor].
Qed.

Lemma emap_ok_new_topology ns es : emap_ok (t_edges (new_topology ns es)).
Proof.
  unfold new_topology. cbn [t_edges].
  apply fold_left_invariant; [intros m e _; apply emap_ok_add_edge|]. split; [constructor|discriminate].
Qed.

Lemma nodes_fold (d : Z) ns : forall (m : list (node * Z)) x,
  In x (keys (fold_left (fun m n => put n d m) ns m)) <-> In x ns \/ In x (keys m).
Proof.
  induction ns as [|n r IH]; intros m x; cbn [fold_left In]; [tauto|].
  rewrite IH, (KeyedTable.put_keys_In N.eqb_eq n d m x). intuition.
Qed.

Lemma nodes_new_topology ns es :
  let K := keys (t_nodes (new_topology ns es)) in
  NoDup K /\ forall x, In x K <-> In x ns.
Proof.
  unfold new_topology; cbn [t_nodes]. split; [|intros x; rewrite nodes_fold; cbn; tauto].
  apply fold_left_invariant; [intros m n _; apply (KeyedTable.put_nodup N.eqb_eq)|constructor].
Qed.

Lemma last_weight_in es u v w : last_weight es u v = Some w -> In (mkE u v w) es.
Proof.
  induction es as [|[a b x] r IH]; cbn [last_weight ea eb ew In]; [discriminate|].
  destruct (last_weight r u v); [auto|].
  destruct (N.eqb_spec a u) as [->|]; [|discriminate]. destruct (N.eqb_spec b v) as [->|]; [|discriminate].
  intros H. inversion H. auto.
Qed.

Definition gbound (g : graph) (K : list node) (W : Z) : Prop :=
  forall u v w, g u v = Some w -> In u K /\ In v K /\ 0 <= w <= W.

Lemma weight_app p q : weight (p ++ q) = weight p + weight q.
Proof. induction p as [|e p IH]; cbn [app weight]; lia. Qed.

Lemma is_path_app g s t u p q : is_path g s t p -> is_path g t u q -> is_path g s u (p ++ q).
Proof.
  revert s. induction p as [|e p IH]; intros s; cbn [app is_path].
  - intros ->. auto.
  - intros (H1 & H2 & H3) Hq. repeat split; auto.
Qed.

Lemma path_weight_bounds g K W s t p :
  gbound g K W -> is_path g s t p -> 0 <= weight p <= Z.of_nat (length p) * W.
Proof.
  intros Hb. revert s. induction p as [|e p IH]; intros s; cbn [is_path weight length].
  - lia.
  - intros (H1 & H2 & H3). apply IH in H3. apply Hb in H2. lia.
Qed.

Lemma path_end_in g K W s t p : gbound g K W -> is_path g s t p -> In s K -> In t K.
Proof.
  intros Hb. revert s. induction p as [|e p IH]; intros s; cbn [is_path].
  - intros ->. auto.
  - intros (H1 & H2 & H3) Hs. apply Hb in H2. eapply IH; eauto. tauto.
Qed.

(* a path from outside U into U crosses the border somewhere *)
Lemma path_crossing g K W (U : list node) : gbound g K W ->
  forall p s t, is_path g s t p -> ~ In s U -> In t U ->
  exists p1 e p2, p = p1 ++ e :: p2 /\ is_path g s (ea e) p1 /\ ~ In (ea e) U /\ In (eb e) U /\
                  g (ea e) (eb e) = Some (ew e) /\ 0 <= weight p2.
Proof.
  intros Hb. induction p as [|e p IH]; intros s t; cbn [is_path].
  - intros ->. tauto.
  - intros (H1 & H2 & H3) Hs Ht.
    destruct (in_dec N.eq_dec (eb e) U) as [Hi|Hi].
    + exists [], e, p. cbn [app is_path]. subst s. repeat split; auto.
      eapply path_weight_bounds in H3; eauto. lia.
    + destruct (IH _ _ H3 Hi Ht) as (p1 & e' & p2 & E & P1 & N1 & I1 & G1 & W1).
      exists (e :: p1), e', p2. subst p. cbn [app is_path]. repeat split; auto.
Qed.

Lemma is_path_b_spec g s t p : is_path_b g s t p = true <-> is_path g s t p.
Proof.
  revert s. induction p as [|e p IH]; intros s; cbn [is_path_b is_path].
  - apply N.eqb_eq.
  - rewrite !andb_true_iff, N.eqb_eq, IH. unfold opt_eqb.
    destruct (g (ea e) (eb e)) as [x|].
    + rewrite Z.eqb_eq. intuition congruence.
    + intuition discriminate.
Qed.

Lemma add64_small a b : 0 <= a + b < two63 -> add64 a b = a + b.
Proof.
  intros H. unfold add64, wrap64. rewrite Z.mod_small; unfold two63 in *; lia.
Qed.

Definition dist (spt : list (node * path)) (v : node) : Z := pdist (spt_get spt v).
Definition pth (spt : list (node * path)) (v : node) : list edge := pedges (spt_get spt v).

Lemma spt_get_put spt v r x :
  spt_get (put v r spt) x = if N.eqb x v then r else spt_get spt x.
Proof. unfold spt_get. rewrite get_put, N.eqb_sym. destruct (N.eqb x v); reflexivity. Qed.

Lemma dist_put spt v r x : dist (put v r spt) x = if N.eqb x v then pdist r else dist spt x.
Proof. unfold dist. rewrite spt_get_put. destruct (N.eqb x v); reflexivity. Qed.

Lemma pth_put spt v r x : pth (put v r spt) x = if N.eqb x v then pedges r else pth spt x.
Proof. unfold pth. rewrite spt_get_put. destruct (N.eqb x v); reflexivity. Qed.

Lemma relax1_eq from spt v w :
  relax1 from spt (v, w) =
  if (dist spt v =? -1) || (add64 (dist spt from) w <? dist spt v)
  then put v (mkP (pth spt from ++ [mkE from v w]) (add64 (dist spt from) w)) spt
  else spt.
Proof.
  unfold relax1, dist, pth. cbn [fst snd].
  destruct (pdist (spt_get spt v) =? -1); cbn [orb]; auto.
Qed.

(* select_spec states its conclusion as this match, written out *)
Definition select_post spt (cands : list node) (next res : option node) : Prop :=
  match res with
  | None => next = None /\ forall c, In c cands -> dist spt c = -1
  | Some nx => (In nx cands \/ next = Some nx) /\ dist spt nx <> -1 /\
               (forall c, In c cands -> dist spt c <> -1 -> dist spt nx <= dist spt c) /\
               (forall a, next = Some a -> dist spt nx <= dist spt a)
  end.

Lemma select_post_skip spt c r next res :
  select_post spt r next res ->
  dist spt c = -1 \/ (exists a, next = Some a /\ dist spt a <= dist spt c) ->
  select_post spt (c :: r) next res.
Proof.
  destruct res as [nx|]; cbn.
  - intros (A & B & C & D) Hc. repeat split; auto.
    + destruct A; auto.
    + intros c' [<-|Hc'] Hd; auto. destruct Hc as [E|(a & Ea & Hle)]; [contradiction|].
      specialize (D a Ea). lia.
  - intros (A & B) Hc. split; auto. intros c' [<-|Hc']; auto.
    destruct Hc as [E|(a & Ea & _)]; [exact E|]. rewrite A in Ea. discriminate.
Qed.

Lemma select_post_take spt c r next res :
  select_post spt r (Some c) res ->
  (forall a, next = Some a -> dist spt c <= dist spt a) ->
  select_post spt (c :: r) next res.
Proof.
  destruct res as [nx|]; cbn.
  - intros (A & B & C & D) Hlt. specialize (D c eq_refl). repeat split; auto.
    + destruct A as [A|A]; [auto|]. inversion A. auto.
    + intros c' [<-|Hc'] Hd'; auto.
    + intros a Ea. specialize (Hlt a Ea). lia.
  - intros (A & _). discriminate.
Qed.

Lemma select_spec spt : forall cands next nd,
  match next with Some a => nd = dist spt a /\ dist spt a <> -1 | None => True end ->
  match select spt cands next nd with
  | None => next = None /\ forall c, In c cands -> dist spt c = -1
  | Some nx => (In nx cands \/ next = Some nx) /\ dist spt nx <> -1 /\
               (forall c, In c cands -> dist spt c <> -1 -> dist spt nx <= dist spt c) /\
               (forall a, next = Some a -> dist spt nx <= dist spt a)
  end.
Proof.
  induction cands as [|c r IH]; intros next nd Hn; cbn [select].
  - destruct next as [a|]; [|split; auto; intros c []].
    destruct Hn as [-> Hn]. repeat split; auto.
    + intros c [].
    + intros a' E. inversion E. lia.
  - fold (dist spt c). destruct (dist spt c =? -1) eqn:E1.
    { apply select_post_skip; [apply IH, Hn|]. left. now apply Z.eqb_eq. }
    apply Z.eqb_neq in E1. destruct next as [a|].
    + destruct Hn as [-> Hn]. destruct (dist spt c <? dist spt a) eqn:E2.
      * apply Z.ltb_lt in E2. apply select_post_take; [now apply IH|].
        intros a' E. inversion E. subst a'. lia.
      * apply Z.ltb_ge in E2. apply select_post_skip; [now apply IH|eauto].
    + apply select_post_take; [now apply IH|discriminate].
Qed.

Lemma select_min spt U l : Permutation l U ->
  match select spt l None 0 with
  | Some nx => In nx U /\ dist spt nx <> -1 /\
               forall u, In u U -> dist spt u <> -1 -> dist spt nx <= dist spt u
  | None => forall u, In u U -> dist spt u = -1
  end.
Proof.
  intros Hp. pose proof (select_spec spt l None 0 Logic.I) as H.
  assert (HinU : forall c, In c U -> In c l) by (intros c; apply Permutation_in, Permutation_sym, Hp).
  destruct (select spt l None 0) as [nx|].
  - destruct H as ([S1|S1] & S2 & S3 & _); [|discriminate]. apply (Permutation_in _ Hp) in S1. auto.
  - destruct H as (_ & S1). auto.
Qed.

Section Core.
  Context (g : graph) (K : list node) (W : Z) (src : node).
  Context (Hb : gbound g K W).
  Context (HW : Z.of_nat (length K) * W < two63).

  (* L: completed iterations; U: unmarked; from: the current node, marked, its out-edges not yet
     relaxed.  The edge counts (i_path, i_fromL) are there for the int64 bound (from_bounds).
     i_closed excepts `from`: relax_all closes it too (closed_all). *)
  Record inv (L : nat) (U : list node) (from : node) (spt : list (node * path)) : Prop := {
    i_keys : keys spt = K;
    i_fromK : In from K;
    i_fromU : ~ In from U;
    i_src : ~ In src U;
    i_sub : forall u, In u U -> In u K;
    i_L : (S (L + length U) <= length K)%nat;
    i_path : forall v, In v K -> dist spt v <> -1 ->
      is_path g src v (pth spt v) /\ dist spt v = weight (pth spt v) /\
      (length (pth spt v) <= S L)%nat;
    i_fromL : (length (pth spt from) <= L)%nat;
    i_zero : forall v, In v K -> dist spt v = -1 -> pth spt v = [];
    i_marked : forall v, In v K -> ~ In v U ->
      dist spt v <> -1 /\ dist spt v <= dist spt from /\
      (forall q, is_path g src v q -> dist spt v <= weight q);
    i_front : forall u, In u U -> dist spt u <> -1 -> dist spt from <= dist spt u;
    i_closed : forall x, In x K -> ~ In x U -> x <> from ->
      forall v w, g x v = Some w -> dist spt v <> -1 /\ dist spt v <= dist spt x + w;
    i_tree : forall v q e, In v K -> pth spt v = q ++ [e] ->
      eb e = v /\ In (ea e) K /\ ~ In (ea e) U /\ pth spt (ea e) = q
  }.

  (* the distance of the current node, and one more edge, fit into int64 *)
  Lemma from_bounds L U from spt v w :
    inv L U from spt -> g from v = Some w ->
    0 <= dist spt from /\ 0 <= w /\ dist spt from + w < two63.
  Proof.
    intros I Hg. destruct (Hb _ _ _ Hg) as (_ & _ & Hw).
    destruct (i_marked _ _ _ _ I from (i_fromK _ _ _ _ I) (i_fromU _ _ _ _ I)) as (Hf & _ & _).
    destruct (i_path _ _ _ _ I from (i_fromK _ _ _ _ I) Hf) as (Hp & Hd & _).
    pose proof (path_weight_bounds _ _ _ _ _ _ Hb Hp) as Hpw.
    pose proof (i_fromL _ _ _ _ I) as HL. pose proof (i_L _ _ _ _ I) as HL2.
    rewrite Hd. repeat split; try lia.
    assert (Z.of_nat (length (pth spt from)) * W + W <= Z.of_nat (length K) * W) by nia.
    lia.
  Qed.

  Lemma inv_improve L U from spt v w :
    inv L U from spt -> g from v = Some w -> In v U ->
    dist spt v = -1 \/ dist spt from + w < dist spt v ->
    inv L U from (put v (mkP (pth spt from ++ [mkE from v w]) (dist spt from + w)) spt).
  Proof.
    intros I Hg HvU Hlt. destruct (from_bounds _ _ _ _ _ _ I Hg) as (Hf0 & Hw0 & _).
    destruct (Hb _ _ _ Hg) as (_ & HvK & _).
    destruct I as [Ikeys IfromK IfromU Isrc Isub IL Ipath IfromL Izero Imarked Ifront Iclosed Itree].
    assert (NU : forall x, ~ In x U -> N.eqb x v = false).
    { intros x Hx. apply N.eqb_neq. intros ->. auto. }
    destruct (Imarked from IfromK IfromU) as (Hfin & _ & _).
    destruct (Ipath from IfromK Hfin) as (Hpf & Hdf & _).
    constructor; try assumption.
    - rewrite keys_put_in; [exact Ikeys|]. now rewrite Ikeys.
    - intros x HxK. rewrite dist_put, pth_put.
      destruct (N.eqb_spec x v) as [->|Hx]; cbn [pdist pedges]; [intros _|now apply Ipath].
      split; [eapply is_path_app; [exact Hpf|cbn; auto]|]. rewrite weight_app, app_length. cbn [weight ew length]. lia.
    - now rewrite pth_put, (NU from IfromU).
    - intros x HxK. rewrite dist_put, pth_put.
      destruct (N.eqb_spec x v) as [->|Hx]; cbn [pdist pedges]; [lia|now apply Izero].
    - intros x HxK HxU. rewrite !dist_put, (NU x HxU), (NU from IfromU). now apply Imarked.
    - intros u HuU. rewrite !dist_put, (NU from IfromU).
      destruct (N.eqb_spec u v) as [->|Hx]; cbn [pdist]; [lia|now apply Ifront].
    - intros x HxK HxU Hxf y wy Hgy. rewrite !dist_put, (NU x HxU).
      destruct (Iclosed x HxK HxU Hxf y wy Hgy) as (C1 & C2).
      destruct (N.eqb_spec y v) as [->|Hy]; cbn [pdist]; [|auto].
      split; [lia|]. destruct Hlt; [contradiction|lia].
    - intros x q e HxK. rewrite pth_put. destruct (N.eqb_spec x v) as [->|Hx]; cbn [pedges]; intros E.
      + apply app_inj_tail in E. destruct E as [<- <-]. cbn [ea eb]. now rewrite pth_put, (NU from IfromU).
      + destruct (Itree x q e HxK E) as (T1 & T2 & T3 & T4). now rewrite pth_put, (NU _ T3).
  Qed.

  Lemma relax1_step L U from spt v w :
    inv L U from spt -> g from v = Some w ->
    let spt' := relax1 from spt (v, w) in
    inv L U from spt' /\ spt_get spt' from = spt_get spt from /\
    (forall x, dist spt x <> -1 -> dist spt' x <> -1 /\ dist spt' x <= dist spt x) /\
    dist spt' v <> -1 /\ dist spt' v <= dist spt from + w.
  Proof.
    intros I Hg. cbn zeta. rewrite relax1_eq.
    destruct (from_bounds _ _ _ _ _ _ I Hg) as (Hf0 & Hw0 & Hov).
    rewrite add64_small by lia.
    destruct (Hb _ _ _ Hg) as (_ & HvK & _).
    destruct ((dist spt v =? -1) || (dist spt from + w <? dist spt v)) eqn:C.
    2:{ apply orb_false_iff in C. destruct C as [C1 C2].
        apply Z.eqb_neq in C1. apply Z.ltb_ge in C2.
        split; [exact I|]. split; [reflexivity|]. split; [intros x Hx; split; auto; lia|].
        split; [auto|lia]. }
    assert (Hlt : dist spt v = -1 \/ dist spt from + w < dist spt v).
    { apply orb_true_iff in C. destruct C as [C|C]; [left; now apply Z.eqb_eq|right; now apply Z.ltb_lt]. }
    (* marked nodes are finite and no farther than `from`: v is unmarked *)
    assert (HvU : In v U).
    { destruct (in_dec N.eq_dec v U) as [Hi|Hi]; auto. exfalso.
      destruct (i_marked _ _ _ _ I v HvK Hi) as (M1 & M2 & _). destruct Hlt; [contradiction|lia]. }
    assert (Hvf : N.eqb from v = false).
    { apply N.eqb_neq. intros ->. exact (i_fromU _ _ _ _ I HvU). }
    split; [now apply inv_improve|]. rewrite spt_get_put, Hvf. split; [reflexivity|]. split.
    - intros x Hx. rewrite dist_put. destruct (N.eqb_spec x v) as [->|Hxv]; cbn [pdist]; [|split; auto; lia].
      split; [lia|]. destruct Hlt; [contradiction|lia].
    - rewrite dist_put, N.eqb_refl. cbn [pdist]. lia.
  Qed.

  Lemma relax_fold L U from : forall l spt,
    inv L U from spt -> (forall v w, In (v, w) l -> g from v = Some w) ->
    let spt' := fold_left (relax1 from) l spt in
    inv L U from spt' /\ spt_get spt' from = spt_get spt from /\
    (forall x, dist spt x <> -1 -> dist spt' x <> -1 /\ dist spt' x <= dist spt x) /\
    (forall v w, In (v, w) l -> dist spt' v <> -1 /\ dist spt' v <= dist spt from + w).
  Proof.
    induction l as [|[v w] l IH]; intros spt I Hl; cbn [fold_left].
    - split; [exact I|]. split; [reflexivity|]. split; [intros x Hx; split; auto; lia|].
      intros v w [].
    - assert (Hg : g from v = Some w) by (apply Hl; left; auto).
      destruct (relax1_step _ _ _ _ _ _ I Hg) as (I1 & F1 & M1 & P1 & P2). cbn zeta in *.
      assert (Hl' : forall v' w', In (v', w') l -> g from v' = Some w') by (intros; apply Hl; right; auto).
      destruct (IH _ I1 Hl') as (I2 & F2 & M2 & P3). cbn zeta in *.
      assert (Fd : dist (relax1 from spt (v, w)) from = dist spt from) by (unfold dist; now rewrite F1).
      split; [exact I2|split; [congruence|split]].
      + intros x Hx. destruct (M1 x Hx) as (A1 & A2). destruct (M2 x A1) as (B1 & B2).
        split; auto; lia.
      + intros v' w' [E|Hin].
        * inversion E. subst v' w'. destruct (M2 v P1) as (B1 & B2). split; auto; lia.
        * destruct (P3 v' w' Hin) as (B1 & B2). rewrite Fd in B2. auto.
  Qed.

End Core.

Section Loop.
  Context (g : graph) (K : list node) (W : Z) (src : node).
  Context (Hb : gbound g K W).
  Context (HW : Z.of_nat (length K) * W < two63).
  Context (t : topology) (o : oracle).
  Context (Htw : forall u v, tw t u v = g u v).
  Context (Hem : emap_ok (t_edges t)).
  Context (Ho : oracle_ok o).

  Definition final (spt : list (node * path)) : Prop :=
    keys spt = K /\
    (forall v, In v K -> node_result_ok g src v (spt_get spt v)) /\
    (forall v q e, In v K -> pth spt v = q ++ [e] -> eb e = v /\ In (ea e) K /\ pth spt (ea e) = q).

  (* after relaxing the out-edges of the current node, every marked node is closed *)
  Definition closed_all (U : list node) (spt : list (node * path)) : Prop :=
    forall x, In x K -> ~ In x U -> forall v w, g x v = Some w ->
      dist spt v <> -1 /\ dist spt v <= dist spt x + w.

  Lemma crossing_bound L U from spt q v :
    inv g K src L U from spt -> closed_all U spt ->
    is_path g src v q -> In v U ->
    exists y, In y U /\ dist spt y <> -1 /\ dist spt y <= weight q.
  Proof.
    intros I Hc Hq HvU.
    destruct (path_crossing g K W U Hb q src v Hq (i_src _ _ _ _ _ _ _ I) HvU)
      as (p1 & e & p2 & E & P1 & N1 & I1 & G1 & W1).
    destruct (Hb _ _ _ G1) as (HxK & _ & _).
    destruct (i_marked _ _ _ _ _ _ _ I (ea e) HxK N1) as (_ & _ & Hmin).
    specialize (Hmin p1 P1).
    destruct (Hc (ea e) HxK N1 _ _ G1) as (C1 & C2).
    exists (eb e). split; [auto|split; [auto|]].
    subst q. rewrite weight_app. cbn [weight]. lia.
  Qed.

  Lemma inv_final L U from spt :
    inv g K src L U from spt ->
    (forall u, In u U -> dist spt u = -1 /\ ~ reachable g src u) ->
    final spt /\ forall v, In v K -> ~ In v U -> reachable g src v.
  Proof.
    intros I HU.
    assert (M : forall v, In v K -> ~ In v U ->
                shortest g src v (pth spt v) /\ dist spt v = weight (pth spt v)).
    { intros v HvK HvU. destruct (i_marked _ _ _ _ _ _ _ I v HvK HvU) as (M1 & _ & M3).
      destruct (i_path _ _ _ _ _ _ _ I v HvK M1) as (P1 & P2 & _).
      repeat split; auto. intros q Hq. rewrite <- P2. auto. }
    split; [split; [apply (i_keys _ _ _ _ _ _ _ I)|split]|].
    - intros v HvK. destruct (in_dec N.eq_dec v U) as [Hi|Hi]; [right|left; exact (M v HvK Hi)].
      destruct (HU v Hi) as (Hd & Hn).
      split; [exact Hn|split; [exact Hd|apply (i_zero _ _ _ _ _ _ _ I v HvK Hd)]].
    - intros v q e HvK E.
      destruct (i_tree _ _ _ _ _ _ _ I v q e HvK E) as (T1 & T2 & _ & T4). auto.
    - intros v HvK HvU. exists (pth spt v). apply (M v HvK HvU).
  Qed.

  Lemma out_edges_spec k from v w :
    In (v, w) (ord_edges o k (match get from (t_edges t) with Some i => i | None => [] end)) <->
    g from v = Some w.
  Proof.
    destruct Ho as [Hoe _]. rewrite <- Htw. unfold tw. split; intros H.
    - apply (Permutation_in _ (Hoe k _)) in H.
      destruct (get from (t_edges t)) as [i|] eqn:G; [|destruct H].
      apply (KeyedTable.in_get N.eqb_eq); auto. destruct Hem as [_ He]. eauto.
    - apply (Permutation_in _ (Permutation_sym (Hoe k _))).
      destruct (get from (t_edges t)) as [i|]; [|discriminate]. now apply (KeyedTable.get_in N.eqb_eq).
  Qed.

  Lemma relax_all L U from spt k :
    inv g K src L U from spt ->
    let spt1 := fold_left (relax1 from)
                  (ord_edges o k (match get from (t_edges t) with Some i => i | None => [] end)) spt in
    inv g K src L U from spt1 /\ closed_all U spt1.
  Proof.
    intros I.
    destruct (relax_fold g K W src Hb HW L U from _ spt I (fun v w => proj1 (out_edges_spec k from v w)))
      as (I1 & F1 & _ & P1).
    cbn zeta in *. split; [exact I1|]. intros x HxK HxU v w Hg.
    destruct (N.eq_dec x from) as [->|Hxf]; [|now apply (i_closed _ _ _ _ _ _ _ I1 x)].
    unfold dist at 3. rewrite F1. apply P1, out_edges_spec, Hg.
  Qed.

  (* a nearest finite unmarked node nx becomes the current one: no path to nx is shorter than its
     entry, since it would pass a finite unmarked node no farther than its own length *)
  Lemma next_inv L U from spt nx :
    inv g K src L U from spt -> closed_all U spt -> In nx U -> dist spt nx <> -1 ->
    (forall u, In u U -> dist spt u <> -1 -> dist spt nx <= dist spt u) ->
    inv g K src (S L) (remove_node nx U) nx spt.
  Proof.
    intros I Hc HnxU S2 S3.
    pose proof I as [Ikeys IfromK IfromU Isrc Isub IL Ipath IfromL Izero Imarked Ifront Iclosed Itree].
    assert (HnxK : In nx K) by auto.
    pose proof (length_remove_node nx U HnxU) as Hlen.
    constructor; try assumption.
    - rewrite in_remove_node. tauto.
    - rewrite in_remove_node. tauto.
    - intros u Hu. apply in_remove_node in Hu. apply Isub. tauto.
    - lia.
    - intros v HvK Hd. destruct (Ipath v HvK Hd) as (A & B & C). auto.
    - apply (Ipath nx HnxK S2).
    - intros v HvK HvU. rewrite in_remove_node in HvU.
      destruct (in_dec N.eq_dec v U) as [Hi|Hi].
      + assert (v = nx) by (destruct (N.eq_dec v nx); auto; tauto). subst v.
        split; [auto|split; [lia|]]. intros q Hq.
        destruct (crossing_bound _ _ _ _ q nx I Hc Hq HnxU) as (y & Y1 & Y2 & Y3).
        specialize (S3 y Y1 Y2). lia.
      + destruct (Imarked v HvK Hi) as (A & B & C). split; [auto|split; [|auto]].
        specialize (Ifront nx HnxU S2). lia.
    - intros u Hu Hd. apply in_remove_node in Hu. apply S3; tauto.
    - intros x HxK HxU Hxn. rewrite in_remove_node in HxU. apply Hc; tauto.
    - intros v q e HvK E. destruct (Itree v q e HvK E) as (T1 & T2 & T3 & T4).
      repeat split; auto. rewrite in_remove_node. tauto.
  Qed.

  Lemma none_left_final L U from spt :
    inv g K src L U from spt -> closed_all U spt -> (forall u, In u U -> dist spt u = -1) ->
    final spt /\ forall v, In v U -> ~ reachable g src v.
  Proof.
    intros I Hc S1.
    assert (Hunr : forall v, In v U -> ~ reachable g src v).
    { intros v Hi [q Hq]. destruct (crossing_bound _ _ _ _ q v I Hc Hq Hi) as (y & Y1 & Y2 & _). auto. }
    split; [|exact Hunr]. apply (inv_final L U from); auto.
  Qed.

  Context (guard : bool).

  (* guard = true (repaired code): Ok.  guard = false (code as found): Ok if every node is
     reachable, Panic otherwise. *)
  Definition loop_res (out : outcome) (spt' : list (node * path)) : Prop :=
    (out = Ok spt' /\ (guard = false -> forall v, In v K -> reachable g src v)) \/
    (guard = false /\ out = Panic /\ exists v, In v K /\ ~ reachable g src v).

  Lemma loop_ok : forall fuel k L U from spt,
    inv g K src L U from spt -> (length U <= fuel)%nat ->
    exists spt', final spt' /\ loop_res (loop guard o t fuel k spt from U) spt'.
  Proof.
    (* U = []: inv_final.  Otherwise U is folded back (the phase lemmas want it abstract);
       EU keeps a member u0 for the Panic witness. *)
    induction fuel as [|fuel IH]; intros k L U from spt I Hfuel; destruct U as [|u0 U0] eqn:EU;
      try (destruct (inv_final _ _ _ _ I (fun u (H : In u []) => match H with end)) as (A & B);
           exists spt; split; [exact A|]; left; split; [reflexivity|auto]).
    { cbn in Hfuel. lia. }
    cbn [loop]. rewrite <- EU in *.
    destruct (relax_all L U from spt k I) as (I1 & Hc). cbn zeta in I1, Hc.
    set (spt1 := fold_left (relax1 from) _ spt) in *.
    pose proof (select_min spt1 U (ord_nodes o k U) (proj2 Ho k U)) as Hsel.
    destruct (select spt1 (ord_nodes o k U) None 0) as [nx|].
    - destruct Hsel as (HnxU & S2 & S3). apply (IH (S k) (S L)); [now apply (next_inv L U from)|].
      pose proof (length_remove_node nx U HnxU). lia.
    - (* break; the code as found dereferences nil *)
      destruct (none_left_final _ _ _ _ I1 Hc Hsel) as (Hfin & Hunr).
      exists spt1. split; [exact Hfin|].
      assert (guard = true \/ guard = false) as [EG|EG] by (destruct guard; auto); rewrite EG.
      + left. split; [reflexivity|intros H; congruence].
      + right. split; [exact EG|split; [reflexivity|]].
        assert (Hu0 : In u0 U) by (rewrite EU; now left).
        exists u0. split; [exact (i_sub _ _ _ _ _ _ _ I1 u0 Hu0)|auto].
  Qed.
End Loop.

Lemma keys_new_spt t : keys (new_spt t) = keys (t_nodes t).
Proof.
  unfold new_spt, keys. rewrite map_map. cbn [fst]. reflexivity.
Qed.

Lemma get_new_spt t x : In x (keys (t_nodes t)) -> spt_get (new_spt t) x = mkP [] (-1).
Proof.
  unfold spt_get, new_spt, keys. induction (t_nodes t) as [|[k v] m IH]; cbn [map fst In get]; [tauto|].
  destruct (N.eqb_spec k x); [reflexivity|tauto].
Qed.

Lemma init_inv g K W src t :
  gbound g K W -> keys (t_nodes t) = K -> In src K ->
  inv g K src 0 (remove_node src K) src
      (put src (mkP (pedges (spt_get (new_spt t) src)) 0) (new_spt t)).
Proof.
  intros Hb <- Hs. set (K := keys (t_nodes t)) in *. pose proof (get_new_spt t) as G0.
  rewrite (G0 src Hs). cbn [pedges]. set (spt0 := put src (mkP [] 0) (new_spt t)).
  assert (Hp : forall x, In x K -> pth spt0 x = []).
  { intros x Hx. unfold spt0. rewrite pth_put. unfold pth. rewrite (G0 x Hx). now destruct (N.eqb x src). }
  assert (Hd : forall x, In x K -> dist spt0 x = if N.eqb x src then 0 else -1).
  { intros x Hx. unfold spt0. rewrite dist_put. unfold dist. now rewrite (G0 x Hx). }
  assert (Hm : forall x, In x K -> ~ In x (remove_node src K) -> x = src).
  { intros x Hx Hn. rewrite in_remove_node in Hn. destruct (N.eq_dec x src); auto. tauto. }
  constructor; auto.
  - unfold spt0. rewrite keys_put_in; rewrite keys_new_spt; auto.
  - rewrite in_remove_node. tauto.
  - rewrite in_remove_node. tauto.
  - intros u Hu. apply in_remove_node in Hu. tauto.
  - pose proof (length_remove_node src K Hs). lia.
  - intros v HvK. rewrite Hd, Hp by auto.
    destruct (N.eqb_spec v src) as [->|]; [cbn; auto|intros H; now destruct H].
  - rewrite Hp by auto. cbn. lia.
  - intros v HvK HvU. apply Hm in HvU; auto. subst v. rewrite Hd, N.eqb_refl by auto.
    split; [lia|split; [lia|]]. intros q Hq.
    pose proof (path_weight_bounds _ _ _ _ _ _ Hb Hq). lia.
  - intros u Hu. apply in_remove_node in Hu. rewrite !Hd by tauto.
    destruct (N.eqb_spec u src); [tauto|intros H; now destruct H].
  - intros x HxK HxU Hxs. apply Hm in HxU; auto. contradiction.
  - intros v q e HvK E. rewrite Hp in E by auto. destruct q; discriminate.
Qed.

Lemma spt_get_of_get (spt : list (node * path)) v r : get v spt = Some r -> spt_get spt v = r.
Proof. unfold spt_get. now intros ->. Qed.

Lemma final_entries g K src spt : final g K src spt ->
  (forall v r, get v spt = Some r -> node_result_ok g src v r) /\ tree_ok spt.
Proof.
  intros (Hk & Hres & Htree).
  assert (HK : forall v r, get v spt = Some r -> In v K) by (intros; rewrite <- Hk; apply (KeyedTable.get_in_keys N.eqb_eq); eauto).
  split.
  - intros v r Hget. rewrite <- (spt_get_of_get _ _ _ Hget). eauto.
  - intros v r q e Hget Hp.
    destruct (Htree v q e (HK _ _ Hget)) as (T1 & T2 & T3).
    { unfold pth. now rewrite (spt_get_of_get _ _ _ Hget). }
    split; auto. rewrite <- Hk in T2. apply (KeyedTable.get_in_keys N.eqb_eq) in T2. destruct T2 as [ru Hru].
    exists ru. split; auto. unfold pth in T3. now rewrite (spt_get_of_get _ _ _ Hru) in T3.
Qed.

(* C35_correct and C35_correct_sequence state this unfolded *)
Definition result_ok (nodes : list node) (es : list edge) (src : node) (spt : list (node * path)) : Prop :=
  NoDup (keys spt) /\ (forall v, In v (keys spt) <-> In v nodes) /\
  (forall v r, get v spt = Some r -> node_result_ok (graph_of es) src v r) /\
  tree_ok spt.

Definition represents (t : topology) (g : graph) (K : list node) : Prop :=
  keys (t_nodes t) = K /\ (forall u v, tw t u v = g u v) /\ emap_ok (t_edges t).

Lemma spt_run_general guard g K W src t o :
  represents t g K -> gbound g K W -> Z.of_nat (length K) * W < two63 -> In src K -> oracle_ok o ->
  exists spt, final g K src spt /\ loop_res g K src guard (spt_run guard o t src) spt.
Proof.
  intros (HK & Htw & Hem) Hb HW Hs Ho. unfold spt_run. rewrite HK.
  exact (loop_ok g K W src Hb HW t o Htw Hem Ho guard _ 0%nat 0%nat _ _ _
           (init_inv g K W src t Hb HK Hs) (le_n _)).
Qed.

Lemma new_topology_represents nodes es W : in_domain nodes es W -> no_overflow nodes W ->
  let K := keys (t_nodes (new_topology nodes es)) in
  represents (new_topology nodes es) (graph_of es) K /\ gbound (graph_of es) K W /\
  Z.of_nat (length K) * W < two63 /\ NoDup K /\ forall x, In x K <-> In x nodes.
Proof.
  intros Hdom Hov K. destruct (nodes_new_topology nodes es) as (HK1 & HK2). fold K in HK1, HK2.
  split; [exact (conj eq_refl (conj (tw_new_topology nodes es) (emap_ok_new_topology nodes es)))|].
  split; [|split; [|exact (conj HK1 HK2)]].
  - intros u v w Hg. rewrite !HK2. exact (Hdom _ (last_weight_in _ _ _ _ Hg)).
  - assert (length K <= length nodes)%nat by (apply NoDup_incl_length; [exact HK1|intros x; apply HK2]).
    unfold no_overflow in Hov. assert (0 < two63) by (unfold two63; lia).
    destruct (Z_lt_le_dec W 0); nia.
Qed.

Lemma run_general guard nodes es W src o :
  in_domain nodes es W -> no_overflow nodes W -> In src nodes -> oracle_ok o ->
  exists spt, result_ok nodes es src spt /\
              loop_res (graph_of es) nodes src guard (run guard o nodes es src) spt.
Proof.
  intros Hdom Hov Hsrc Ho.
  destruct (new_topology_represents nodes es W Hdom Hov) as (Hr & Hb & HW & HK1 & HK2).
  destruct (spt_run_general guard _ _ W src _ o Hr Hb HW (proj2 (HK2 src) Hsrc) Ho) as (spt & Hfin & Hres).
  exists spt. split.
  - unfold result_ok. rewrite (proj1 Hfin). exact (conj HK1 (conj HK2 (final_entries _ _ _ _ Hfin))).
  - destruct Hres as [(Hrun & Hall)|(EG & Hrun & v & HvK & Hv)]; [left|right; rewrite HK2 in HvK; eauto].
    split; [exact Hrun|]. intros EG v Hv. apply (Hall EG), HK2, Hv.
Qed.

Lemma spt_seq_runs guard t calls :
  spt_seq guard t calls = map (fun c => spt_run guard (fst c) t (snd c)) calls.
Proof.
  induction calls as [|[o from] calls IH]; cbn [spt_seq map fst snd]; [reflexivity|].
  unfold spt. now rewrite IH.
Qed.

Lemma result_ok_entry nodes es src spt v : result_ok nodes es src spt -> In v nodes ->
  exists r, get v spt = Some r /\
    (reachable (graph_of es) src v ->
       shortest (graph_of es) src v (pedges r) /\ pdist r = weight (pedges r)) /\
    (~ reachable (graph_of es) src v -> pdist r = -1 /\ pedges r = []).
Proof.
  intros (_ & Hk & Hres & _) Hv.
  apply Hk, (KeyedTable.get_in_keys N.eqb_eq) in Hv. destruct Hv as [r Hr]. exists r. split; auto.
  destruct (Hres v r Hr) as [(A & B)|(A & B & C)]; split; try tauto.
  intros Hn. exfalso. apply Hn. exists (pedges r). apply A.
Qed.
