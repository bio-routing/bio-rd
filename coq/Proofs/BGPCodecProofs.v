(* C16 and the decoder half of C19: what holds of the decoder model on every byte string. One judgement carries
   all of it: dec fuel K C P m says that m, started on any buffer b, (1) never panics, (2) runs out of fuel only if
   fuel <= length b, (3) on success has consumed a prefix c of b (b = c ++ rest) with P value c and has allocated
   at most K bytes per byte of c, (4) on failure has allocated at most K * len b + C. For decodeM (decode_spec), C16
   is clauses (1), (2), (4) and the bound of (3); C19 (an accepted UPDATE is well-formed,
   Proofs/BGPUpdateProofs.v) is the P of clause (3). *)
From Coq Require Import List NArith Bool Lia.
From Coq Require Import ZifyBool ZifyN.
Import ListNotations.
From BioVerif Require Import Model.BGPCodec Spec.BGPCodecSpec Spec.BGPUpdateSpec Proofs.BGPCodecFacts.
Local Open Scope N_scope.

Definition dec {A} (fuel : nat) (K C : N) (P : A -> list N -> Prop) (m : M A) : Prop :=
  forall b al,
  match m b al with
  | (Ok a r, al') => exists c, b = c ++ r /\ P a c /\ al' <= al + K * len c
  | (Err, al') => al' <= al + K * len b + C
  | (Panic _, _) => False
  | (OutOfFuel, _) => (fuel <= length b)%nat
  end.

Lemma dec_mono : forall A f f' K C K' C' (P P' : A -> list N -> Prop) m,
  dec f K C P m -> (f' <= f)%nat -> K <= K' -> C <= C' -> (forall a c, P a c -> P' a c) -> dec f' K' C' P' m.
Proof.
  intros A f f' K C K' C' P P' m H Hf HK HC HP b al. specialize (H b al).
  destruct (m b al) as [[a r| | |] al']; [| |exact H|lia].
  - destruct H as (c & Hb & Hp & Hal). exists c. split; [exact Hb|]. split; [auto|].
    assert (K * len c <= K' * len c) by (apply N.mul_le_mono_r; exact HK). lia.
  - assert (K * len b <= K' * len b) by (apply N.mul_le_mono_r; exact HK). lia.
Qed.

Lemma dec_post : forall A fuel K C (P P' : A -> list N -> Prop) m,
  dec fuel K C P m -> (forall a c, P a c -> P' a c) -> dec fuel K C P' m.
Proof. intros. eapply dec_mono; eauto; lia. Qed.

Lemma dec_ret : forall A fuel K C (P : A -> list N -> Prop) a, P a [] -> dec fuel K C P (ret a).
Proof. intros A fuel K C P a H b al. exists []. rewrite len_nil. split; [reflexivity|]. split; [exact H|lia]. Qed.

Lemma dec_fail : forall A fuel K C (P : A -> list N -> Prop), dec fuel K C P fail.
Proof. intros A fuel K C P b al. cbn. lia. Qed.

Lemma dec_nofuel : forall A K C (P : A -> list N -> Prop), dec 0 K C P nofuel.
Proof. intros A K C P b al. cbn. lia. Qed.

Lemma dec_guard : forall A fuel K C (P : A -> list N -> Prop) c (k : unit -> M A),
  (c = true -> dec fuel K C P (k tt)) -> dec fuel K C P (bind (guard c) k).
Proof. intros A fuel K C P [|] k H b al; [exact (H eq_refl b al)|cbn; lia]. Qed.

(* the one bind rule: the continuation may run with less fuel by what m consumed (a loop's next round: one unit
   less, the first step of its body having consumed a byte) *)
Lemma dec_bind_fuel : forall A B fuel fuel' K C (P1 : A -> list N -> Prop) (P : B -> list N -> Prop) (m : M A) (f : A -> M B),
  dec fuel K C P1 m ->
  (forall a c1, P1 a c1 -> N.of_nat fuel <= N.of_nat fuel' + len c1 /\ dec fuel' K C (fun x c2 => P x (c1 ++ c2)) (f a)) ->
  dec fuel K C P (bind m f).
Proof.
  intros A B fuel fuel' K C P1 P m f Hm Hf b al. unfold bind. specialize (Hm b al).
  destruct (m b al) as [[a r| | |] al1]; auto.
  destruct Hm as (c1 & -> & Hp1 & Hal1). destruct (Hf a c1 Hp1) as (Hfu & Hk). specialize (Hk r al1).
  unfold len in Hfu. rewrite len_app, app_length. rewrite N.mul_add_distr_l.
  destruct (f a r al1) as [[x r2| | |] al2]; auto; [|lia|lia].
  destruct Hk as (c2 & -> & Hp & Hal2). exists (c1 ++ c2). rewrite len_app, N.mul_add_distr_l.
  split; [apply app_assoc|]. split; [exact Hp|lia].
Qed.

Lemma dec_bind : forall A B fuel K C (P1 : A -> list N -> Prop) (P : B -> list N -> Prop) (m : M A) (f : A -> M B),
  dec fuel K C P1 m -> (forall a c1, P1 a c1 -> dec fuel K C (fun x c2 => P x (c1 ++ c2)) (f a)) ->
  dec fuel K C P (bind m f).
Proof. intros. eapply dec_bind_fuel with (fuel' := fuel); [eassumption|]. intros a c1 H1. split; [lia|auto]. Qed.

Lemma dec_if : forall A fuel K C (P : A -> list N -> Prop) (b : bool) (m1 m2 : M A),
  dec fuel K C P m1 -> dec fuel K C P m2 -> dec fuel K C P (if b then m1 else m2).
Proof. intros. destruct b; assumption. Qed.

(* make([]T, n), then a reader that allocates nothing and consumes at least n / K bytes *)
Lemma dec_alloc : forall A fuel K C (P1 : A -> list N -> Prop) n (m1 : M A),
  dec fuel 0 0 P1 m1 -> (forall a c, P1 a c -> n <= K * len c) -> n <= C ->
  dec fuel K C P1 (bind (alloc n) (fun _ => m1)).
Proof.
  intros A fuel K C P1 n m1 Hm Hn HC b al. unfold bind, alloc. specialize (Hm b (al + n)).
  rewrite !N.mul_0_l in Hm. destruct (m1 b (al + n)) as [[a r| | |] al']; auto; [|lia].
  destruct Hm as (c & Hb & Hp & Hal). exists c. specialize (Hn a c Hp). split; [exact Hb|]. split; [exact Hp|lia].
Qed.

(* alloc n ;; x <- m1 ;; f x : on a buffer and a counter the two ways of nesting the binds compute the same *)
Lemma dec_alloc_assoc : forall A B fuel K C (P : B -> list N -> Prop) n (m1 : M A) (f : A -> M B),
  dec fuel K C P (bind (bind (alloc n) (fun _ => m1)) f) -> dec fuel K C P (bind (alloc n) (fun _ => bind m1 f)).
Proof. intros A B fuel K C P n m1 f H. exact H. Qed.

Lemma dec_readByte : forall fuel K C, dec fuel K C (fun x cs => len cs = 1 /\ x < 256) readByte.
Proof.
  intros fuel K C [|x r] al; cbn; [lia|]. exists [x]. split; [reflexivity|]. split; [split; [reflexivity|apply byte_lt]|lia].
Qed.

Lemma dec_readU16 : forall fuel K C, dec fuel K C (fun x cs => len cs = 2 /\ x < 65536) readU16.
Proof.
  intros. unfold readU16.
  eapply dec_bind; [apply dec_readByte|intros a c1 (L1 & H1)]. eapply dec_bind; [apply dec_readByte|intros b c2 (L2 & H2)].
  apply dec_ret. rewrite !len_app, len_nil. lia.
Qed.

Lemma dec_readU32 : forall fuel K C, dec fuel K C (fun x cs => len cs = 4 /\ x < 4294967296) readU32.
Proof.
  intros. unfold readU32.
  eapply dec_bind; [apply dec_readByte|intros a c1 (L1 & H1)]. eapply dec_bind; [apply dec_readByte|intros b c2 (L2 & H2)].
  eapply dec_bind; [apply dec_readByte|intros c c3 (L3 & H3)]. eapply dec_bind; [apply dec_readByte|intros d c4 (L4 & H4)].
  apply dec_ret. rewrite !len_app, len_nil. lia.
Qed.

Lemma dec_binRead : forall fuel K C n, dec fuel K C (fun p cs => len cs = n /\ len p = n) (binRead n).
Proof.
  intros fuel K C n b al. unfold binRead. destruct (len (firstn (N.to_nat n) b) =? n) eqn:E; [|lia].
  apply N.eqb_eq in E. exists (firstn (N.to_nat n) b). rewrite len_map. split; [symmetry; apply firstn_skipn|]. split; [split; exact E|lia].
Qed.

Lemma dec_dumpN : forall fuel K C n, dec fuel K C (fun _ cs => len cs = n) (dumpN n).
Proof.
  intros fuel K C n b al. unfold dumpN. destruct (len (firstn (N.to_nat n) b) =? n) eqn:E; [|lia].
  apply N.eqb_eq in E. exists (firstn (N.to_nat n) b). split; [symmetry; apply firstn_skipn|]. split; [exact E|lia].
Qed.

Lemma dec_bufReadFull : forall fuel K C n, dec fuel K C (fun p cs => len cs = n /\ len p = n) (bufReadFull n).
Proof. intros fuel K C n b al. rewrite bufReadFull_binRead. apply dec_binRead. Qed.

Lemma dec_read4 : forall fuel K C, dec fuel K C (fun _ cs => len cs = 4) read4.
Proof.
  intros. unfold read4. eapply dec_bind; [apply dec_bufReadFull|intros p c1 (L1 & _)].
  apply dec_ret. rewrite app_nil_r. exact L1.
Qed.

Lemma dec_getBuf : forall fuel K C, dec fuel K C (fun _ cs => cs = []) getBuf.
Proof. intros fuel K C b al. exists []. rewrite len_nil. repeat split; lia. Qed.

Lemma dec_dropBuf : forall fuel K C k, dec fuel K C (fun _ _ => True) (dropBuf k).
Proof.
  intros fuel K C k b al. exists (firstn k b). split; [symmetry; apply firstn_skipn|]. split; [exact I|lia].
Qed.

Lemma dec_repeatM : forall A fuel K C k (m : M A) n,
  dec fuel K C (fun _ cs => len cs = k) m -> dec fuel K C (fun _ cs => len cs = N.of_nat n * k) (repeatM n m).
Proof.
  intros A fuel K C k m n Hm. induction n as [|n IH]; cbn [repeatM]; [apply dec_ret; reflexivity|].
  eapply dec_bind; [exact Hm|intros x c1 H1]. eapply dec_bind; [exact IH|intros l c2 H2].
  apply dec_ret. cbv beta in *. rewrite !len_app, len_nil. lia.
Qed.

Lemma dec_repeatM_safe : forall A fuel K C (m : M A) n,
  dec fuel K C (fun _ _ => True) m -> dec fuel K C (fun _ _ => True) (repeatM n m).
Proof.
  intros A fuel K C m n Hm. induction n as [|n IH]; cbn [repeatM]; [apply dec_ret; exact I|].
  eapply dec_bind; [exact Hm|intros x c1 _]. eapply dec_bind; [exact IH|intros l c2 _]. apply dec_ret. exact I.
Qed.

(* Where only the value matters (or nothing but safety: P = fun _ _ => True), eauto with dec walks a decoder by
   these rules. 12 is the least depth at which it proves dec_decodeOpen; the other two uses get by with less. *)
Create HintDb dec.
#[local] Hint Resolve dec_bind dec_ret dec_repeatM_safe dec_fail dec_guard dec_readByte dec_readU16 dec_readU32 dec_dumpN : dec.

Lemma dec_deserializePrefix : forall fuel K C b pl afi,
  dec fuel K C (fun pfx cs => cs = [] /\ p_len pfx = pl /\ pl <= afiAddrLen afi * 8) (deserializePrefix b pl afi).
Proof.
  intros. unfold deserializePrefix.
  apply dec_guard; intros G1. apply dec_guard; intros G2.
  destruct (afi =? 1); [apply dec_ret; cbn [p_len]; repeat split; lia|].
  destruct (ipFromBytes _); [|apply dec_fail].
  apply dec_guard; intros G3. apply dec_ret. cbn [p_len]. repeat split; lia.
Qed.

Lemma bufRead3_spec : forall b al,
  bufRead 3 b al =
  match b with
  | [] => (Err, al)
  | [x] => (Ok ([byte x; 0; 0], 1) [], al)
  | [x; y] => (Ok ([byte x; byte y; 0], 2) [], al)
  | x :: y :: z :: t => (Ok ([byte x; byte y; byte z], 3) t, al)
  end.
Proof. intros. destruct b as [|x [|y [|z t]]]; reflexivity. Qed.

(* the low byte of a label stack entry that was read short is the zero padding *)
Lemma lse_even : forall a b, N.odd (a * 65536 + b * 256 + 0) = false.
Proof.
  intros. rewrite <- N.negb_even.
  assert (E : N.even (a * 65536 + b * 256 + 0) = true) by (apply N.even_spec; exists (a * 32768 + b * 128); lia).
  rewrite E. reflexivity.
Qed.

Lemma decodeLabels_nil : forall f pl cons acc al,
  decodeLabels f pl cons acc [] al = (if f then OutOfFuel else Err, al).
Proof. intros. destruct f; reflexivity. Qed.

(* Not through the rules: a label stack entry that was read short (fewer than 3 bytes left) never ends the stack,
   because its padded low byte has no bottom-of-stack bit and the next read finds the buffer empty; so the
   3 bytes counted per entry are the bytes consumed. *)
Lemma dec_decodeLabels : forall K C fuel pl cons acc, pl < 256 ->
  dec fuel K C (fun t cs => snd t = cons + len cs /\ snd (fst t) < 256) (decodeLabels fuel pl cons acc).
Proof.
  intros K C. induction fuel as [|f IH]; intros pl cons acc Hpl; [apply dec_nofuel|].
  intros b al. cbn [decodeLabels]. unfold bind at 1. rewrite bufRead3_spec.
  destruct b as [|x [|y [|z b']]]; [lia| | |]; unfold bind at 1; cbv zeta;
    (destruct (24 <=? pl) eqn:Eg; unfold guard, ret, fail; [|lia]); cbn [nth];
    rewrite ?lse_even, ?decodeLabels_nil; [destruct f; cbn [length]; lia ..|].
  destruct (N.odd _).
  - exists [x; y; z]. cbn [fst snd]. change (len [x; y; z]) with 3. repeat split; lia.
  - specialize (IH (pl - 24) (cons + 3) (byte x * 65536 + byte y * 256 + byte z :: acc) ltac:(lia) b' al).
    rewrite !len_cons. cbn [length].
    destruct (decodeLabels f _ _ _ b' al) as [[t r| | |] al']; auto; [|lia|lia].
    destruct IH as (c & -> & (Hs & Hp) & Hal). exists ([x; y; z] ++ c). rewrite len_app. change (len [x; y; z]) with 3.
    split; [reflexivity|]. split; [split; [lia|exact Hp]|lia].
Qed.

Lemma bytesInAddr_le : forall p, p < 256 -> bytesInAddr p <= 32.
Proof. intros. unfold bytesInAddr. lia. Qed.

Lemma dec_decodeNLRI : forall fuel afi safi ap,
  dec fuel 1 32 (fun t cs => len cs = snd t /\ nlri_ok afi (fst t) /\ 1 <= len cs) (decodeNLRI fuel afi safi ap).
Proof.
  intros. unfold decodeNLRI.
  eapply dec_bind with (P1 := fun t cs => len cs = snd t).
  { destruct ap; [|apply dec_ret; reflexivity].
    eapply dec_bind; [apply dec_readU32|intros x c (L & _)]. apply dec_ret. rewrite app_nil_r. exact L. }
  intros [pid cons] c1 H1. eapply dec_bind; [apply dec_readByte|intros pl c2 (L2 & Hpl)]. cbv zeta.
  eapply dec_bind with (P1 := fun t cs => snd t = cons + 1 + len cs /\ snd (fst t) < 256).
  { apply dec_if; [apply dec_decodeLabels; exact Hpl|apply dec_ret; cbn [fst snd]; rewrite len_nil; lia]. }
  intros [[labels pl2] cons2] c3 (H3 & Hpl2). cbn [fst snd] in *. pose proof (bytesInAddr_le pl2 Hpl2) as Hn.
  apply dec_alloc_assoc. eapply dec_bind; [eapply dec_alloc; [apply dec_bufReadFull|intros a c (L & _); lia|lia]|].
  intros bytes c4 (L4 & _).
  eapply dec_bind; [apply dec_deserializePrefix|intros pfx c5 (-> & Hl & Hw)].
  apply dec_ret. rewrite !app_nil_r, !len_app. cbn [fst snd]. unfold nlri_ok. cbn [n_pfx]. rewrite Hl. repeat split; lia.
Qed.

Lemma dec_decodeNLRIs : forall fuel length p afi safi ap acc,
  dec fuel 1 32 (fun l cs => p + len cs = length /\ (Forall (nlri_ok afi) acc -> Forall (nlri_ok afi) l))
      (decodeNLRIs fuel length p afi safi ap acc).
Proof.
  induction fuel as [|f IH]; intros; [apply dec_nofuel|].
  cbn [decodeNLRIs]. destruct (p <? length).
  - eapply dec_bind_fuel with (fuel' := f); [apply dec_decodeNLRI|]. intros [n cons] c1 (H1 & Hn & H1'). cbn [fst snd] in *.
    split; [lia|]. eapply dec_post; [apply IH|]. intros l c2 (H2 & HF). rewrite len_app.
    split; [lia|]. intros Hacc. apply HF. constructor; assumption.
  - apply dec_guard; intros G. apply dec_ret. rewrite len_nil.
    split; [lia|]. apply Forall_rev.
Qed.

Lemma dec_MPReachBody : forall fuel o, dec fuel 1 32 (fun v _ => val_ok v) (deserializeMPReachBody fuel o).
Proof.
  intros. unfold deserializeMPReachBody.
  eapply dec_bind; [apply dec_readU16|intros afi c1 _]. eapply dec_bind; [apply dec_readByte|intros safi c2 _].
  eapply dec_bind; [apply dec_readByte|intros nhl c3 (_ & Hnhl)].
  eapply dec_bind; [apply dec_getBuf|intros variable c4 _]. cbv zeta.
  apply dec_guard; intros Hg.
  destruct (len variable <? (if nhl =? 32 then 16 else nhl)) eqn:E1.
  { exfalso. destruct (nhl =? 32) eqn:E32; lia. }
  destruct (ipFromBytes _) as [nh|]; [|apply dec_fail].
  destruct (len variable - nhl =? 0) eqn:E0; [apply dec_ret; constructor|].
  destruct (len variable <? (1 + nhl) mod 256) eqn:E2.
  { exfalso. destruct (nhl =? 32) eqn:E32; lia. }
  eapply dec_bind; [apply dec_dropBuf|intros _ c6 _]. eapply dec_bind; [apply dec_getBuf|intros rest c7 _].
  eapply dec_bind; [apply dec_decodeNLRIs|intros nl c8 (_ & H)]. apply dec_ret. apply H. constructor.
Qed.

Lemma dec_MPUnreachBody : forall fuel o, dec fuel 1 32 (fun v _ => val_ok v) (deserializeMPUnreachBody fuel o).
Proof.
  intros. unfold deserializeMPUnreachBody.
  eapply dec_bind; [apply dec_readU16|intros afi c1 _]. eapply dec_bind; [apply dec_readByte|intros safi c2 _].
  eapply dec_bind; [apply dec_getBuf|intros rest c3 _].
  destruct (len rest =? 0); [apply dec_ret; constructor|].
  eapply dec_bind; [apply dec_decodeNLRIs|intros nl c4 (_ & H)]. apply dec_ret. apply H. constructor.
Qed.

Lemma dec_lift : forall A fuel (P : A -> list N -> Prop) m, dec fuel 1 32 P m -> dec fuel 3 65535 P m.
Proof. intros. eapply dec_mono; eauto; lia. Qed.

(* b := make([]byte, L); read exactly L bytes; on them: a check, a make of n <= L bytes more, a parser that is
   specified at K = 1. For the L bytes consumed at most 3 * L are allocated. *)
Lemma dec_subparse : forall A fuel L n c (body : M A) (P : A -> Prop),
  L < 65536 -> n <= L -> dec fuel 1 32 (fun v _ => P v) body ->
  dec fuel 3 65535 (fun v cs => len cs = L /\ P v) (subparse L (_ <- guard c ;; _ <- alloc n ;; body)).
Proof.
  intros A fuel L n c body P HL Hn Hb b al. unfold subparse. unfold bind at 1. unfold alloc. unfold bind at 1.
  pose proof (dec_bufReadFull fuel 0 0 L b (al + L)) as Hr.
  destruct (bufReadFull L b (al + L)) as [[sub r| | |] al1]; try contradiction; [|lia|exact Hr].
  destruct Hr as (cs & -> & (Hcs & Hs) & Hal). rewrite len_app, app_length. unfold runSub, bind, guard, alloc.
  destruct c; unfold ret, fail; [|lia].
  specialize (Hb sub (al1 + n)). destruct (body sub (al1 + n)) as [[a r2| | |] al2]; try contradiction.
  - destruct Hb as (ci & Hsub & Hp & Hal2). exists cs. split; [reflexivity|]. split; [auto|].
    assert (len ci <= len sub) by (rewrite Hsub, len_app; lia). lia.
  - lia.
  - unfold len in *. lia.
Qed.

Lemma dec_decodeASN : forall fuel K C asnLen, asnLen = 2 \/ asnLen = 4 ->
  dec fuel K C (fun _ cs => len cs = asnLen) (decodeASN asnLen).
Proof.
  intros fuel K C asnLen [-> | ->]; unfold decodeASN; cbn [N.eqb Pos.eqb];
    (eapply dec_post; [first [apply dec_readU16 | apply dec_readU32]|intros a c (L & _); exact L]).
Qed.

Lemma dec_decodeASPath : forall fuel L asnLen p acc, asnLen = 2 \/ asnLen = 4 ->
  dec fuel 3 65535 (fun v cs => p + len cs = L /\ val_ok v) (decodeASPath fuel L asnLen p acc).
Proof.
  induction fuel as [|f IH]; intros L asnLen p acc Hasn; [apply dec_nofuel|].
  cbn [decodeASPath]. destruct (p <? L).
  - eapply dec_bind_fuel with (fuel' := f); [apply dec_readByte|intros ty c1 (L1 & _)]. split; [lia|].
    eapply dec_bind; [apply dec_readByte|intros count c2 (L2 & Hc)]. cbv zeta.
    apply dec_guard; intros _. apply dec_guard; intros G.
    apply dec_alloc_assoc. eapply dec_bind;
      [eapply dec_alloc; [apply dec_repeatM, dec_decodeASN, Hasn|intros a c Hl; cbv beta in Hl; destruct Hasn; lia|lia]|].
    intros asns c5 L5. eapply dec_post; [apply IH, Hasn|].
    intros v c6 (H6 & Hv). cbv beta in *. rewrite !len_app. split; [lia|exact Hv].
  - apply dec_guard; intros G. apply dec_ret. rewrite len_nil. split; [lia|exact I].
Qed.

Lemma dec_decodeU32List : forall fuel L, L < 65536 -> dec fuel 3 65535 (fun _ cs => len cs = L) (decodeU32List L).
Proof.
  intros fuel L HL. unfold decodeU32List. apply dec_guard; intros Hg.
  eapply dec_post; [eapply dec_alloc; [apply dec_repeatM, dec_read4| |lia]|].
  - intros a c Hc. cbv beta in Hc. lia.
  - intros a c Hc. cbv beta in Hc. lia.
Qed.

Lemma dec_decodeLarge : forall fuel L, L < 65536 -> dec fuel 3 65535 (fun _ cs => len cs = L) (decodeLarge L).
Proof.
  intros fuel L HL. unfold decodeLarge. apply dec_guard; intros Hg.
  eapply dec_post; [eapply dec_alloc; [apply dec_repeatM with (k := 12)| |lia]|].
  - eapply dec_bind; [apply dec_read4|intros a c2 H2]. eapply dec_bind; [apply dec_read4|intros b c3 H3].
    eapply dec_bind; [apply dec_read4|intros c c4 H4]. apply dec_ret. cbv beta in *. rewrite !len_app, len_nil. lia.
  - intros a c Hc. cbv beta in Hc. lia.
  - intros a c Hc. cbv beta in Hc. lia.
Qed.

Lemma dec_decodeU32Dump : forall fuel K C L, dec fuel K C (fun v cs => len cs = L /\ val_ok v) (decodeU32Dump L).
Proof.
  intros. unfold decodeU32Dump.
  apply dec_guard; intros Hg. eapply dec_bind; [apply dec_read4|intros v c2 H2].
  eapply dec_bind; [apply dec_dumpN|intros u3 c3 H3]. apply dec_ret.
  cbv beta in *. rewrite app_nil_r, len_app. split; [lia|exact I].
Qed.

Lemma dec_value4 : forall fuel K C L (f : N -> attrval), (forall v, val_ok (f v)) ->
  dec fuel K C (fun v cs => len cs = L /\ val_ok v) (_ <- guard (L =? 4) ;; v <- readU32 ;; ret (f v)).
Proof.
  intros fuel K C L f Hf. apply dec_guard; intros Hg.
  eapply dec_bind; [apply dec_readU32|intros v c2 (H2 & _)]. apply dec_ret.
  rewrite app_nil_r. split; [lia|apply Hf].
Qed.

Lemma dec_decodeAttrValue : forall fuel o ty L, L < 65536 ->
  dec fuel 3 65535 (fun v cs => len cs = L /\ val_ok v) (decodeAttrValue fuel o ty L).
Proof.
  intros fuel o ty L HL. unfold decodeAttrValue. repeat apply dec_if.
  - apply dec_guard; intros Hg. eapply dec_bind; [apply dec_readByte|intros v c2 (H2 & _)].
    eapply dec_bind; [apply dec_dumpN|intros u3 c3 H3]. apply dec_ret.
    cbv beta in *. rewrite app_nil_r, len_app. split; [lia|exact I].
  - eapply dec_post; [apply dec_decodeASPath; destruct (asn32 o); auto|]. intros v cs (H1 & H2). split; [lia|exact H2].
  - apply (dec_value4 _ _ _ L (fun v => AVNextHop (IP4 v))). intros; exact I.
  - apply (dec_value4 _ _ _ L AVU32). intros; exact I.
  - apply (dec_value4 _ _ _ L AVU32). intros; exact I.
  - apply dec_guard; intros Hg. eapply dec_bind; [apply dec_readU16|intros a c2 (H2 & _)].
    eapply dec_bind; [apply dec_readU32|intros ad c3 (H3 & _)]. eapply dec_bind; [apply dec_dumpN|intros u4 c4 H4].
    apply dec_ret. cbv beta in *. rewrite app_nil_r, !len_app. split; [lia|exact I].
  - apply dec_guard; intros Hg. apply dec_ret. rewrite len_nil. split; [lia|exact I].
  - eapply dec_bind; [apply dec_decodeU32List, HL|intros l c H]. apply dec_ret. rewrite app_nil_r. split; [exact H|exact I].
  - apply dec_decodeU32Dump.
  - eapply dec_bind; [apply dec_decodeU32List, HL|intros l c H]. apply dec_ret. rewrite app_nil_r. split; [exact H|exact I].
  - apply dec_subparse; [exact HL|lia|apply dec_MPReachBody].
  - apply dec_subparse; [exact HL|lia|apply dec_MPUnreachBody].
  - apply dec_decodeU32Dump.
  - eapply dec_bind; [apply dec_decodeLarge, HL|intros l c H]. apply dec_ret. rewrite app_nil_r. split; [exact H|exact I].
  - apply dec_alloc_assoc. eapply dec_bind; [eapply dec_alloc; [apply dec_binRead|intros a c Hc; cbv beta in Hc; lia|lia]|].
    intros v c (H & _). apply dec_ret. rewrite app_nil_r. split; [exact H|exact I].
Qed.

Lemma dec_decodePathAttr : forall fuel o,
  dec fuel 3 65535
      (fun t cs => len cs = attr_size (fst t) /\ val_ok (a_val (fst t)) /\ snd t <= attr_size (fst t))
      (decodePathAttr fuel o).
Proof.
  intros. unfold decodePathAttr.
  eapply dec_bind; [apply dec_readByte|intros flags c1 (H1 & _)]. eapply dec_bind; [apply dec_readByte|intros ty c2 (H2 & _)].
  cbv zeta.
  (* the Length field: two bytes with the extended-length flag, else one *)
  eapply dec_bind with (P1 := fun t cs => len cs = snd t /\ snd t = (if N.testbit flags 4 then 2 else 1) /\ fst t < 65536).
  { destruct (N.testbit flags 4).
    - eapply dec_bind; [apply dec_readU16|intros x c (Hc & Hx)]. apply dec_ret. rewrite app_nil_r. auto.
    - eapply dec_bind; [apply dec_readByte|intros x c (Hc & Hx)]. apply dec_ret. rewrite app_nil_r. cbn [fst snd].
      repeat split; [exact Hc|lia]. }
  intros [L n] c3 (H3 & E3 & HL). cbn [fst snd] in *.
  eapply dec_bind; [apply dec_decodeAttrValue; exact HL|intros v c4 (H4 & V4)]. apply dec_ret.
  cbn [fst snd]. unfold attr_size, attr_hdr. cbn [a_ext a_len a_val]. rewrite app_nil_r, !len_app.
  destruct (N.testbit flags 4); (split; [lia|]); (split; [exact V4|]); lia.
Qed.

Definition chunked (new : list attr) (cs : list N) : Prop :=
  exists chunks, cs = concat chunks /\ Forall2 (fun a ch => len ch = attr_size a) new chunks.

Lemma chunked_nil : chunked [] [].
Proof. exists []. split; [reflexivity|constructor]. Qed.

Lemma chunked_cons : forall a c new cs, len c = attr_size a -> chunked new cs -> chunked (a :: new) (c ++ cs).
Proof. intros a c new cs H (chunks & -> & Hch). exists (c :: chunks). split; [reflexivity|constructor; assumption]. Qed.

Lemma dec_decodePathAttrsLoop : forall fuel o tpal p acc,
  dec fuel 3 65535
      (fun l cs => exists new, l = rev acc ++ new /\ chunked new cs /\
                   Forall (fun a => val_ok (a_val a)) new /\ tpal <= p + len cs /\
                   (hasAttr 14 l = true -> hasAttr 1 l = true /\ hasAttr 2 l = true))
      (decodePathAttrsLoop fuel o tpal p (hasAttr 3 acc || hasAttr 14 acc) (hasAttr 1 acc) (hasAttr 2 acc) acc).
Proof.
  induction fuel as [|f IH]; intros o tpal p acc; [apply dec_nofuel|].
  cbn [decodePathAttrsLoop]. destruct (p <? tpal) eqn:Ep.
  - eapply dec_bind_fuel with (fuel' := f); [apply dec_decodePathAttr|intros [pa cons] c1 (H1 & V1 & B1)]. cbn [fst snd] in *.
    split; [unfold attr_size, attr_hdr in H1; destruct (a_ext pa); lia|]. cbv zeta.
    rewrite orb_swap_inner, <- !hasAttr_cons.
    eapply dec_post; [apply IH|].
    intros l cs (new & Hl & Hch & Hv & Hp & Hm).
    exists (pa :: new). split; [rewrite Hl; cbn [rev]; rewrite <- app_assoc; reflexivity|].
    split; [apply chunked_cons; assumption|].
    split; [constructor; assumption|]. split; [|exact Hm]. rewrite len_app. clear - Hp H1 B1. lia.
  - apply dec_guard; intros G1. apply dec_ret.
    exists []. rewrite app_nil_r. split; [reflexivity|].
    split; [apply chunked_nil|]. split; [constructor|].
    split; [rewrite len_nil; clear - Ep; lia|].
    rewrite !hasAttr_rev. intros H14. rewrite H14 in G1.
    rewrite orb_true_r in G1. cbn [orb negb andb] in G1.
    destruct (hasAttr 1 acc), (hasAttr 2 acc); cbn in G1; try discriminate; auto.
Qed.

Lemma dec_decodePathAttrs : forall fuel o tpal,
  dec fuel 3 65535
      (fun l cs => chunked l cs /\ Forall (fun a => val_ok (a_val a)) l /\ tpal <= len cs /\
                   (hasAttr 14 l = true -> hasAttr 1 l = true /\ hasAttr 2 l = true))
      (decodePathAttrs fuel o tpal).
Proof.
  intros. unfold decodePathAttrs. destruct (tpal =? 0) eqn:E0.
  - apply dec_ret. split; [apply chunked_nil|]. split; [constructor|].
    split; [rewrite len_nil; lia|]. cbn. discriminate.
  - eapply dec_post; [apply (dec_decodePathAttrsLoop fuel o tpal 0 [])|].
    intros l cs (new & Hl & Hch & Hv & Hp & Hm). cbn [rev app] in Hl. subst new. auto.
Qed.

(* l is the header length less the 19 bytes of the header, which precede what decodeUpdate consumes *)
Lemma dec_decodeUpdate : forall fuel o l,
  dec fuel 3 65535 (fun u cs => forall hdr, len hdr = 19 -> wellformed false (19 + l) u (hdr ++ cs))
      (decodeUpdate fuel o l).
Proof.
  intros. unfold decodeUpdate.
  eapply dec_bind; [apply dec_readU16|intros wlen c1 (H1 & _)].
  eapply dec_bind; [apply dec_lift, dec_decodeNLRIs|intros wd c2 (H2 & F2)].
  eapply dec_bind; [apply dec_readU16|intros tpal c3 (H3 & _)].
  apply dec_guard; intros G4.
  eapply dec_bind; [apply dec_decodePathAttrs|intros attrs c5 ((chunks & -> & Hch) & V5 & T5 & M5)]. cbv zeta.
  assert (W : forall nl c6, len c6 = l - 4 - tpal - wlen -> Forall (nlri_ok 1) nl ->
            (nl <> [] -> hasAttr 1 attrs = true /\ hasAttr 2 attrs = true /\ hasAttr 3 attrs = true) ->
            forall hdr, len hdr = 19 ->
            wellformed false (19 + l) (mkUpdate wlen wd tpal attrs nl) (hdr ++ c1 ++ c2 ++ c3 ++ concat chunks ++ c6)).
  { intros nl c6 H6 F6 M6 hdr Hh. split; [|split].
    - exists hdr, c1, c2, c3, chunks, c6. cbn [u_wlen u_tpal u_attrs].
      split; [reflexivity|]. split; [exact Hh|]. split; [exact H1|]. split; [exact H3|]. split; [clear - H2; lia|]. split; [exact Hch|].
      split; [exact T5|]. split; [discriminate|]. clear - H2 H6 G4. lia.
    - split; [apply F2; constructor|]. split; [exact F6|exact V5].
    - split; [exact M6|exact M5]. }
  destruct (0 <? _) eqn:En.
  - eapply dec_bind; [apply dec_lift, dec_decodeNLRIs|intros nl c6 (H6 & F6)].
    apply dec_guard; intros G. apply dec_ret. rewrite app_nil_r.
    apply andb_true_iff in G. destruct G as (G & G3). apply andb_true_iff in G. destruct G as (G1 & G2).
    apply W; [clear - H6; lia|apply F6; constructor|auto].
  - apply dec_ret. apply W; [rewrite len_nil; clear - En; lia|constructor|]. intros H. exfalso. apply H. reflexivity.
Qed.

Lemma dec_decodeCapValue : forall fuel K C code L, dec fuel K C (fun _ _ => True) (decodeCapValue code L).
Proof. intros. unfold decodeCapValue. repeat apply dec_if; eauto 12 with dec. Qed.

Lemma dec_decodeCapability : forall fuel K C, dec fuel K C (fun _ cs => 2 <= len cs) decodeCapability.
Proof.
  intros. unfold decodeCapability.
  eapply dec_bind; [apply dec_readByte|intros code c1 (L1 & _)]. eapply dec_bind; [apply dec_readByte|intros L c2 (L2 & _)].
  eapply dec_bind; [apply dec_decodeCapValue|intros v c3 _]. apply dec_ret. rewrite !len_app. lia.
Qed.

Lemma dec_decodeCapabilities : forall K C fuel length read acc,
  dec fuel K C (fun _ _ => True) (decodeCapabilities fuel length read acc).
Proof.
  intros K C. induction fuel as [|f IH]; intros; [apply dec_nofuel|].
  cbn [decodeCapabilities]. destruct (read <? length); [|apply dec_ret; exact I].
  eapply dec_bind_fuel with (fuel' := f); [apply dec_decodeCapability|intros c c1 H1]. cbv beta in H1. split; [lia|apply IH].
Qed.

Lemma dec_decodeOptParams : forall K C fuel optLen read acc,
  dec fuel K C (fun _ _ => True) (decodeOptParams fuel optLen read acc).
Proof.
  intros K C. induction fuel as [|f IH]; intros; [apply dec_nofuel|].
  cbn [decodeOptParams]. destruct (read <? optLen); [|apply dec_ret; exact I].
  eapply dec_bind_fuel with (fuel' := f); [apply dec_readByte|intros ty c1 (L1 & _)]. split; [lia|].
  eapply dec_bind; [apply dec_readByte|intros L c2 _]. cbv zeta. apply dec_guard; intros _.
  eapply dec_bind; [eapply dec_mono with (f := S f); [apply (dec_decodeCapabilities K C)|lia|lia|lia|eauto]|intros caps c4 _]. apply IH.
Qed.

#[local] Hint Resolve dec_decodeOptParams : dec.

Lemma dec_decodeOpen : forall fuel K C, dec fuel K C (fun bd _ => exists m, bd = BOpen m) (decodeOpen fuel).
Proof. intros. unfold decodeOpen. eauto 12 with dec. Qed.

Lemma dec_decodeNotification : forall fuel K C,
  dec fuel K C (fun bd _ => exists code sub, bd = BNotification code sub) decodeNotification.
Proof. intros. unfold decodeNotification. eauto 12 with dec. Qed.

Lemma dec_readMarker : forall fuel K C n, dec fuel K C (fun _ cs => len cs = N.of_nat n) (readMarker n).
Proof.
  intros fuel K C. induction n as [|n IH]; cbn [readMarker]; [apply dec_ret; reflexivity|].
  eapply dec_bind; [apply dec_readByte|intros x c1 (H1 & _)]. apply dec_guard; intros _.
  eapply dec_post; [exact IH|]. intros a cs H. cbv beta in H. rewrite len_app. lia.
Qed.

Lemma dec_decodeHeader : forall fuel K C, dec fuel K C (fun t cs => len cs = 19 /\ 19 <= fst t) decodeHeader.
Proof.
  intros. unfold decodeHeader.
  eapply dec_bind; [apply dec_readMarker|intros u1 c1 H1]. eapply dec_bind; [apply dec_readU16|intros l c2 (H2 & _)].
  eapply dec_bind; [apply dec_readByte|intros ty c3 (H3 & _)].
  apply dec_guard; intros G4. apply dec_guard; intros G5.
  apply dec_guard; intros G6. apply dec_ret.
  cbv beta in H1. rewrite !app_nil_r, !len_app. cbn [fst]. split; lia.
Qed.

Definition body_ok (l : N) (bd : body) (c : list N) : Prop :=
  match bd with BUpdate u => forall hdr, len hdr = 19 -> wellformed false l u (hdr ++ c) | _ => True end.

Lemma dec_decodeBody : forall fuel o ty l, dec fuel 3 65535 (body_ok (19 + l)) (decodeBody fuel o ty l).
Proof.
  intros. unfold decodeBody. repeat apply dec_if.
  - eapply dec_post; [apply dec_decodeOpen|]. intros bd c (m & ->). exact I.
  - eapply dec_bind; [apply dec_decodeUpdate|intros u c H]. apply dec_ret. rewrite app_nil_r. exact H.
  - apply dec_ret. exact I.
  - eapply dec_post; [apply dec_decodeNotification|]. intros bd c (code & sub & ->). exact I.
  - apply dec_fail.
Qed.

Theorem decode_spec : forall fuel o,
  dec fuel 3 65535
      (fun m c => match m_body m with BUpdate u => wellformed false (m_len m) u c | _ => True end)
      (decodeM fuel o).
Proof.
  intros. unfold decodeM.
  eapply dec_bind; [apply dec_decodeHeader|intros [l ty] c1 (H1 & Hl)]. cbn [fst] in Hl.
  eapply dec_bind; [apply dec_decodeBody|intros bd c2 H2]. apply dec_ret. rewrite app_nil_r. cbn [m_body m_len].
  replace (19 + (l - 19)) with l in H2 by lia. destruct bd; try exact I. exact (H2 c1 H1).
Qed.

(* totality in one statement: a message with what is left of the buffer, or an error *)
Lemma total_bounded : forall o b,
  (exists m rest al, decode (S (length b)) o b = (Ok m rest, al) /\ al <= 3 * len b /\ (length rest <= length b)%nat)
  \/ (exists al, decode (S (length b)) o b = (Err, al) /\ al <= 65535 + 3 * len b).
Proof.
  intros o b. unfold decode. pose proof (decode_spec (S (length b)) o b 0) as H.
  destruct (decodeM (S (length b)) o b 0) as [[m r| | |] al]; [left|right|contradiction|lia].
  - destruct H as (c & -> & _ & Hal). exists m, r, al. rewrite len_app, app_length. repeat split; lia.
  - exists al. split; [reflexivity|lia].
Qed.

Lemma fuel_suffices : forall o b, fst (decode (S (length b)) o b) <> OutOfFuel.
Proof. intros o b. destruct (total_bounded o b) as [(m & r & al & -> & _)|(al & -> & _)]; discriminate. Qed.

Lemma no_panic : forall o b, ~ is_panic (fst (decode (S (length b)) o b)).
Proof. intros o b. destruct (total_bounded o b) as [(m & r & al & -> & _)|(al & -> & _)]; cbn [fst is_panic]; auto. Qed.

Lemma alloc_bounded : forall o b, snd (decode (S (length b)) o b) <= alloc_bound b.
Proof.
  intros o b. unfold alloc_bound, alloc_c1, alloc_c2.
  destruct (total_bounded o b) as [(m & r & al & -> & H & _)|(al & -> & H)]; cbn [snd]; lia.
Qed.

Lemma returns : forall o b, returns_msg_or_error (decode (S (length b)) o b).
Proof.
  intros o b. destruct (total_bounded o b) as [(m & r & al & -> & _)|(al & -> & _)]; [left; exists m, r|right]; reflexivity.
Qed.

(* The judgement good_decodeOpen is stated in. alloc + K * len(buffer) is a potential that does not grow; cmin is
   what a successful run at least consumes. *)
Definition good {A} (fuel : nat) (K C cmin : N) (Q : A -> Prop) (m : M A) : Prop :=
  forall b al, (length b < fuel)%nat ->
  match m b al with
  | (Ok a r, al') => Q a /\ len r + cmin <= len b /\ al' + K * len r <= al + K * len b
  | (Err, al') => al' <= al + K * len b + C
  | (Panic _, _) => False
  | (OutOfFuel, _) => False
  end.

Definition top {A} (a : A) : Prop := True.

Lemma good_bind_eq : forall A B fuel K C c1 c2 (Q1 : A -> Prop) (Q : B -> Prop) (m : M A) (f : A -> M B),
  good fuel K C c1 Q1 m ->
  (forall a, Q1 a -> good fuel K C c2 Q (f a)) ->
  good fuel K C (c1 + c2) Q (bind m f).
Proof.
  intros A B fuel K C c1 c2 Q1 Q m f Hm Hf b al Hb. unfold bind. specialize (Hm b al Hb).
  destruct (m b al) as [[a r| | |] al']; auto. destruct Hm as (Ha & Hl & Hal).
  assert (Hr : (length r < fuel)%nat) by (unfold len in Hl; lia). specialize (Hf a Ha r al' Hr).
  destruct (f a r al') as [[a2 r2| | |] al2]; auto; [|lia].
  destruct Hf as (Ha2 & Hl2 & Hal2). split; [auto|]. split; lia.
Qed.

(* the OPEN decoder on its own (the BMP stack runs it on the OPENs of a peer-up message); at K = C = 0: it allocates nothing *)
Lemma good_decodeOpen : forall fuel K C, good fuel K C 0 top (decodeOpen fuel).
Proof.
  intros fuel K C b al Hb. pose proof (dec_decodeOpen fuel K C b al) as H.
  destruct (decodeOpen fuel b al) as [[a r| | |] al']; [|exact H|exact H|lia].
  destruct H as (c & -> & _ & Hal). rewrite len_app, N.mul_add_distr_l. split; [exact I|]. split; lia.
Qed.
