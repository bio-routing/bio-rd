(* Speaker: computed facts about the concrete instance of the examples of Properties/Speaker.v (real byte strings). *)
From Coq Require Import List.
Import ListNotations.
From BioVerif Require Import Model.Pipeline Model.Speaker Spec.PipelineSpec Spec.SpeakerSpec Proofs.PipelineExamples.

Definition ex_opts : BGPCodec.options := BGPCodec.mkOpts false false true false.
(* the iBGP listener (session 2) *)
Definition ex_sc2 : spcfg AdjRIBOut.chain := ex_spcfg ex_c2.
Definition ex_ss2 : sst AdjRIBOut.chain := ex_sess_at (sp_pipe _ (ex_srun ex_sevs2)) 2.

(* fed the bytes, the speaker is where the RIB pipeline is when it is fed the announcements *)
Lemma ex_same_state : sp_pipe _ (ex_srun ex_sevs2) = ex_run (ex_evs1 ++ ex_drain2a).
Proof. vm_compute. reflexivity. Qed.

Lemma ex_ss2_eq : ex_ss2 = ex_s2.
Proof. unfold ex_ss2, ex_s2. rewrite ex_same_state. reflexivity. Qed.

(* C17's guard holds for what was written *)
Lemma ex_sendable : sendable _ ex_tagf ex_sc2 ex_s2.
Proof.
  intros m Hm. set (w := UpdateSender.wire (ss_us _ ex_s2)) in Hm. vm_compute in w. subst w. cbn [In] in Hm.
  destruct Hm as [<-|[<-|[<-|[]]]].
  - eexists. eexists. split; [vm_compute; reflexivity|]. split; [|vm_compute; reflexivity].
    unfold BGPRoundtripSpec.wf_update. cbn [BGPCodec.u_withdrawn BGPCodec.u_attrs BGPCodec.u_nlri].
    split; [constructor|]. split.
    { repeat constructor; unfold BGPRoundtripSpec.wf_attr; cbn.
      - eexists. split; [reflexivity|]. cbn. constructor; [|constructor].
        split; [now right|]. split; [split; vm_compute; discriminate|]. constructor; [reflexivity|constructor].
      - eexists. split; reflexivity.
      - eexists. split; reflexivity.
      - eexists. split; reflexivity. }
    split.
    { repeat constructor; cbn; try reflexivity; try discriminate. }
    split; [vm_compute; reflexivity|]. intros _. vm_compute. reflexivity.
  - eexists. eexists. split; [vm_compute; reflexivity|]. split; [|vm_compute; reflexivity].
    unfold BGPRoundtripSpec.wf_update. cbn [BGPCodec.u_withdrawn BGPCodec.u_attrs BGPCodec.u_nlri wd_msg].
    split; [repeat constructor; cbn; try reflexivity; try discriminate|].
    split; [constructor|]. split; [constructor|]. split; [vm_compute; reflexivity|]. intros H. now contradiction H.
  - eexists. eexists. split; [vm_compute; reflexivity|]. split; [|vm_compute; reflexivity].
    unfold BGPRoundtripSpec.wf_update. cbn [BGPCodec.u_withdrawn BGPCodec.u_attrs BGPCodec.u_nlri eor_msg].
    split; [constructor|]. split; [constructor|]. split; [constructor|]. split; [vm_compute; reflexivity|].
    intros H. now contradiction H.
Qed.
