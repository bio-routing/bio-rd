(* C28: observers registered on the VRFs' Loc-RIBs are told exactly what the tables hold, and get
   Dispose when the connection is lost. The invariant `oinv` is stated over any table function T and observer
   function O and used through three lemmas: oinv_ext (T and O read the same), oinv_event (one table takes an
   event and its observers are told), oinv_register. `oi` is its instance at a state; every handler is a run
   of table events, so table_op_oi gives them all through Section Events of BMPTableLemmas. *)
From Coq Require Import List NArith Bool Lia ZifyBool.
Import ListNotations.
From BioVerif Require Import Lib.ListFacts Model.BMPCodec Model.BMPRouter Proofs.BMPTableLemmas.

Lemma view_cons : forall id x log, view id (x :: log) = view_step id (view id log) x.
Proof. intros. unfold view. cbn [rev]. rewrite fold_left_app. reflexivity. Qed.

Lemma view_skip : forall o new log, (forall x, In x new -> fst x <> o) -> view o (new ++ log) = view o log.
Proof.
  intros o new log. induction new as [|x new IH]; intros H; [reflexivity|]. cbn [app].
  rewrite view_cons, IH by (intros y Hy; apply H; right; exact Hy).
  unfold view_step. destruct (fst x =? o) eqn:E; [|reflexivity]. exfalso. apply (H x); [left; reflexivity|lia].
Qed.

Lemma view_tell_notin : forall id os ev log, ~ In id os -> view id (tell os ev log) = view id log.
Proof.
  intros id os ev log H. apply view_skip.
  intros x Hx <-. apply H. apply in_map_iff in Hx. destruct Hx as (o & <- & Ho). exact Ho.
Qed.

Lemma view_step_self : forall id acc ev, view_step id acc (id, ev) = after_event ev acc.
Proof. intros. unfold view_step. cbn [fst snd]. rewrite N.eqb_refl. reflexivity. Qed.

Lemma view_tell_in : forall id os ev log, NoDup os -> In id os ->
  view id (tell os ev log) = after_event ev (view id log).
Proof.
  intros id os ev log Hd. induction Hd as [|o os Ho _ IH]; [intros []|].
  change (tell (o :: os) ev log) with ((o, ev) :: tell os ev log). rewrite view_cons. intros [->|Hin].
  - rewrite view_step_self, view_tell_notin by exact Ho. reflexivity.
  - rewrite <- IH by exact Hin. unfold view_step. cbn [fst]. destruct (o =? id) eqn:E; [|reflexivity].
    apply N.eqb_eq in E. subst o. contradiction.
Qed.

Lemma view_tell_dispose : forall o os log, view o (tell os ODispose log) = view o log.
Proof.
  intros o os log. induction os as [|a os IH]; [reflexivity|].
  change (tell (a :: os) ODispose log) with ((a, ODispose) :: tell os ODispose log).
  rewrite view_cons, IH. unfold view_step. cbn [fst snd]. destruct (a =? o); reflexivity.
Qed.

Lemma view_dump : forall id t log x,
  cnt x (view id (rev (map (fun e => (id, OAdd e)) t) ++ log)) = (cnt x t + cnt x (view id log))%nat.
Proof.
  intros id. induction t as [|e t IH]; intros log x; cbn [map rev app cnt]; [reflexivity|].
  rewrite <- app_assoc, IH. cbn [app]. rewrite view_cons, view_step_self. cbn [after_event cnt]. lia.
Qed.

Lemma disposed_tell_in : forall o os log, In o os -> disposed o (tell os ODispose log) = true.
Proof.
  intros o os log H. unfold disposed, tell. rewrite existsb_app. apply orb_true_iff. left.
  apply existsb_exists. exists (o, ODispose). split; [apply in_map_iff; exists o; auto|].
  cbn [fst snd]. rewrite N.eqb_refl. reflexivity.
Qed.

Lemma disposed_tell_mono : forall o os ev log, disposed o log = true -> disposed o (tell os ev log) = true.
Proof.
  intros o os ev log H. unfold disposed, tell in *. rewrite existsb_app, H. apply orb_true_r.
Qed.

Record oinv (T : N -> bool -> list entry) (O : N -> bool -> list N) (log : list (N * oevent)) (free : list N) : Prop := mk_oinv {
  o_nodup : forall rd w, NoDup (O rd w);
  o_owner : forall rd1 w1 rd2 w2 o, In o (O rd1 w1) -> In o (O rd2 w2) -> rd1 = rd2 /\ w1 = w2;
  o_view : forall rd w o x, In o (O rd w) -> cnt x (view o log) = cnt x (T rd w);
  o_free : forall o, In o free -> view o log = [] /\ forall rd w, ~ In o (O rd w)
}.

Lemma oinv_ext : forall T O T' O' log free,
  (forall rd w, T' rd w = T rd w) -> (forall rd w, O' rd w = O rd w) ->
  oinv T O log free -> oinv T' O' log free.
Proof.
  intros T O T' O' log free HT HO [ND OW OV OU].
  constructor; intros *; rewrite ?HT, ?HO; eauto.
  intros Hi. destruct (OU o Hi) as (A & B). split; [exact A|]. intros rd w. rewrite HO. apply B.
Qed.

Lemma oinv_event : forall T O log free rd w ev T',
  oinv T O log free ->
  (forall rd' w', T' rd' w' = if here rd w rd' w' then after_event ev (T rd w) else T rd' w') ->
  oinv T' O (tell (O rd w) ev log) free.
Proof.
  intros T O log free rd w ev T' [ND OW OV OU] HT. constructor; [exact ND|exact OW| |].
  - intros rd' w' o x Ho. rewrite HT. destruct (here rd w rd' w') eqn:E.
    + apply here_true in E. destruct E as (-> & ->).
      rewrite view_tell_in by auto.
      destruct ev; cbn [after_event cnt]; rewrite ?cnt_remove1, (OV _ _ _ x Ho); reflexivity.
    + rewrite view_tell_notin; [auto|]. intros Hin. destruct (OW _ _ _ _ _ Hin Ho) as (-> & ->).
      rewrite here_refl in E. discriminate.
  - intros o Hi. destruct (OU o Hi) as (A & B). split; [|exact B]. rewrite view_tell_notin; [exact A|apply B].
Qed.

Lemma oinv_register : forall T O log free id rd w O',
  oinv T O log (id :: free) -> ~ In id free ->
  (forall rd' w', O' rd' w' = if here rd w rd' w' then id :: O rd w else O rd' w') ->
  oinv T O' ((id, OEndOfRIB) :: rev (map (fun e => (id, OAdd e)) (T rd w)) ++ log) free.
Proof.
  intros T O log free id rd w O' [ND OW OV OU] Hfresh HO.
  destruct (OU id (or_introl eq_refl)) as (Hidview & Hidreg).
  assert (Hobs : forall rd' w' o, In o (O' rd' w') ->
            (o = id /\ rd' = rd /\ w' = w) \/ (o <> id /\ In o (O rd' w'))).
  { intros rd' w' o. rewrite HO. destruct (here rd w rd' w') eqn:E.
    - apply here_true in E. destruct E as (-> & ->). intros [<-|Ho]; [auto|].
      right. split; [intros ->; exact (Hidreg _ _ Ho)|exact Ho].
    - intros Ho. right. split; [intros ->; exact (Hidreg _ _ Ho)|exact Ho]. }
  assert (Hskip : forall o, o <> id ->
            view o ((id, OEndOfRIB) :: rev (map (fun e => (id, OAdd e)) (T rd w)) ++ log) = view o log).
  { intros o Hn. apply (view_skip o ((id, OEndOfRIB) :: rev (map (fun e => (id, OAdd e)) (T rd w)))).
    intros y [<-|Hy]; [|apply in_rev, in_map_iff in Hy; destruct Hy as (e & <- & _)]; cbn [fst]; congruence. }
  constructor.
  - intros rd' w'. rewrite HO. destruct (here rd w rd' w'); [constructor|]; auto.
  - intros rd1 w1 rd2 w2 o O1 O2.
    destruct (Hobs _ _ _ O1) as [(E1 & -> & ->)|(N1 & B1)];
      destruct (Hobs _ _ _ O2) as [(E2 & -> & ->)|(N2 & B2)]; try congruence; eauto.
  - intros rd' w' o x Ho. destruct (Hobs _ _ _ Ho) as [(-> & -> & ->)|(N1 & B)].
    + rewrite view_cons, view_step_self. cbn [after_event]. rewrite view_dump, Hidview. cbn [cnt]. lia.
    + rewrite Hskip by exact N1. eauto.
  - intros o Hi. assert (Hn : o <> id) by (intros ->; exact (Hfresh Hi)).
    destruct (OU o (or_intror Hi)) as (A & B). split; [rewrite Hskip by exact Hn; exact A|].
    intros rd' w' Ho. destruct (Hobs _ _ _ Ho) as [(E & _)|(_ & Ho')]; [exact (Hn E)|exact (B _ _ Ho')].
Qed.

(* it speaks of the VRFs and the log only: the other fields of the state may change under it *)
Definition oi (st : rstate) (free : list N) : Prop :=
  NoDup (map v_rd (r_vrfs st)) /\ oinv (table st) (observers st) (r_log st) free.

Lemma oi_init : forall free, oi init free.
Proof.
  intros free. split; [constructor|]. constructor; cbn; try contradiction; [constructor|auto].
Qed.

Lemma table_op_oi : forall free rd w v ev st, find_vrf rd (r_vrfs st) = Some v -> oi st free ->
  oi (table_event w v ev st) free.
Proof.
  intros free rd w v ev st F (R & H). destruct (table_event_reads rd w v ev st F) as (_ & K & T & O & L).
  split; [rewrite K; exact R|]. rewrite L.
  eapply oinv_ext; [reflexivity|exact O|]. eapply oinv_event; eassumption.
Qed.

Lemma dispose_all_oi : forall st free, oi st free -> oi (dispose_all st) free.
Proof.
  intros st free. unfold dispose_all. change (oi (set_nbrs [] ?s)) with (oi s).
  apply fold_left_invariant with (P := fun a => oi a free). intros a n _. apply (dispose_nbr_keeps _ (table_op_oi free)).
Qed.

Lemma create_vrf_oi : forall rd st free, oi st free -> oi (create_vrf rd st) free.
Proof.
  intros rd st free (R & H). destruct (create_vrf_reads rd st) as (_ & _ & _ & L & _ & T & O & K).
  split; [auto|]. rewrite L. revert H. apply oinv_ext; assumption.
Qed.

Lemma dispose_vrfs_oi : forall st free, oi st free -> oi (dispose_vrfs st) free.
Proof.
  intros st free (_ & [_ _ _ OU]). unfold oi, dispose_vrfs. cbn [r_vrfs r_log set_log set_vrfs map].
  split; [constructor|]. constructor; unfold table, observers; cbn [r_vrfs set_log set_vrfs find_vrf]; try contradiction; [constructor|].
  intros o Hi. split; [|auto]. etransitivity; [|apply (OU o Hi)].
  apply fold_left_invariant with (P := fun log => view o log = view o (r_log st)); [|reflexivity].
  intros log v _ H. rewrite !view_tell_dispose. exact H.
Qed.

Lemma cleanup_oi : forall st free, oi st free -> oi (cleanup st) free.
Proof. intros st free H. rewrite cleanup_eq. exact (dispose_vrfs_oi st free H). Qed.

Lemma observe_oi : forall id rd w st free, oi st (id :: free) -> ~ In id free ->
  oi (observe id rd w st) free.
Proof.
  intros id rd w st free (R & H) Hfresh. destruct (observe_reads id rd w st) as (_ & K & T & [->|(O & L)]).
  - split; [exact R|]. destruct H as [ND OW OV OU]. constructor; auto. intros o Hi. apply OU. right. exact Hi.
  - split; [rewrite K; exact R|]. rewrite L.
    eapply oinv_ext; [exact T|reflexivity|]. eapply oinv_register; eassumption.
Qed.

Lemma rib_op_oi : forall n isann v6 p id st free, oi st free -> oi (rib_op n isann v6 p id st) free.
Proof.
  intros n isann v6 p id st free H. unfold rib_op. cbn zeta. change (oi (set_nbrs _ ?s)) with (oi s).
  destruct isann; [apply (loc_add_keeps _ (table_op_oi free))|]; apply (loc_remove_all_keeps _ (table_op_oi free)), H.
Qed.

Lemma apply_event_oi : forall k ev st free, oi st free -> oi (apply_event k ev st) free.
Proof.
  intros k ev st free H. unfold apply_event. destruct (find_nbr k (r_nbrs st)); [|exact H].
  destruct ev; apply rib_op_oi; exact H.
Qed.

Section Lift.
Variable open_decode : bytes -> option open_info.
Variable upd_apply : bool -> bool -> bool -> bytes -> list uevent.
Variable c : cfg.

Lemma process_msg_oi : forall st m free, oi st free ->
  oi (snd (process_msg open_decode upd_apply c st m)) free.
Proof.
  intros st m free H. destruct m as [h upd|h cnt0 stats|h rs data|h lo lp rp sent rcvd info|ts|ts|h ts];
    cbn [process_msg snd]; try exact H.
  - unfold route_monitoring. destruct (_ || _); [exact H|]. destruct (mem_src _ _); [exact H|].
    destruct (find_nbr _ _); [|exact H]. apply fold_left_invariant with (P := fun a => oi a free); [|exact H].
    intros a ev _. apply apply_event_oi.
  - unfold peer_down. destruct (mem_src _ _); [exact H|]. unfold neighbor_down.
    destruct (find_nbr _ _) as [n|]; [|exact H]. exact (dispose_nbr_keeps _ (table_op_oi free) n (bump 2 st) H).
  - unfold peer_up. destruct (ignored_asn _ _); [destruct (mem_src _ _); exact H|].
    destruct (open_decode sent); [|exact H]. destruct (open_decode rcvd); [|exact H].
    destruct (negb _); [exact H|]. apply (create_vrf_oi (p_rd h) (bump 3 st)) in H.
    destruct (find_nbr _ _); exact H.
  - destruct (initiation_eq ts st) as (name & ->). exact H.
  - unfold termination. destruct (term_tlvs_panic ts); cbn [snd]; [exact H|].
    apply dispose_all_oi. exact H.
Qed.

Lemma run_stream_oi : forall fuel final st s cost frames st' k n free, oi st free ->
  run_stream open_decode upd_apply c fuel final st s cost frames = SDone st' k n -> oi st' free.
Proof.
  induction fuel as [|f IH]; intros final st s cost frames st' k n free H R; cbn [run_stream] in R; [discriminate|].
  destruct (r_closed st); [inversion R; subst; apply cleanup_oi; exact H|].
  destruct (negb final && (len s =? 0)); [inversion R; subst; exact H|].
  destruct (recv s) as [m rest k1|k1|k1|]; try discriminate.
  - unfold process in R. pose proof (process_msg_oi st) as P.
    destruct (decode m) as [[x| | |] k2]; try discriminate; [specialize (P x free H)|eapply IH; eassumption].
    destruct (process_msg open_decode upd_apply c st x) as [[] st1]; [|discriminate]. eapply IH; eassumption.
  - inversion R; subst. apply cleanup_oi. exact H.
Qed.

Definition obs_ids (acts : list action) : list N :=
  flat_map (fun a => match a with AObserve id _ _ => [id] | _ => [] end) acts.

Lemma run_oi : forall acts st st', oi st (obs_ids acts) -> NoDup (obs_ids acts) ->
  run open_decode upd_apply c st acts = Some st' -> oi st' [].
Proof.
  induction acts as [|a acts IH]; intros st st' H Hd R; cbn [run] in R.
  - inversion R; subst. exact H.
  - destruct a as [f|id rd v6|]; cbn [step] in R.
    + destruct (run_stream open_decode upd_apply c (S (length f)) false st f 0 0) as [st1 k n|k n|] eqn:E; try discriminate.
      apply (IH st1); [eapply run_stream_oi; eauto|exact Hd|exact R].
    + inversion Hd as [|? ? Hn Hd']; subst. apply (IH (observe id rd v6 st)); [|exact Hd'|exact R].
      apply observe_oi; assumption.
    + apply (IH (set_closed false (cleanup st))); [|exact Hd|exact R].
      apply cleanup_oi in H. exact H.
Qed.

End Lift.

(* registered observers have been told exactly what their table holds *)
Lemma oi_follow : forall st free, oi st free ->
  forall v w o x, In v (r_vrfs st) -> In o (obs w v) -> cnt x (view o (r_log st)) = cnt x (tab w v).
Proof.
  intros st free (K & H) v w o x Hv Ho.
  assert (F : find_vrf (v_rd v) (r_vrfs st) = Some v) by exact (in_kfind v_rd N.eqb_eq _ _ K Hv).
  rewrite (o_view _ _ _ _ H (v_rd v) w o x); unfold table, observers; rewrite F; auto.
Qed.

Lemma dispose_vrfs_tells : forall st o v w, In v (r_vrfs st) -> In o (obs w v) ->
  disposed o (r_log (dispose_vrfs st)) = true.
Proof.
  intros st o v w Hv Ho. unfold dispose_vrfs. cbn [r_log set_log]. destruct (in_split _ _ Hv) as (l1 & l2 & ->).
  rewrite fold_left_app. cbn [fold_left].
  apply fold_left_invariant; [intros; apply disposed_tell_mono, disposed_tell_mono; assumption|].
  destruct w; [apply disposed_tell_in|apply disposed_tell_mono, disposed_tell_in]; exact Ho.
Qed.
