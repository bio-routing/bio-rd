(* C15 text proofs: the IPv6 literal.  The shape of what the print loop emits
   (string6_shape), what the (modelled) parser does on text of that shape, and so
   ParseIP (stringIPv6 bytes) = bytes (string6_ParseIP). *)
From Coq Require Import ZArith Lia Bool List.
From BioVerif Require Import Lib.ListFacts Lib.Word Model.NetArith Model.IPText Proofs.IPTextBasics.
Import ListNotations.

(* every group preceded by ':' *)
Fixpoint tailj (ss : list str) : str :=
  match ss with [] => [] | s :: r => c_colon :: s ++ tailj r end.

(* groups separated by ':' *)
Definition joins (ss : list str) : str :=
  match ss with [] => [] | s :: r => s ++ tailj r end.

(* what the print loop emits from field t on: ':' before every field except field 0 *)
Fixpoint emits (t : nat) (ss : list str) : str :=
  match ss with
  | [] => []
  | s :: r => (if 0 <? 2 * Z.of_nat t then [c_colon] else []) ++ s ++ emits (S t) r
  end.

Lemma emits_S t ss : emits (S t) ss = tailj ss.
Proof.
  revert t. induction ss as [|s r IH]; intros t; [reflexivity|].
  cbn [emits tailj]. destruct (Z.ltb_spec 0 (2 * Z.of_nat (S t))); [|lia].
  rewrite IH. reflexivity.
Qed.

Lemma emits_0 ss : emits 0 ss = joins ss.
Proof. destruct ss as [|s r]; [reflexivity|]. cbn [emits joins]. rewrite emits_S. reflexivity. Qed.

Lemma tailj_app a b : tailj (a ++ b) = tailj a ++ tailj b.
Proof.
  induction a as [|s r IH]; [reflexivity|]. cbn [app tailj]. rewrite IH.
  rewrite <- app_assoc. reflexivity.
Qed.

Section Print.
Variable p : list Z.

Definition groups_text : list str := map (fun t => hexgroup p (2 * Z.of_nat t)) (seq 0 8).

Lemma groups_text_length : length groups_text = 8%nat.
Proof. reflexivity. Qed.

Lemma groups_text_nth t : (t < 8)%nat -> nth t groups_text [] = hexgroup p (2 * Z.of_nat t).
Proof.
  intros H. do 8 (destruct t as [|t]; [reflexivity|]). lia.
Qed.

Lemma skipn_groups t : (t < 8)%nat ->
  skipn t groups_text = hexgroup p (2 * Z.of_nat t) :: skipn (S t) groups_text.
Proof.
  intros H. do 8 (destruct t as [|t]; [reflexivity|]). lia.
Qed.

(* past the "::" (or without one): one field per iteration *)
Lemma print_after e0 e1 : forall fuel t,
  (t <= 8)%nat -> (8 - t < fuel)%nat -> e0 < 2 * Z.of_nat t ->
  print6_loop fuel p e0 e1 (2 * Z.of_nat t) = Some (emits t (skipn t groups_text)).
Proof.
  induction fuel as [|f IH]; intros t Ht Hf He; [lia|].
  cbn [print6_loop].
  destruct (Z.ltb_spec (2 * Z.of_nat t) 16) as [L | L].
  - destruct (Z.eqb_spec (2 * Z.of_nat t) e0) as [E | NE]; [lia|].
    replace (2 * Z.of_nat t + 2) with (2 * Z.of_nat (S t)) by lia.
    rewrite IH by lia.
    rewrite (skipn_groups t) by lia. cbn [emits]. reflexivity.
  - assert (t = 8%nat) by lia. subst t. reflexivity.
Qed.

(* before the "::" at fields a .. b-1 *)
Lemma print_before (a b : nat) : (a + 2 <= b <= 8)%nat -> forall fuel t,
  (t <= a)%nat -> (8 - t < fuel)%nat ->
  print6_loop fuel p (2 * Z.of_nat a) (2 * Z.of_nat b) (2 * Z.of_nat t) =
  Some (emits t (firstn (a - t) (skipn t groups_text)) ++ [c_colon; c_colon] ++ joins (skipn b groups_text)).
Proof.
  intros Hab. induction fuel as [|f IH]; intros t Ht Hf; [lia|].
  cbn [print6_loop].
  destruct (Z.ltb_spec (2 * Z.of_nat t) 16) as [L | L]; [|lia].
  destruct (Z.eqb_spec (2 * Z.of_nat t) (2 * Z.of_nat a)) as [E | NE].
  - assert (t = a) by lia. subst t. rewrite Nat.sub_diag.
    destruct (Z.leb_spec 16 (2 * Z.of_nat b)) as [L2 | L2].
    + assert (b = 8%nat) by lia. subst b. reflexivity.
    + replace (2 * Z.of_nat b + 2) with (2 * Z.of_nat (S b)) by lia.
      rewrite print_after, (skipn_groups b), emits_S by lia. reflexivity.
  - replace (2 * Z.of_nat t + 2) with (2 * Z.of_nat (S t)) by lia.
    rewrite IH by lia.
    rewrite (skipn_groups t) by lia.
    replace (a - t)%nat with (S (a - S t)) by lia. cbn [firstn emits].
    rewrite <- !app_assoc. reflexivity.
Qed.

Lemma print6_plain : print6_loop 9 p (-1) (-1) 0 = Some (joins groups_text).
Proof. rewrite <- emits_0. apply (print_after (-1) (-1) 9 0); lia. Qed.

Lemma print6_ell (a b : nat) : (a + 2 <= b <= 8)%nat ->
  print6_loop 9 p (2 * Z.of_nat a) (2 * Z.of_nat b) 0 =
  Some (joins (firstn a groups_text) ++ [c_colon; c_colon] ++ joins (skipn b groups_text)).
Proof.
  intros Hab. change 0 with (2 * Z.of_nat 0) at 1. rewrite (print_before a b Hab 9 0) by lia.
  rewrite Nat.sub_0_r. change (skipn 0 groups_text) with groups_text. rewrite emits_0. reflexivity.
Qed.
End Print.

Lemma hexval_colon : hexval c_colon = None. Proof. reflexivity. Qed.

Lemma starts_hex_app s t : starts_hex s -> starts_hex (s ++ t).
Proof. destruct s; [contradiction | exact (fun H => H)]. Qed.

Lemma parse6_step_end f g acc ell : inr16 g ->
  parse6_loop (S f) (appendHex g) acc ell = Some (acc ++ [g], ell).
Proof.
  intros Hg. destruct (read_hex_group g [] Hg I) as (o & Hr & Ho).
  rewrite app_nil_r in Hr. cbn [parse6_loop]. rewrite Hr, Ho. reflexivity.
Qed.

Lemma parse6_step_colon f g acc ell rest : inr16 g -> starts_hex rest ->
  parse6_loop (S f) (appendHex g ++ c_colon :: rest) acc ell = parse6_loop f rest (acc ++ [g]) ell.
Proof.
  intros Hg Hc. destruct rest as [|c2 s3]; [contradiction|].
  destruct (read_hex_group g (c_colon :: c2 :: s3) Hg hexval_colon) as (o & Hr & Ho).
  cbn [parse6_loop]. rewrite Hr, Ho.
  destruct (is_hex_not_sep c2 Hc) as [N1 _].
  change (c_colon =? c_dot) with false. change (c_colon =? c_colon) with true. cbn [negb].
  rewrite N1. reflexivity.
Qed.

Lemma parse6_step_ell f g acc rest : inr16 g ->
  parse6_loop (S f) (appendHex g ++ c_colon :: c_colon :: rest) acc None =
  match rest with
  | [] => Some (acc ++ [g], Some (Z.of_nat (length (acc ++ [g]))))
  | _ :: _ => parse6_loop f rest (acc ++ [g]) (Some (Z.of_nat (length (acc ++ [g]))))
  end.
Proof.
  intros Hg.
  destruct (read_hex_group g (c_colon :: c_colon :: rest) Hg hexval_colon) as (o & Hr & Ho).
  cbn [parse6_loop]. rewrite Hr, Ho.
  change (c_colon =? c_dot) with false. change (c_colon =? c_colon) with true. cbn [negb].
  destruct rest; reflexivity.
Qed.

Definition joinv (vs : list Z) : str := joins (map appendHex vs).

Lemma joinv_cons g r : joinv (g :: r) = appendHex g ++ tailj (map appendHex r).
Proof. reflexivity. Qed.

Lemma joinv_starts_hex g r : inr16 g -> starts_hex (joinv (g :: r)).
Proof.
  intros Hg. rewrite joinv_cons. apply starts_hex_app, appendHex_head, Hg.
Qed.

(* groups up to the end of the text *)
Lemma parse6_groups : forall r g fuel acc ell,
  Forall inr16 (g :: r) -> (length r < fuel)%nat ->
  parse6_loop fuel (joinv (g :: r)) acc ell = Some (acc ++ g :: r, ell).
Proof.
  induction r as [|g' r IH]; intros g fuel acc ell HF Hf;
    (destruct fuel as [|f]; [cbn in Hf; lia|]); inversion HF as [|? ? Hg HF']; subst;
    rewrite joinv_cons; cbn [map tailj].
  - rewrite app_nil_r. apply parse6_step_end, Hg.
  - change (appendHex g' ++ tailj (map appendHex r)) with (joinv (g' :: r)).
    rewrite parse6_step_colon by (auto; apply joinv_starts_hex; inversion HF'; assumption).
    cbn [length] in Hf. rewrite IH by (auto; lia). rewrite <- app_assoc. reflexivity.
Qed.

(* groups, "::", then the groups r2 (possibly none) up to the end of the text *)
Lemma parse6_groups_ell : forall r g r2 fuel acc,
  Forall inr16 (g :: r) -> Forall inr16 r2 -> (length r + length r2 < fuel)%nat ->
  parse6_loop fuel (joinv (g :: r) ++ [c_colon; c_colon] ++ joinv r2) acc None =
  Some (acc ++ (g :: r) ++ r2, Some (Z.of_nat (length (acc ++ g :: r)))).
Proof.
  induction r as [|g' r IH]; intros g r2 fuel acc HF HF2 Hf;
    (destruct fuel as [|f]; [lia|]); cbn [length] in Hf; inversion HF as [|? ? Hg HF']; subst;
    rewrite joinv_cons; cbn [map tailj].
  - rewrite app_nil_r. cbn [app]. rewrite parse6_step_ell by assumption.
    destruct r2 as [|g2 r3]; [rewrite ?app_nil_r; reflexivity|].
    pose proof (joinv_starts_hex g2 r3 ltac:(inversion HF2; assumption)) as Hs.
    destruct (joinv (g2 :: r3)) eqn:E; [contradiction|]. rewrite <- E.
    rewrite parse6_groups by (auto; cbn [length] in Hf; lia).
    rewrite <- app_assoc. reflexivity.
  - change (appendHex g' ++ tailj (map appendHex r)) with (joinv (g' :: r)).
    set (T := [c_colon; c_colon] ++ joinv r2). rewrite <- app_assoc. cbn [app].
    rewrite parse6_step_colon
      by (auto; apply starts_hex_app, joinv_starts_hex; inversion HF'; assumption).
    unfold T. rewrite IH by (auto; lia). rewrite <- !app_assoc. reflexivity.
Qed.

Lemma first_sep_group g rest : inr16 g -> first_sep (appendHex g ++ c_colon :: rest) = c_colon.
Proof.
  intros Hg. rewrite (first_sep_class is_hex) by (try reflexivity; apply appendHex_is_hex, Hg). reflexivity.
Qed.

(* what parseIPv6 does with the result of its loop: parseIPv6_hexhead and parseIPv6_ellhead show the
   equality *)
Definition finish6 (r : option (list Z * option Z)) : option (list Z) :=
  match r with
  | None => None
  | Some (groups, ell) =>
    let n := Z.of_nat (length groups) in
    if n <? 8 then
      match ell with
      | None => None
      | Some e => Some (firstn (Z.to_nat e) groups ++ repeat 0 (Z.to_nat (8 - n))
                        ++ skipn (Z.to_nat e) groups)
      end
    else match ell with None => Some groups | Some _ => None end
  end.

Lemma parseIPv6_hexhead S : starts_hex S ->
  parseIPv6 S = finish6 (parse6_loop 8 S [] None).
Proof.
  destruct S as [|c s]; [contradiction|]. intros Hc.
  destruct (is_hex_not_sep c Hc) as [N _]. unfold parseIPv6, finish6.
  destruct s as [|c2 r]; [reflexivity|]. cbv beta iota. rewrite N. reflexivity.
Qed.

Lemma parseIPv6_ellhead c s : is_hex c = true ->
  parseIPv6 (c_colon :: c_colon :: c :: s) = finish6 (parse6_loop 8 (c :: s) [] (Some 0)).
Proof. intros Hc. reflexivity. Qed.

Lemma finish6_ell A B : (length A + length B < 8)%nat ->
  finish6 (Some (A ++ B, Some (Z.of_nat (length A)))) = Some (A ++ repeat 0 (8 - length A - length B) ++ B).
Proof.
  intros H. unfold finish6. rewrite app_length.
  destruct (Z.ltb_spec (Z.of_nat (length A + length B)) 8) as [L | L]; [|lia].
  rewrite Nat2Z.id, firstn_app_length, skipn_app_length. do 4 f_equal. lia.
Qed.

(* no "::" : eight groups *)
Lemma parseIPv6_plain hs : length hs = 8%nat -> Forall inr16 hs ->
  parseIPv6 (joinv hs) = Some hs.
Proof.
  intros HL HF. destruct hs as [|g r]; [discriminate|].
  rewrite parseIPv6_hexhead by (apply joinv_starts_hex; inversion HF; assumption).
  rewrite parse6_groups by (auto; cbn [length] in HL; lia). cbn [app].
  unfold finish6. rewrite HL. reflexivity.
Qed.

Lemma parseIPv6_ell A B : Forall inr16 A -> Forall inr16 B -> (length A + length B < 8)%nat ->
  parseIPv6 (joinv A ++ [c_colon; c_colon] ++ joinv B) =
  Some (A ++ repeat 0 (8 - length A - length B) ++ B).
Proof.
  intros HA HB Hl. rewrite <- finish6_ell by exact Hl. destruct A as [|g r].
  - cbn [joinv joins map app]. destruct B as [|g2 r2]; [reflexivity|].
    pose proof (joinv_starts_hex g2 r2 ltac:(inversion HB; assumption)) as Hs.
    destruct (joinv (g2 :: r2)) as [|c s] eqn:Ej; [contradiction|].
    rewrite parseIPv6_ellhead by exact Hs. rewrite <- Ej, parse6_groups by (auto; cbn [length] in *; lia).
    reflexivity.
  - rewrite parseIPv6_hexhead by (apply starts_hex_app, joinv_starts_hex; inversion HA; assumption).
    cbn [length] in Hl. rewrite parse6_groups_ell by (auto; lia). reflexivity.
Qed.

Definition hs_of (p : list Z) : list Z :=
  map (fun k => hx (byte_nth p (2 * k)) (byte_nth p (2 * k + 1))) [0; 1; 2; 3; 4; 5; 6; 7].

Lemma groups_text_hs p : groups_text p = map appendHex (hs_of p).
Proof. reflexivity. Qed.

Lemma hs_of_range p : Forall isbyte p -> Forall inr16 (hs_of p).
Proof.
  intros H. unfold hs_of. apply Forall_forall. intros x Hx. apply in_map_iff in Hx.
  destruct Hx as (t & <- & _). apply hx_range; apply byte_nth_range; exact H.
Qed.

Lemma zflags_zero p n a : forallb id (firstn n (skipn a (zflags p))) = true ->
  Forall (eq 0) (firstn n (skipn a (hs_of p))).
Proof.
  unfold zflags, hs_of. rewrite !skipn_map, !firstn_map. intros H. apply Forall_forall. intros x Hx.
  apply in_map_iff in Hx. destruct Hx as (k & <- & Hk).
  apply (in_map _), (proj1 (forallb_forall _ _) H), andb_true_iff in Hk. destruct Hk as [H1 H0].
  apply Z.eqb_eq in H1, H0. rewrite H1, H0. reflexivity.
Qed.

(* stringIPv6 on any list of bytes, where the model has Bytes a *)
Definition string6_of (p : list Z) : option str :=
  match zero_run (zflags p) with
  | None => None
  | Some (e0, e1) => print6_loop 9 p e0 e1 0
  end.

(* ip_string is rewritten to string6_of here, once, by unfolding ip_string; asked to unify the two
   in a later proof the kernel would run zero_run on a symbolic list *)
Lemma ip_string6 a : legacy a = false -> ip_string a = string6_of (bytesIPv6 a).
Proof.
  intros F. unfold ip_string, Bytes. rewrite F. cbn [negb].
  unfold stringIPv6, string6_of, Bytes. rewrite F. reflexivity.
Qed.

Lemma string6_shape p :
  exists s, string6_of p = Some s /\
    (s = joinv (hs_of p) \/
     exists A B, (length A + length B <= 6)%nat /\ hs_of p = A ++ repeat 0 (8 - length A - length B) ++ B /\
       s = joinv A ++ [c_colon; c_colon] ++ joinv B).
Proof.
  unfold string6_of.
  destruct (zero_run_facts (zflags p) eq_refl) as (e0 & e1 & Hz & [[-> ->] | (a & b & -> & -> & Hab & Hfl)]);
    rewrite Hz.
  - rewrite print6_plain, groups_text_hs. eexists. split; [reflexivity|]. left. reflexivity.
  - rewrite print6_ell, groups_text_hs, firstn_map, skipn_map by exact Hab.
    eexists. split; [reflexivity|]. right. exists (firstn a (hs_of p)), (skipn b (hs_of p)).
    rewrite firstn_length, skipn_length. change (length (hs_of p)) with 8%nat.
    replace (8 - Nat.min a 8 - (8 - b))%nat with (b - a)%nat by lia.
    rewrite slice_repeat by (try apply zflags_zero, Hfl; cbn [length hs_of map]; lia).
    repeat split. lia.
Qed.

Lemma string6_parse p : Forall isbyte p ->
  exists s, string6_of p = Some s /\ parseIPv6 s = Some (hs_of p) /\ first_sep s = c_colon.
Proof.
  intros HB. pose proof (hs_of_range p HB) as HR.
  destruct (string6_shape p) as (s & Hs & [-> | (A & B & Hl & E & ->)]);
    eexists; (split; [exact Hs|]).
  - split; [apply parseIPv6_plain; [reflexivity | assumption]|].
    unfold hs_of in *. cbn [map] in *. rewrite joinv_cons. cbn [map tailj]. apply first_sep_group. inversion HR; assumption.
  - rewrite E in HR. apply Forall_app in HR. destruct HR as [HA HR]. apply Forall_app in HR. destruct HR as [_ HB'].
    split; [rewrite parseIPv6_ell, E by (try assumption; lia); reflexivity|].
    destruct A as [|g [|g' r]]; [reflexivity | |]; rewrite joinv_cons; cbn [map tailj]; rewrite <- ?app_assoc;
      apply first_sep_group; inversion HA; assumption.
Qed.

(* the left side is what ParseIP returns (Addr.As16) *)
Lemma bytes_of_fields p : Forall isbyte p ->
  flat_map (fun h => [wconv 8 (wshr 32 h 8); wconv 8 h]) (hs_of p) =
  flat_map (fun k => [byte_nth p (2 * k); byte_nth p (2 * k + 1)]) [0; 1; 2; 3; 4; 5; 6; 7].
Proof.
  intros HB. unfold hs_of. rewrite flat_map_concat_map, map_map, <- flat_map_concat_map.
  apply flat_map_ext. intros t.
  destruct (hx_split _ _ (byte_nth_range p (2 * t) HB) (byte_nth_range p (2 * t + 1) HB))
    as [-> ->].
  reflexivity.
Qed.

Lemma string6_ParseIP p : length p = 16%nat -> Forall isbyte p ->
  exists s, string6_of p = Some s /\ ParseIP s = Some p.
Proof.
  intros HL HB. destruct (string6_parse p HB) as (s & Hs & Hp & Hf).
  exists s. split; [exact Hs|]. unfold ParseIP. rewrite Hf.
  change (c_colon =? c_dot) with false. change (c_colon =? c_colon) with true. cbn iota.
  rewrite Hp, bytes_of_fields by exact HB. f_equal.
  do 16 (destruct p as [|? p]; [discriminate|]). destruct p; [reflexivity | discriminate].
Qed.
