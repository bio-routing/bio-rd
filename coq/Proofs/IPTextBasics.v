(* C15 text proofs: one hextet and one octet, printed and read back (the hextet position by
   position, read_hex_step; the 256 octets and the 256 zero-flag patterns are checked by
   computation), and the byte decomposition / recomposition of the address words. *)
From Coq Require Import ZArith Lia Bool List.
From BioVerif Require Import Lib.Word Lib.WordLemmas Model.NetArith Model.IPText.
Import ListNotations.

Definition isbyte (b : Z) : Prop := 0 <= b < 256.
Definition inr16 (g : Z) : Prop := 0 <= g < 65536.

Definition is_hex (c : Z) : bool := match hexval c with Some _ => true | None => false end.

Lemma hexval_hexDigit d : 0 <= d < 16 -> hexval (hexDigit d) = Some d.
Proof.
  intros H. unfold hexval, hexDigit, c_0. destruct (Z.ltb_spec d 10).
  - rewrite (proj2 (Z.leb_le 48 (48 + d))), (proj2 (Z.leb_le (48 + d) 57)) by lia.
    cbn [andb]. f_equal. lia.
  - rewrite (proj2 (Z.leb_gt (87 + d) 57)), andb_false_r by lia.
    rewrite (proj2 (Z.leb_le 97 (87 + d))), (proj2 (Z.leb_le (87 + d) 102)) by lia.
    cbn [andb]. f_equal. lia.
Qed.

Definition hexstep (i j : Z) : str :=
  let v := wshr 32 i (j * 4) in if 0 <? v then [hexDigit (wand v 15)] else [].

Definition hexdigits (i : Z) : str := flat_map (hexstep i) [7; 6; 5; 4; 3; 2; 1; 0].

Lemma appendHex_hexdigits i : appendHex i = if i =? 0 then [c_0] else hexdigits i.
Proof. reflexivity. Qed.

Lemma hexstep_spec i j : 0 <= i < 2 ^ 32 -> 0 <= j ->
  hexstep i j = if 0 <? i / 16 ^ j then [hexDigit ((i / 16 ^ j) mod 16)] else [].
Proof.
  intros Hi Hj. unfold hexstep, wand. rewrite wshr_spec by lia.
  rewrite Z.mul_comm, Z.pow_mul_r by lia. change (2 ^ 4) with 16.
  change 15 with (2 ^ 4 - 1). rewrite land_ones_mod by lia. reflexivity.
Qed.

Lemma read_hex_step g j rest off : inr16 g -> 0 <= j -> 0 <= off <= 3 ->
  read_hex (hexstep g j ++ rest) off (g / 16 ^ (j + 1)) =
  read_hex rest (if 0 <? g / 16 ^ j then off + 1 else off) (g / 16 ^ j).
Proof.
  unfold inr16. intros Hg Hj Ho. rewrite hexstep_spec by lia.
  assert (P : 0 < 16 ^ j) by (apply Z.pow_pos_nonneg; lia).
  rewrite Z.add_1_r, Z.pow_succ_r, Z.mul_comm, <- Z.div_div by lia.
  assert (Q : 0 <= g / 16 ^ j <= g) by (split; [apply Z.div_pos | apply Z.div_le_upper_bound]; nia).
  revert Q. generalize (g / 16 ^ j). intros q Q.
  pose proof (Z.div_mod q 16 ltac:(lia)) as E. pose proof (Z.mod_pos_bound q 16 ltac:(lia)) as Hd.
  destruct (Z.ltb_spec 0 q) as [L | L].
  - cbn [app read_hex]. rewrite hexval_hexDigit by exact Hd.
    destruct (Z.ltb_spec 3 off); [lia|].
    rewrite wshl_small, wadd_small by lia. change (2 ^ 4) with 16.
    rewrite (Z.mul_comm _ 16), <- E.
    destruct (Z.ltb_spec 65535 q); [lia | reflexivity].
  - replace q with 0 by lia. reflexivity.
Qed.

Lemma hexstep_is_hex g j : inr16 g -> 0 <= j -> forallb is_hex (hexstep g j) = true.
Proof.
  unfold inr16. intros Hg Hj. rewrite hexstep_spec by lia. destruct (0 <? _); [|reflexivity].
  cbn [forallb]. unfold is_hex. rewrite hexval_hexDigit by (apply Z.mod_pos_bound; lia). reflexivity.
Qed.

Lemma appendHex_is_hex g : inr16 g -> forallb is_hex (appendHex g) = true.
Proof.
  intros Hg. rewrite appendHex_hexdigits. destruct (g =? 0); [reflexivity|].
  unfold hexdigits. cbn [flat_map]. rewrite !forallb_app, !hexstep_is_hex by (try exact Hg; lia). reflexivity.
Qed.

Lemma read_appendHex g : inr16 g ->
  exists o, 0 < o /\ read_hex (appendHex g) 0 0 = Some (g, o, []).
Proof.
  intros Hg. pose proof Hg as B. unfold inr16 in B.
  rewrite appendHex_hexdigits. destruct (Z.eqb_spec g 0) as [-> | N].
  { exists 1. split; [lia | reflexivity]. }
  unfold hexdigits. cbn [flat_map].
  rewrite (hexstep_spec g 7), (hexstep_spec g 6), (hexstep_spec g 5), (hexstep_spec g 4), !Z.div_small by lia.
  cbn [Z.ltb Z.compare app].
  assert (E : forall s, read_hex s 0 0 = read_hex s 0 (g / 16 ^ (3 + 1)))
    by (rewrite Z.div_small by lia; reflexivity).
  rewrite E, (read_hex_step g 3), (read_hex_step g 2), (read_hex_step g 1), (read_hex_step g 0)
    by (try exact Hg; repeat destruct (0 <? _); lia).
  rewrite Z.pow_0_r, Z.div_1_r. eexists. split; [|reflexivity].
  destruct (Z.ltb_spec 0 g); [|lia]. repeat destruct (0 <? _); lia.
Qed.

Lemma read_hex_app ds rest : forall off acc a o,
  read_hex ds off acc = Some (a, o, []) -> read_hex (ds ++ rest) off acc = read_hex rest o a.
Proof.
  induction ds as [|c ds IH]; intros off acc a o H.
  - injection H as <- <-. reflexivity.
  - cbn [app read_hex] in *. destruct (hexval c) as [d|]; [|discriminate].
    destruct (3 <? off); [discriminate|].
    destruct (65535 <? wadd 32 (wshl 32 acc 4) d); [discriminate|]. apply IH, H.
Qed.

Lemma read_hex_stop rest off acc :
  match rest with [] => True | c :: _ => hexval c = None end ->
  read_hex rest off acc = Some (acc, off, rest).
Proof. destruct rest as [|c r]; [reflexivity|]. intros H. cbn [read_hex]. rewrite H. reflexivity. Qed.

Lemma read_hex_group g rest :
  inr16 g ->
  match rest with [] => True | c :: _ => hexval c = None end ->
  exists o, read_hex (appendHex g ++ rest) 0 0 = Some (g, o, rest) /\ (o =? 0) = false.
Proof.
  intros Hg Hr. destruct (read_appendHex g Hg) as (o & Hpos & Ho).
  exists o. rewrite (read_hex_app _ _ _ _ _ _ Ho), read_hex_stop by exact Hr.
  split; [reflexivity | apply Z.eqb_neq; lia].
Qed.

Definition starts_hex (s : str) : Prop :=
  match s with c :: _ => is_hex c = true | [] => False end.

Lemma appendHex_head g : inr16 g -> starts_hex (appendHex g).
Proof.
  intros Hg. destruct (read_appendHex g Hg) as (o & Hpos & Ho).
  pose proof (appendHex_is_hex g Hg) as Hh.
  destruct (appendHex g) as [|c r].
  - injection Ho as _ <-. lia.
  - cbn [forallb] in Hh. apply andb_true_iff in Hh. apply Hh.
Qed.

(* 37 is '%' *)
Lemma first_sep_class (P : Z -> bool) ds rest :
  P c_dot = false -> P c_colon = false -> P 37 = false ->
  forallb P ds = true -> first_sep (ds ++ rest) = first_sep rest.
Proof.
  intros Hd Hc Hp. induction ds as [|c ds IH]; intros H; [reflexivity|].
  cbn [forallb] in H. apply andb_true_iff in H. destruct H as [Hx H].
  cbn [app first_sep].
  destruct (Z.eqb_spec c c_dot) as [-> | ]; [congruence|].
  destruct (Z.eqb_spec c c_colon) as [-> | ]; [congruence|].
  destruct (Z.eqb_spec c 37) as [-> | ]; [congruence | exact (IH H)].
Qed.

Lemma is_hex_not_sep c : is_hex c = true -> (c =? c_colon) = false /\ (c =? c_dot) = false.
Proof.
  unfold is_hex, hexval, c_colon, c_dot. intros H.
  destruct (Z.eqb_spec c 58) as [->|]; [cbn in H; discriminate|].
  destruct (Z.eqb_spec c 46) as [->|]; [cbn in H; discriminate|]. auto.
Qed.

(* the digit branch of parse4_loop alone, so that one printed octet can be pushed through
   parse4_loop in one step (parse4_digits) *)
Fixpoint digits_run (s : str) (val digLen : Z) : option (Z * Z) :=
  match s with
  | [] => Some (val, digLen)
  | c :: r =>
    if is_digit c then
      if (digLen =? 1) && (val =? 0) then None
      else let val' := val * 10 + (c - 48) in
           if 255 <? val' then None else digits_run r val' (digLen + 1)
    else None
  end.

Lemma last_indep (s : str) d d' : (0 < length s)%nat -> last s d = last s d'.
Proof.
  induction s as [|c [|x s] IH]; intros H; [cbn in H; lia | reflexivity | apply IH; cbn; lia].
Qed.

Lemma parse4_digits ds : forall r i len prev val pos digLen fields v' d',
  digits_run ds val digLen = Some (v', d') ->
  parse4_loop (ds ++ r) i len prev val pos digLen fields =
  parse4_loop r (i + Z.of_nat (length ds)) len (last ds prev) v' pos d' fields.
Proof.
  induction ds as [|c ds IH]; intros r i len prev val pos digLen fields v' d' H.
  - cbn in H. injection H as -> ->. cbn [app length last]. f_equal. lia.
  - cbn [digits_run] in H. cbn [app parse4_loop].
    destruct (is_digit c); [|discriminate].
    destruct ((digLen =? 1) && (val =? 0)); [discriminate|].
    destruct (255 <? val * 10 + (c - 48)); [discriminate|].
    rewrite (IH _ _ _ _ _ _ _ _ _ _ H). f_equal.
    + cbn [length]. lia.
    + destruct ds as [|x ds]; [reflexivity|].
      apply (last_indep (x :: ds)). cbn. lia.
Qed.

Definition octet_ok (o : Z) : bool :=
  let s := fmt_dec o in
  match digits_run s 0 0, Atoi s with
  | Some (v, d), Some v' => (v =? o) && (d =? Z.of_nat (length s)) && (0 <? d) && negb (last s (-1) =? c_dot)
                            && forallb is_digit s && (v' =? o)
  | _, _ => false
  end.

Lemma octet_all : forallb (fun i => octet_ok (Z.of_nat i)) (seq 0 256) = true.
Proof. vm_compute. reflexivity. Qed.

Lemma octet_facts o : 0 <= o < 256 ->
  digits_run (fmt_dec o) 0 0 = Some (o, Z.of_nat (length (fmt_dec o))) /\
  (0 < length (fmt_dec o))%nat /\ (last (fmt_dec o) (-1) =? c_dot) = false /\
  forallb is_digit (fmt_dec o) = true /\ Atoi (fmt_dec o) = Some o.
Proof.
  intros Ho. pose proof octet_all as H. rewrite forallb_forall in H.
  specialize (H (Z.to_nat o)). rewrite Z2Nat.id in H by lia.
  specialize (H ltac:(apply in_seq; lia)). unfold octet_ok in H.
  destruct (digits_run (fmt_dec o) 0 0) as [[v d]|], (Atoi (fmt_dec o)) as [v'|]; try discriminate.
  rewrite !andb_true_iff in H. destruct H as (((((Hv & Hd) & Hpos) & Hlast) & Hdig) & Hv').
  apply Z.eqb_eq in Hv, Hd, Hv'. apply Z.ltb_lt in Hpos. apply negb_true_iff in Hlast. subst.
  repeat split; auto; lia.
Qed.

Definition hx (b1 b0 : Z) : Z := wor (wshl 32 b1 8) b0.     (* (uint32(p[i])<<8)|uint32(p[i+1]) *)

Lemma hx_spec b1 b0 : isbyte b1 -> isbyte b0 -> hx b1 b0 = b1 * 256 + b0.
Proof.
  unfold isbyte. intros H1 H0. unfold hx, wor. rewrite wshl_small by lia.
  apply lor_mul_pow2_low; lia.
Qed.

Lemma hx_range b1 b0 : isbyte b1 -> isbyte b0 -> inr16 (hx b1 b0).
Proof. intros H1 H0. rewrite hx_spec by assumption. unfold isbyte, inr16 in *. lia. Qed.

Lemma hx_split b1 b0 : isbyte b1 -> isbyte b0 ->
  wconv 8 (wshr 32 (hx b1 b0) 8) = b1 /\ wconv 8 (hx b1 b0) = b0.
Proof.
  intros H1 H0. rewrite hx_spec by assumption. unfold isbyte in *. change 256 with (2 ^ 8). split.
  - rewrite wshr_spec by lia.
    replace ((b1 * 2 ^ 8 + b0) / 2 ^ 8) with b1 by (apply (Z.div_unique _ _ b1 b0); lia).
    apply wrap_small. lia.
  - unfold wconv. rewrite wrap_mod by lia. symmetry. apply (Z.mod_unique _ _ b1 b0); lia.
Qed.

Lemma isbyte_wconv8 z : isbyte (wconv 8 z).
Proof. apply (wrap_range 8). lia. Qed.

Lemma byte_nth_range p i : Forall isbyte p -> isbyte (byte_nth p i).
Proof.
  intros H. unfold byte_nth. destruct (Nat.lt_ge_cases (Z.to_nat i) (length p)) as [L | L].
  - rewrite Forall_forall in H. apply H. apply nth_In. exact L.
  - rewrite nth_overflow by lia. unfold isbyte. lia.
Qed.

Lemma u16_spec b i : Forall isbyte b -> u16 b i = byte_nth b i * 256 + byte_nth b (i + 1).
Proof.
  intros HB. pose proof (byte_nth_range b i HB) as H1. pose proof (byte_nth_range b (i + 1) HB) as H0.
  unfold isbyte in *. unfold u16. rewrite wshl_small, wadd_small by lia. reflexivity.
Qed.

(* (x & 0xFF<<k) >> k = (x >> k) & 0xFF *)
Lemma byte_at_spec x k : 0 <= k < 64 -> byte_at x k = (x / 2 ^ k) mod 256.
Proof.
  intros Hk. unfold byte_at, wand, wshr. destruct (Z.leb_spec 64 k); [lia|].
  rewrite <- Z.shiftl_mul_pow2, Z.shiftr_land, Z.shiftr_shiftl_l, Z.sub_diag, Z.shiftr_div_pow2 by lia.
  change (Z.shiftl 255 0) with (2 ^ 8 - 1). rewrite land_ones_mod by lia.
  apply wrap_small, Z.mod_pos_bound. lia.
Qed.

Lemma low_byte_spec x : wconv 8 (wand x 255) = x mod 256.
Proof.
  unfold wconv, wand. change 255 with (2 ^ 8 - 1). rewrite land_ones_mod by lia.
  apply wrap_small. apply Z.mod_pos_bound. lia.
Qed.

Lemma word32_of_bytes x :
  x mod 2 ^ 32 = (x / 2 ^ 24) mod 256 * 2 ^ 24 + (x / 2 ^ 16) mod 256 * 2 ^ 16
                 + (x / 2 ^ 8) mod 256 * 2 ^ 8 + x mod 256.
Proof.
  rewrite (mod_pow2_byte x 24 32), (mod_pow2_byte x 16 24), (mod_pow2_byte x 8 16) by lia.
  change (2 ^ 8) with 256. ring.
Qed.

Lemma blocks64_spec a b c d : inr16 a -> inr16 b -> inr16 c -> inr16 d ->
  blocks64 a b c d = a * 2 ^ 48 + b * 2 ^ 32 + c * 2 ^ 16 + d.
Proof.
  unfold inr16. intros Ha Hb Hc Hd. unfold blocks64. rewrite !wshl_small by lia.
  rewrite (wadd_small 64 (a * _)), (wadd_small 64 (_ + _) (c * _)), wadd_small by lia. reflexivity.
Qed.

Lemma bytesIPv6_bytes a : Forall isbyte (bytesIPv6 a).
Proof. unfold bytesIPv6. repeat (apply Forall_cons; [apply isbyte_wconv8|]). apply Forall_nil. Qed.

(* the word of eight bytes, most significant first *)
Definition word8 (b7 b6 b5 b4 b3 b2 b1 b0 : Z) : Z :=
  b7 * 2 ^ 56 + b6 * 2 ^ 48 + b5 * 2 ^ 40 + b4 * 2 ^ 32 + b3 * 2 ^ 24 + b2 * 2 ^ 16 + b1 * 2 ^ 8 + b0.

Lemma blocks_of_bytes b7 b6 b5 b4 b3 b2 b1 b0 :
  isbyte b7 -> isbyte b6 -> isbyte b5 -> isbyte b4 -> isbyte b3 -> isbyte b2 -> isbyte b1 -> isbyte b0 ->
  blocks64 (b7 * 256 + b6) (b5 * 256 + b4) (b3 * 256 + b2) (b1 * 256 + b0) = word8 b7 b6 b5 b4 b3 b2 b1 b0.
Proof.
  unfold isbyte, word8. intros.
  rewrite blocks64_spec by (unfold inr16; lia).
  lia.
Qed.

Lemma word8_of x : 0 <= x < 2 ^ 64 ->
  word8 (byte_at x 56) (byte_at x 48) (byte_at x 40) (byte_at x 32) (byte_at x 24) (byte_at x 16)
        (byte_at x 8) (wconv 8 (wand x 255)) = x.
Proof.
  intros Hx. rewrite !byte_at_spec, low_byte_spec by lia. unfold word8.
  symmetry. rewrite <- (Z.mod_small x (2 ^ 64)) at 1 by lia.
  rewrite (mod_pow2_byte x 56 64), (mod_pow2_byte x 48 56), (mod_pow2_byte x 40 48),
    (mod_pow2_byte x 32 40), (mod_pow2_byte x 24 32), (mod_pow2_byte x 16 24), (mod_pow2_byte x 8 16) by lia.
  change (2 ^ 8) with 256. ring.
Qed.

Lemma blocks_of_bytesIPv6 a : 0 <= hi a < 2 ^ 64 -> 0 <= lo a < 2 ^ 64 ->
  let p := bytesIPv6 a in
  IPv6FromBlocks (u16 p 0) (u16 p 2) (u16 p 4) (u16 p 6) (u16 p 8) (u16 p 10) (u16 p 12) (u16 p 14)
  = IPv6 (hi a) (lo a).
Proof.
  intros Hh Hl p. unfold IPv6FromBlocks. rewrite !u16_spec by apply bytesIPv6_bytes.
  rewrite !blocks_of_bytes by apply byte_nth_range, bytesIPv6_bytes.
  exact (f_equal2 IPv6 (word8_of (hi a) Hh) (word8_of (lo a) Hl)).
Qed.

Fixpoint all_bools (n : nat) : list (list bool) :=
  match n with
  | O => [[]]
  | S m => flat_map (fun l => [true :: l; false :: l]) (all_bools m)
  end.

Lemma in_all_bools (l : list bool) : In l (all_bools (length l)).
Proof.
  induction l as [|b l IH]; cbn [length all_bools]; [left; reflexivity|].
  apply in_flat_map. exists l. split; [exact IH|]. destruct b; cbn; auto.
Qed.

(* the zero run chosen by stringIPv6: none, or fields a .. b-1 (at least two), all of them zero *)
Definition zero_run_ok (z : list bool) : bool :=
  match zero_run z with
  | None => false
  | Some (e0, e1) =>
    ((e0 =? -1) && (e1 =? -1)) ||
    (let a := Z.to_nat (e0 / 2) in let b := Z.to_nat (e1 / 2) in
     (e0 =? 2 * Z.of_nat a) && (e1 =? 2 * Z.of_nat b) && (a + 2 <=? b)%nat && (b <=? 8)%nat &&
     forallb id (firstn (b - a) (skipn a z)))
  end.

Lemma zero_run_all : forallb zero_run_ok (all_bools 8) = true.
Proof. vm_compute. reflexivity. Qed.

Lemma zero_run_facts (z : list bool) : length z = 8%nat ->
  exists e0 e1, zero_run z = Some (e0, e1) /\
    ((e0 = -1 /\ e1 = -1) \/
     (exists a b : nat, e0 = 2 * Z.of_nat a /\ e1 = 2 * Z.of_nat b /\ (a + 2 <= b <= 8)%nat /\
        forallb id (firstn (b - a) (skipn a z)) = true)).
Proof.
  intros HL. pose proof zero_run_all as H. rewrite forallb_forall in H.
  specialize (H z). rewrite <- HL in H. specialize (H (in_all_bools z)).
  unfold zero_run_ok in H. destruct (zero_run z) as [[e0 e1]|]; [|discriminate].
  exists e0, e1. split; [reflexivity|].
  apply orb_true_iff in H. destruct H as [H | H].
  - apply andb_true_iff in H. destruct H as [H1 H2]. apply Z.eqb_eq in H1, H2. left. auto.
  - right. rewrite !andb_true_iff in H. destruct H as ((((E0 & E1) & Hab) & Hb) & Hz).
    apply Z.eqb_eq in E0, E1. apply Nat.leb_le in Hab, Hb. eauto 8.
Qed.
