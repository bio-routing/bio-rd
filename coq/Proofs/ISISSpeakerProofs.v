(* The wire-level speaker. A frame that does not decode changes nothing. What the speaker emits goes through
   C30's round trips and carries the C31/C32 state: the three-way TLV of a hello is the neighbor table's
   single neighbor, PSNPs and CSNPs are the SSN entries and the database, the own LSP lists the Up adjacencies.
   The verdict a receiver reaches on an emitted hello is [names]; the handshake closes over the wire by the chain
   [hello_decodes] -> [emitted_verdict] -> [ping]. *)
From Coq Require Import List Bool NArith ZArith Lia.
Import ListNotations.
From BioVerif Require Import Lib.KeyedTable Model.ISISSpeaker.
Module C := ISISCodec.
Module A := Adj.
Module L := LSDB.
From BioVerif Require Proofs.ISISCodecProofs Proofs.AdjProofs Proofs.LSDBProofs.
Module CS := ISISCodecSpec.
Module CP := ISISCodecProofs.

Definition cfg_ok (s : spk) : Prop := length (sp_sys s) = 6%nat.

Definition area_ok (s : spk) : Prop := N.of_nat (length (sp_area s)) + 1 < 256.

Definition id_ok (k : L.lspid) : Prop := L.sys k < 281474976710656 /\ L.pn k < 256 /\ L.num k < 256.

Definition info_ok (i : nbrinfo) : Prop := length (ni_sys i) = 6%nat /\ ni_ecid i < 4294967296.

(* [if_ok], [names] and [subs_of] take a speaker as first argument and do not use it *)
Definition if_ok (s : spk) (f : sif) : Prop :=
  if_addr f < 4294967296 /\
  (forall k nb i, p2p_neighbor f = Some (k, nb) -> info_lookup k (if_info f) = Some i -> info_ok i).

(* T names S on its interface ft: its single neighbor there is not Down and was learnt with S's
   system id and the circuit id of S's interface f *)
Definition names (T : spk) (ft : sif) (S : spk) (f : sif) : bool :=
  match p2p_neighbor ft with
  | Some (k, nb) =>
    match A.state nb, info_lookup k (if_info ft) with
    | A.Down, _ | _, None => false
    | _, Some i => (be_val (ni_sys i) =? be_val (sp_sys S)) && (N.of_nat (length (ni_sys i)) =? 6) &&
                   (u32 (ni_ecid i) =? u32 (if_index f))
    end
  | None => false
  end.

Definition link_compat (f g : sif) : Prop :=
  if_addr f < 4294967296 /\ if_addr g < 4294967296 /\
  pfx_contains (if_addr f) (if_plen f) (if_addr g) = true /\
  pfx_contains (if_addr g) (if_plen g) (if_addr f) = true.

Definition nbr_state (s : spk) (k : N) : option A.adj_state :=
  match sp_ifs s with
  | [f] => match A.lookup k (if_nbrs f) with Some nb => Some (A.state nb) | None => None end
  | _ => None
  end.

Definition hello_of_first (s : spk) : list N :=
  match sp_ifs s with f :: _ => hello_bytes s f | [] => [] end.

Definition subs_of (s : spk) (f : sif) (i : nbrinfo) : list C.subtlv :=
  [C.SIPv4 6 4 (if_addr f)] ++ map (fun a => C.SIPv4 8 4 a) (ni_addrs i) ++
  [C.SLinkLR 4 8 (u32 (if_index f)) (ni_ecid i)].

Definition extis_specs (s : spk) : list (list N * N * list C.subtlv) :=
  flat_map (fun f => map (fun ki => (ni_sys (snd ki) ++ [0], sp_metric s, subs_of s f (snd ki))) (up_nbrs f)) (sp_ifs s).

(* every TLV of the own LSP fits into its one-byte length (the code builds one TLV per kind) *)
Definition own_fits (s : spk) : Prop :=
  area_ok s /\
  Forall (fun f => if_addr f < 4294967296) (sp_ifs s) /\
  4 * N.of_nat (length (sp_ifs s)) < 256 /\
  N.of_nat (length (concat (map C.enc_extip
     (map (fun r => match r with (m, p, a) => C.mkExtIp m p a [] end)
          (map (fun f => (sp_metric s, if_plen f, base_addr (if_addr f) (if_plen f))) (filter if_up (sp_ifs s))))))) < 256 /\
  Forall (fun sp => match sp with (id, _, subs) =>
            CS.len_is id 7 /\ N.of_nat (length (concat (map C.enc_sub subs))) < 256 end) (extis_specs s) /\
  N.of_nat (length (concat (map C.enc_extisnbr
     (map (fun sp => match sp with (id, m, subs) => C.new_extis_nbr id m subs end) (extis_specs s))))) < 256 /\
  N.of_nat (length (sp_host s)) < 256.

(* the neighbors of the extended IS reachability TLV *)
Definition extis_nbrs (t : C.tlv) : list C.extisnbr := match t with C.TExtIS _ _ ns => ns | _ => [] end.

Theorem garbage_changes_nothing : forall s i src b,
  (forall p, C.decode b <> C.Ok p) -> step s (RecvPDU i src b) = (s, []).
Proof.
  intros s i src b H. unfold step, recv_pdu.
  destruct (nth_error (sp_ifs s) i) as [f |]; [| reflexivity].
  destruct (if_up f); [| reflexivity].
  destruct (C.decode b) as [p | | |] eqn:E; try reflexivity.
  exfalso. eapply H. reflexivity.
Qed.

(* by C30 a byte string that does not decode is an error of the decoder: never a panic, never a
   loop running out of fuel *)
Theorem undecodable_is_err : forall b, (forall p, C.decode b <> C.Ok p) -> C.decode b = C.Err.
Proof.
  intros b H. destruct (C.decode b) as [p | | |] eqn:E.
  - exfalso. eapply H. reflexivity.
  - reflexivity.
  - exfalso. exact (CP.no_panic b E).
  - exfalso. destruct (CP.fuel_suffices b (S (length b)) (Nat.lt_succ_diag_r _)) as [_ Hn]. exact (Hn E).
Qed.

(* a PDU of a type packet.Decode has no case for decodes to a bare header and is dropped as well *)
Theorem other_pdu_types_change_nothing : forall s i src b h,
  C.decode b = C.Ok (C.mkPacket h C.BNone) -> L.pending (sp_db s) = false ->
  step s (RecvPDU i src b) = (s, []).
Proof.
  intros s i src b h Hd Hp. unfold step, recv_pdu.
  destruct (nth_error (sp_ifs s) i) as [f |]; [| reflexivity].
  destruct (if_up f); [| reflexivity].
  rewrite Hd. cbn [C.p_body recv_body]. unfold service, sync_db. cbn [L.pending]. rewrite Hp. reflexivity.
Qed.

Lemma be_bytes_length : forall k v, length (be_bytes k v) = k.
Proof.
  induction k as [| k IH]; intros v; simpl; auto. rewrite app_length, IH. simpl. lia.
Qed.

Lemma id_bytes_length : forall k, length (id_bytes k) = 8%nat.
Proof. intros k. unfold id_bytes. rewrite app_length, be_bytes_length. reflexivity. Qed.

Lemma u16_lt : forall x, u16 x < 65536.
Proof. intros x. unfold u16. apply N.mod_lt. discriminate. Qed.
Lemma u32_lt : forall x, u32 x < 4294967296.
Proof. intros x. unfold u32. apply N.mod_lt. discriminate. Qed.
Lemma u16_u16 : forall x, u16 (u16 x) = u16 x.
Proof. intros x. unfold u16. apply N.mod_mod. discriminate. Qed.
Lemma u32_u32 : forall x, u32 (u32 x) = u32 x.
Proof. intros x. unfold u32. apply N.mod_mod. discriminate. Qed.

Lemma entry_of_wf : forall s kv, CS.wf_entry (entry_of s kv).
Proof.
  intros s kv. unfold CS.wf_entry, entry_of, CS.u16, CS.u32, CS.len_is.
  cbn [C.le_life C.le_id C.le_seq C.le_csum].
  split; [apply u16_lt |]. split; [apply id_bytes_length |]. split; [apply u32_lt |].
  destruct (pdu_lookup (fst kv) (sp_pdus s)); [apply u16_lt | reflexivity].
Qed.

Lemma entries_wf : forall s l, Forall CS.wf_entry (map (entry_of s) l).
Proof. intros s l. apply Forall_forall. intros e He. apply in_map_iff in He. destruct He as (kv & <- & _). apply entry_of_wf. Qed.

Lemma src_id_len : forall s, cfg_ok s -> CS.len_is (src_id s) 7.
Proof. intros s H. unfold CS.len_is, src_id. rewrite app_length, H. reflexivity. Qed.

Lemma psnps_out_spec : forall s, cfg_ok s ->
  psnps_out s =
  flat_map (fun p =>
    if if_up (snd p) then
      match psnps_for s (fst p) with C.Ok ps => map (fun x => (fst p, psnp_bytes x)) ps | _ => [] end
    else []) (indexed 0 (sp_ifs s)).
Proof. reflexivity. Qed.

Lemma be_val_app : forall l x, be_val (l ++ [x]) = be_val l * 256 + x mod 256.
Proof. intros l x. unfold be_val. rewrite fold_left_app. reflexivity. Qed.

Lemma be_val_be_bytes : forall k v, v < 256 ^ N.of_nat k -> be_val (be_bytes k v) = v.
Proof.
  induction k as [| k IH]; intros v Hv.
  - simpl in *. unfold be_val. simpl. lia.
  - cbn [be_bytes]. rewrite be_val_app. rewrite IH.
    + rewrite N.mod_mod by discriminate. rewrite N.mul_comm. symmetry. apply N.div_mod. discriminate.
    + rewrite Nat2N.inj_succ, N.pow_succ_r' in Hv. apply N.div_lt_upper_bound; [discriminate | exact Hv].
Qed.

Lemma id_roundtrip : forall k, id_ok k -> id_of_bytes (id_bytes k) = k.
Proof.
  intros [sy p n] (H1 & H2 & H3). cbn [L.sys L.pn L.num] in H1, H2, H3.
  unfold id_of_bytes, id_bytes. cbn [L.sys L.pn L.num].
  assert (Hl : length (be_bytes 6 sy) = 6%nat) by apply be_bytes_length.
  rewrite firstn_app, Hl, Nat.sub_diag, firstn_O, app_nil_r.
  rewrite firstn_all2 by lia.
  rewrite be_val_be_bytes by (cbn; exact H1).
  rewrite !app_nth2 by lia. rewrite Hl. cbn [Nat.sub nth].
  rewrite !N.mod_mod by discriminate. rewrite !N.mod_small by assumption. reflexivity.
Qed.

Lemma be_val_lt : forall l, be_val l < 256 ^ N.of_nat (length l).
Proof.
  induction l as [| x r IH] using rev_ind; [reflexivity |].
  rewrite be_val_app, app_length. cbn [length]. rewrite Nat.add_1_r, Nat2N.inj_succ, N.pow_succ_r'.
  pose proof (N.mod_lt x 256). lia.
Qed.

Lemma id_of_bytes_ok : forall b, (length b <= 8)%nat -> length (firstn 6 b) = 6%nat -> id_ok (id_of_bytes b).
Proof.
  intros b _ Hl. unfold id_ok, id_of_bytes. cbn [L.sys L.pn L.num]. repeat split; try (apply N.mod_lt; discriminate).
  pose proof (be_val_lt (firstn 6 b)) as H. rewrite Hl in H. exact H.
Qed.

Lemma threeway_wf : forall s f, if_ok s f -> CS.wf_tlv (threeway_tlv f).
Proof.
  intros s f [_ Hi]. unfold threeway_tlv. destruct (p2p_neighbor f) as [[k nb] |]; [| apply CP.new_p2padj_wf, u32_lt].
  specialize (Hi k nb). destruct (info_lookup k (if_info f)) as [i |], (A.state nb); try apply CP.new_p2padj_wf, u32_lt.
  all: destruct (Hi i eq_refl eq_refl) as [H1 H2]; split; [unfold CS.u8; cbn; lia |].
  all: split; [reflexivity |]; split; [apply u32_lt |]; right; repeat split; auto.
Qed.

Lemma area_tlv_wf : forall s, area_ok s -> CS.wf_tlv (C.new_area_tlv [sp_area s]).
Proof.
  intros s Ha. apply CP.new_area_wf. unfold area_ok in Ha. cbn [map concat]. rewrite app_nil_r. unfold C.enc_area. cbn [length]. lia.
Qed.

Lemma hello_wf : forall s f, cfg_ok s -> area_ok s -> if_ok s f -> CS.wf_hello (hello_of s f).
Proof.
  intros s f Hc Ha Hf.
  unfold CS.wf_hello, hello_of. cbn [C.hl_sys C.hl_hold C.hl_tlvs].
  split; [exact Hc |]. split; [apply u16_lt |].
  repeat apply Forall_cons; try apply Forall_nil.
  - eapply threeway_wf; eauto.
  - apply CP.new_proto_wf. cbn. lia.
  - apply CP.new_ipif_wf; [repeat constructor; exact (proj1 Hf) | cbn; lia].
  - apply area_tlv_wf, Ha.
Qed.

Lemma hello_decodes : forall s f, cfg_ok s -> area_ok s -> if_ok s f ->
  C.decode (hello_bytes s f) = C.Ok (C.mkPacket hdr_hello (C.BHello (CS.norm_hello (hello_of s f)))).
Proof.
  intros s f Hc Ha Hf. exact (CP.roundtrip llc hdr_hello (C.BHello (hello_of s f)) eq_refl eq_refl (hello_wf s f Hc Ha Hf)).
Qed.

Lemma hello_tlvs : forall s f,
  C.hl_tlvs (CS.norm_hello (hello_of s f)) =
  [threeway_tlv f; C.new_proto_tlv [204; 142]; C.new_ipif_tlv [if_addr f]; C.new_area_tlv [sp_area s]].
Proof.
  intros s f. cbn [CS.norm_hello hello_of C.hello_set_len C.hl_tlvs map]. f_equal.
  unfold threeway_tlv. destruct (p2p_neighbor f) as [[k nb] |]; [| reflexivity].
  destruct (A.state nb), (info_lookup k (if_info f)); reflexivity.
Qed.

Lemma extis_specs_eq : forall s,
  flat_map (fun f => map (fun ki => extis_of s f (snd ki)) (up_nbrs f)) (sp_ifs s) =
  map (fun sp => match sp with (id, m, subs) => C.new_extis_nbr id m subs end) (extis_specs s).
Proof.
  intros s. unfold extis_specs. induction (sp_ifs s) as [| f r IH]; [reflexivity |].
  cbn [flat_map]. rewrite map_app, IH. f_equal. rewrite map_map. reflexivity.
Qed.

Lemma subs_ok : forall s f i, Forall CP.sub_ok (subs_of s f i).
Proof.
  intros s f i. unfold subs_of. apply Forall_app. split; [repeat constructor |].
  apply Forall_app. split; [| repeat constructor].
  apply Forall_forall. intros x Hx. apply in_map_iff in Hx. destruct Hx as (a & <- & _). reflexivity.
Qed.

Lemma own_lsp_wf : forall s sq, own_fits s -> sq < 4294967296 -> CS.wf_lsp (own_lsp s sq).
Proof.
  intros s sq (Ha & Hadr & Hn & Hip & Hspec & Hist & Hh) Hsq.
  apply CP.sealed_lsp_wf; [reflexivity | apply id_bytes_length | exact Hsq |].
  cbn [C.ls_tlvs]. unfold own_lsp_tlvs. repeat apply Forall_cons; try apply Forall_nil.
  - apply area_tlv_wf, Ha.
  - apply CP.new_proto_wf. cbn. lia.
  - apply CP.new_ipif_wf.
    + apply Forall_map, Hadr.
    + rewrite map_length. exact Hn.
  - apply CP.new_extip_wf. exact Hip.
  - rewrite extis_specs_eq. apply CP.new_extis_specs_wf; [| exact Hist].
    apply Forall_forall. intros [[id m] subs] Hin. rewrite Forall_forall in Hspec. destruct (Hspec _ Hin) as [H1 H2].
    split; [exact H1 |]. split; [| exact H2].
    unfold extis_specs in Hin. apply in_flat_map in Hin. destruct Hin as (f & _ & Hin).
    apply in_map_iff in Hin. destruct Hin as (ki & Heq & _). injection Heq as _ _ <-. apply subs_ok.
  - apply CP.new_dynhost_wf. exact Hh.
Qed.

(* The own LSP as flooded decodes (C30 round trip) to itself, with the sequence number it was
   generated with, and its extended IS reachability TLV names exactly the Up adjacencies
   (neighbor system id ++ pseudonode 0), interface by interface. *)
Theorem own_lsp_roundtrip : forall s sq, own_fits s -> sq < 4294967296 ->
  C.decode (lsp_bytes (own_lsp s sq)) = C.Ok (C.mkPacket hdr_lsp (C.BLsp (CS.norm_lsp (own_lsp s sq)))) /\
  C.ls_seq (CS.norm_lsp (own_lsp s sq)) = sq /\
  C.ls_id (CS.norm_lsp (own_lsp s sq)) = id_bytes (L.local_id (sp_db s)) /\
  exists t, nth_error (own_lsp_tlvs s) 4 = Some t /\
    nth_error (C.ls_tlvs (CS.norm_lsp (own_lsp s sq))) 4 = Some (C.TUnknown 22 (C.tlv_len t) (C.tlv_value t)) /\
    map C.xn_id (extis_nbrs t) =
      flat_map (fun f => map (fun ki => ni_sys (snd ki) ++ [0]) (up_nbrs f)) (sp_ifs s).
Proof.
  intros s sq Hf Hsq. split.
  - unfold lsp_bytes. apply (CP.roundtrip llc hdr_lsp (C.BLsp (own_lsp s sq)) eq_refl eq_refl), own_lsp_wf; assumption.
  - split; [reflexivity |]. split; [reflexivity |].
    set (ns := flat_map (fun f => map (fun ki => extis_of s f (snd ki)) (up_nbrs f)) (sp_ifs s)).
    exists (C.new_extis_tlv ns). split; [reflexivity |]. split.
    + unfold CS.norm_lsp, own_lsp, C.lsp_set_checksum, C.lsp_update_length. cbn [C.ls_tlvs].
      unfold own_lsp_tlvs. cbn [map nth_error]. fold ns. rewrite CP.new_extis_tlv_eq. reflexivity.
    + rewrite CP.new_extis_tlv_eq. cbn [extis_nbrs]. subst ns. induction (sp_ifs s) as [| f r IH]; [reflexivity |].
      cbn [flat_map]. rewrite map_app, IH. f_equal. rewrite map_map.
      apply map_ext. intros ki. unfold extis_of. apply CP.new_extis_nbr_id.
Qed.

Lemma pdu_lookup_store : forall k v t, pdu_lookup k (pdu_store k v t) = Some v.
Proof.
  intros k v t. pose proof (get_put LSDBProofs.id_eqb_eq k k v t) as H.
  rewrite LSDBProofs.id_eqb_refl in H. exact H.
Qed.

(* serving an update request installs that LSP with the sequence number C32 prescribes *)
Theorem service_installs_own_lsp : forall s,
  L.pending (sp_db s) = true ->
  let sq := L.next_seq (L.counter (sp_db s)) in
  let s' := service s in
  pdu_lookup (L.local_id (sp_db s)) (sp_pdus s') = Some (own_lsp s sq) /\
  (exists e, L.lookup (L.local_id (sp_db s)) (L.db (sp_db s')) = Some e /\ L.seq e = sq /\ L.life e = L.default_lifetime) /\
  L.counter (sp_db s') = sq /\ L.pending (sp_db s') = false /\ sp_ifs s' = sp_ifs s.
Proof.
  intros s Hp sq s'. unfold s', service, sync_db. cbn [L.pending]. rewrite Hp.
  cbn [sp_pdus sp_db sp_ifs]. split.
  - unfold L.service. cbn [L.pending]. unfold L.regen. cbn [L.counter L.local_id L.own]. apply pdu_lookup_store.
  - unfold L.service. cbn [L.pending].
    set (d := L.mkS (db_ifs (sp_ifs s)) (L.own (sp_db s)) (L.db (sp_db s)) (L.counter (sp_db s)) false).
    destruct (LSDBProofs.regen_lookup_local d) as (e & He & Hs & Hl & _).
    split; [exists e; auto |]. split; [reflexivity |]. split; reflexivity.
Qed.

(* [names] is neighbor.p2pAdjTLVContainsSelf ([lists_me]) read on the three-way TLV of the hello *)
Lemma names_threeway : forall T ft S f,
  be_val (sp_sys S) <> 0 ->       (* a three-way TLV without neighbor fields reads as system id 0, circuit 0 *)
  exists l c nsys necid, threeway_tlv ft = C.TP2PAdj 240 l c (u32 (if_index ft)) nsys necid /\
    names T ft S f = (be_val nsys =? be_val (sp_sys S)) && (N.of_nat (length nsys) =? 6) && (u32 necid =? u32 (if_index f)).
Proof.
  intros T ft S f Hnz. unfold threeway_tlv, names.
  assert (Hz : (be_val C.zero6 =? be_val (sp_sys S)) = false) by (rewrite N.eqb_sym; apply N.eqb_neq, Hnz).
  destruct (p2p_neighbor ft) as [[k nb] |]; [destruct (A.state nb), (info_lookup k (if_info ft)) |];
    do 4 eexists; (split; [reflexivity |]); rewrite ?Hz; reflexivity.
Qed.

Lemma emitted_verdict : forall S f T ft, be_val (sp_sys S) <> 0 ->
  pfx_contains (if_addr f) (if_plen f) (if_addr ft) = true ->
  let h := CS.norm_hello (hello_of T ft) in
  hello_verdict S f h = (if names T ft S f then A.Lists else A.NotLists) /\
  info_of_hello h = mkInfo (sp_sys T) (u32 (if_index ft)) [u32 (if_addr ft)].
Proof.
  intros S f T ft Hnz Hp h.
  destruct (names_threeway T ft S f Hnz) as (l & c & nsys & necid & Et & ->).
  unfold hello_verdict, hello_valid, lists_me, info_of_hello, h. rewrite hello_tlvs, Et.
  cbn [first_tlv C.tlv_type N.eqb Pos.eqb negb orb andb is_empty existsb map
       C.new_proto_tlv C.new_ipif_tlv C.new_area_tlv].
  rewrite Hp, u32_u32. split; reflexivity.
Qed.

Lemma service_keeps : forall sy ar ho hd hi me ifs d p nw, exists d' p',
  service (mkSpk sy ar ho hd hi me ifs d p nw) = mkSpk sy ar ho hd hi me ifs d' p' nw.
Proof.
  intros. unfold service. cbn [sp_ifs sp_db]. destruct (L.pending _); eexists; eexists; reflexivity.
Qed.

Lemma recv_decoded : forall S i f src b p,
  nth_error (sp_ifs S) i = Some f -> if_up f = true -> C.decode b = C.Ok p ->
  recv_pdu S i src b = service (recv_body S i f src (C.p_body p)).
Proof. intros S i f src b p Hn Hu Hd. unfold recv_pdu. rewrite Hn, Hu, Hd. reflexivity. Qed.

Definition ready (S : spk) (f : sif) : Prop :=
  cfg_ok S /\ area_ok S /\ be_val (sp_sys S) <> 0 /\ sp_ifs S = [f] /\ if_up f = true /\
  if_addr f < 4294967296.

(* what f knows of the speaker T behind ft; the info is what T announces in its hellos ([emitted_verdict]) *)
Definition sees (f : sif) (m : N) (x : option A.adj_state) (T : spk) (ft : sif) : Prop :=
  match x with
  | None => if_nbrs f = []
  | Some st => exists to ch a, if_nbrs f = [(m, A.mkNbr st to ch)] /\
                 info_lookup m (if_info f) = Some (mkInfo (sp_sys T) (u32 (if_index ft)) a)
  end.

Definition link (x y : option A.adj_state) (S : spk) (f : sif) (mS : N) (T : spk) (ft : sif) (mT : N) : Prop :=
  ready S f /\ ready T ft /\
  pfx_contains (if_addr f) (if_plen f) (if_addr ft) = true /\
  pfx_contains (if_addr ft) (if_plen ft) (if_addr f) = true /\
  sees f mT x T ft /\ sees ft mS y S f.

Definition listed (y : option A.adj_state) : bool :=
  match y with Some A.Init | Some A.Up => true | _ => false end.

(* the times play no part in the state: hence the 0s *)
Definition after (x : option A.adj_state) (l : bool) : A.adj_state :=
  match x with None => A.Init | Some st => A.state (fst (A.hello_existing 0 (A.mkNbr st 0 0) 0 l)) end.

Lemma sees_names : forall T ft S f m y, ready T ft -> ready S f -> sees ft m y S f ->
  names T ft S f = listed y /\ if_ok T ft.
Proof.
  intros T ft S f m y (_ & _ & _ & _ & _ & Hr) (Hc & _) Hy. unfold names, if_ok, p2p_neighbor.
  destruct y as [st |]; cbn [sees] in Hy.
  - destruct Hy as (to & ch & a & -> & Hl). rewrite Hl. cbn [A.state ni_sys ni_ecid]. split.
    + destruct st; [| | reflexivity]; rewrite Hc, u32_u32, !N.eqb_refl; reflexivity.
    + split; [exact Hr |]. intros k nb i E. injection E as <- <-. rewrite Hl. intros E. injection E as <-.
      split; [exact Hc | apply u32_lt].
  - rewrite Hy. split; [reflexivity |]. split; [exact Hr | discriminate].
Qed.

(* One hello over a link: S is fed the hello BYTES T emits. By [emitted_verdict] the verdict is "T names S",
   which is [listed y]; by [recv_decoded] S's neighbor table makes the step of Model/Adj.v with it. The link
   comes back with the roles swapped, ready for the hello in the other direction. *)
Lemma ping : forall x y S f mS T ft mT, link x y S f mS T ft mT ->
  exists f', link y (Some (after x (listed y))) T ft mT (recv_pdu S 0 mT (hello_of_first T)) f' mS.
Proof.
  intros x y S f mS T ft mT (RS & RT & Hp & Hq & Hx & Hy).
  destruct (sees_names T ft S f mS y RT RS Hy) as [Hn Hok].
  pose proof RS as (Hc & Ha & Hnz & Hi & Hu & Hr). pose proof RT as (HcT & HaT & _ & Ht & _).
  destruct (emitted_verdict S f T ft Hnz Hp) as [Hv Hinfo].
  unfold hello_of_first. rewrite Ht.
  rewrite (recv_decoded S 0%nat f mT _ _ ltac:(rewrite Hi; reflexivity) Hu (hello_decodes T ft HcT HaT Hok)).
  cbn [C.p_body recv_body adj_hello]. unfold with_ifs_db. rewrite Hi, Hv, Hinfo, Hn. cbn [set_nth].
  edestruct service_keeps as (d & p & ->).
  eexists. split; [exact RT |]. split; [repeat split; assumption |].
  split; [exact Hq |]. split; [exact Hp |]. split; [exact Hy |].
  unfold sees. cbn [if_nbrs if_info]. destruct x as [st |]; cbn [sees] in Hx.
  - destruct Hx as (to & ch & a & -> & Hl).
    destruct (listed y); cbn [A.step A.lookup]; rewrite AdjProofs.on_hello_eq; unfold AdjProofs.heard;
      cbn [A.nbrs A.lookup A.update A.now fst]; rewrite !N.eqb_refl; destruct st; cbn; repeat eexists; exact Hl.
  - rewrite Hx. destruct (listed y); cbn; rewrite N.eqb_refl; repeat eexists.
Qed.

Lemma link_state : forall x st S f mS T ft mT, link x (Some st) S f mS T ft mT -> nbr_state T mS = Some st.
Proof.
  intros x st S f mS T ft mT (_ & (_ & _ & _ & Hi & _) & _ & _ & _ & to & ch & a & Hn & _).
  unfold nbr_state. rewrite Hi, Hn. cbn [A.lookup]. rewrite N.eqb_refl. reflexivity.
Qed.
