(* C14, configuration front end: the chains built by the loader have the documented semantics. *)
From Coq Require Import List NArith Bool.
Import ListNotations.
From BioVerif Require Import Model.Policy Model.PolicyConfig Spec.PolicyRef Spec.PolicyConfigSpec.
From BioVerif Require Import Proofs.PolicySim.
Local Open Scope N_scope.

Lemma map_opt_Forall2 {A B : Type} (f : A -> option B) l : forall l',
  map_opt f l = Some l' -> Forall2 (fun x y => f x = Some y) l l'.
Proof.
  induction l as [| x l IH]; simpl; intros l' H.
  - inversion H. constructor.
  - destruct (f x) as [y |] eqn:Ex; [| discriminate]. destruct (map_opt f l) as [ys |]; [| discriminate].
    inversion H. constructor; auto.
Qed.

Lemma existsb_Forall2 {A B : Type} (R : A -> B -> Prop) f g l l' :
  Forall2 R l l' -> (forall x y, R x y -> f x = g y) -> existsb f l = existsb g l'.
Proof. intros F H. induction F as [| x y l l' Hxy F IH]; simpl; [reflexivity |]. rewrite (H x y Hxy), IH. reflexivity. Qed.

Lemma seq_ref_Forall2 {X Y : Type} (R : X -> Y -> Prop) g h l l' :
  Forall2 R l l' -> (forall x y, R x y -> forall a, g x a = h y a) -> forall a, seq_ref g l a = seq_ref h l' a.
Proof.
  intros F H. induction F as [| x y l l' Hxy F IH]; intros a; cbn [seq_ref]; [reflexivity |].
  rewrite (H x y Hxy). destruct (h y a) as [a' v]. destruct v; auto.
Qed.

Lemma seq_ref_app {X : Type} (step : X -> path -> path * verdict) l1 l2 a :
  seq_ref step (l1 ++ l2) a =
  let (a1, v) := seq_ref step l1 a in match v with Continue => seq_ref step l2 a1 | _ => (a1, v) end.
Proof.
  revert a. induction l1 as [| x l1 IH]; simpl; intros a; [reflexivity |].
  destruct (step x a) as [a' v]. destruct v; auto.
Qed.

Lemma seq_ref_snoc {X : Type} (step : X -> path -> path * verdict) l x a :
  seq_ref step (l ++ [x]) a =
  let (a1, v) := seq_ref step l a in match v with Continue => step x a1 | _ => (a1, v) end.
Proof.
  rewrite seq_ref_app. destruct (seq_ref step l a) as [a1 []]; try reflexivity.
  simpl. destruct (step x a1) as [a' []]; reflexivity.
Qed.

(* appending one rewriting action to a list of actions that did not terminate *)
Lemma seq_ref_snoc_rewrite l x a a1 :
  seq_ref act_ref l a = (a1, Continue) -> snd (act_ref x a1) = Continue ->
  seq_ref act_ref (l ++ [x]) a = (fst (act_ref x a1), Continue).
Proof. intros H Hx. rewrite seq_ref_snoc, H, <- Hx. apply surjective_pairing. Qed.

(* k is the loader's branch for a configured option: it appends mk x, however it takes x apart *)
Lemma seq_ref_snoc_opt {X : Type} (o : option X) mk (k : X -> list action) l a :
  (forall x, k x = l ++ [mk x]) -> (forall x b, snd (act_ref (mk x) b) = Continue) ->
  seq_ref act_ref (match o with Some x => k x | None => l end) a =
  let (a1, v) := seq_ref act_ref l a in (match v with Continue => opt_act o mk a1 | _ => a1 end, v).
Proof.
  intros Hk Hmk. destruct o as [x |]; [rewrite Hk, seq_ref_snoc |];
    destruct (seq_ref act_ref l a) as [a1 []]; try reflexivity.
  rewrite <- (Hmk x a1). apply surjective_pairing.
Qed.

Lemma seq_ref_snoc_accept (b : bool) l a :
  seq_ref act_ref (if b then l ++ [AAccept] else l) a =
  let (a1, v) := seq_ref act_ref l a in (a1, match v with Continue => if b then Accepted else Continue | _ => v end).
Proof. destruct b; rewrite ?seq_ref_snoc; destruct (seq_ref act_ref l a) as [a1 []]; reflexivity. Qed.

(* the one condition that holds all route filters of a term *)
Lemma rfs_cond_ok env p a l rfs :
  Forall2 (fun x y => to_rf x = Some y) l rfs ->
  part (fun c => cond_ref env c p a) (if is_nil rfs then [] else [mkCond [] rfs [] [] []]) =
  is_nil l || existsb (crf_ref env p) l.
Proof.
  intros Erf.
  rewrite (existsb_Forall2 _ (crf_ref env p) (fun f => m_ref (rf_m f) (env (rf_pat f)) p) _ _ Erf).
  - destruct Erf as [| x f l fs]; [reflexivity |].
    cbn [is_nil part existsb orb]. unfold cond_ref. cbn [c_pls c_rfs c_cfs c_lcfs c_protos part].
    rewrite !andb_true_r, orb_false_r. reflexivity.
  - intros x f. unfold to_rf, crf_ref. destruct (negb (crf_ok x)); [discriminate |].
    destruct (crf_m x); [| discriminate]. intros E. inversion E. reflexivity.
Qed.

Lemma term_ok env p t tm a :
  to_term t = Some tm -> term_ref env p tm a = cterm_ref env p t a.
Proof.
  unfold to_term. destruct (map_opt to_rf (ct_rfs t)) as [rfs |] eqn:Erf; [| discriminate].
  pose proof (rfs_cond_ok env p a _ _ (map_opt_Forall2 _ _ _ Erf)) as Hc. cbv zeta. set (th := ct_then t).
  (* the evaluation of the action list is unrolled from the last append back to the first; what is
     left is decided by reject and accept alone: the rewriting actions in between run unless reject
     came first *)
  destruct (th_nh th) as [[nh |] |] eqn:Enh; [| discriminate |]; intros E; injection E as <-;
    unfold term_ref, cterm_ref; cbn [t_from t_then]; rewrite Hc;
    (destruct (is_nil (ct_rfs t) || existsb (crf_ref env p) (ct_rfs t)); [| reflexivity]);
    unfold then_ref; fold th; rewrite Enh, seq_ref_snoc_accept, ?seq_ref_snoc.
  all: rewrite (seq_ref_snoc_opt (th_pp th) (fun x => APrepend (fst x) (snd x))) by (intros []; reflexivity).
  all: rewrite (seq_ref_snoc_opt (th_med th) ASetMED), (seq_ref_snoc_opt (th_lp th) ASetLocalPref) by reflexivity.
  all: destruct (th_reject th); reflexivity.
Qed.

Lemma filter_ok env p : forall ts f a,
  map_opt to_term ts = Some f -> filter_ref env p f a = seq_ref (cterm_ref env p) ts a.
Proof.
  intros ts f a H. symmetry. apply (seq_ref_Forall2 _ _ _ _ _ (map_opt_Forall2 _ _ _ H)).
  intros t tm Et b. symmetry. apply term_ok, Et.
Qed.

Lemma get_filter_ok env p name : forall stmts fs f a,
  load_statements stmts = Some fs -> get_filter name fs = Some f ->
  filter_ref env p f a = cstmt_ref env p stmts name a.
Proof.
  unfold load_statements, cstmt_ref. intros stmts fs f a H. apply map_opt_Forall2 in H.
  induction H as [| s nf stmts fs Hs _ IH]; simpl; [discriminate |].
  destruct (to_filter s) as [fl |] eqn:Es; [| discriminate]. injection Hs as <-.
  destruct (cs_name s =? name); [| exact IH].
  intros G. injection G as <-. apply filter_ok, Es.
Qed.

Lemma build_chain_ok env p stmts fs : load_statements stmts = Some fs ->
  forall names c a, build_chain fs names = Some c ->
  chain_ref env c p a = policy_ref env stmts names p a.
Proof.
  intros L names c a B. unfold chain_ref, policy_ref.
  rewrite (seq_ref_Forall2 _ (cstmt_ref env p stmts) (filter_ref env p) _ _ (map_opt_Forall2 _ _ _ B)); [reflexivity |].
  intros n f G b. symmetry. apply (get_filter_ok env p n stmts fs f b L G).
Qed.

Theorem load_cfg_ok cf ci ce :
  load_cfg cf = Some (ci, ce) ->
  forall env p a,
    chain_ref env ci p a = policy_ref env (cfg_stmts cf) (import_names cf) p a /\
    chain_ref env ce p a = policy_ref env (cfg_stmts cf) (export_names cf) p a.
Proof.
  unfold load_cfg, import_names, export_names.
  destruct (load_statements (cfg_stmts cf)) as [fs |] eqn:L; [| discriminate].
  destruct (build_chain fs (cfg_gimport cf)) as [gi |] eqn:B1; [| discriminate].
  destruct (build_chain fs (cfg_gexport cf)) as [ge |] eqn:B2; [| discriminate].
  destruct (build_chain fs (cfg_nimport cf)) as [ni |] eqn:B3; [| discriminate].
  destruct (build_chain fs (cfg_nexport cf)) as [ne |] eqn:B4; [| discriminate].
  intros H env p a. inversion H. split.
  - destruct (is_nil (cfg_nimport cf)); apply (build_chain_ok env p _ fs L); assumption.
  - destruct (is_nil (cfg_nexport cf)); apply (build_chain_ok env p _ fs L); assumption.
Qed.

Theorem config_chain_semantics cf ci ce :
  load_cfg cf = Some (ci, ce) ->
  forall (imp : bool) env p st r v,
    let c := if imp then ci else ce in
    let names := if imp then import_names cf else export_names cf in
    chain_wfb env c = true -> prefix_wfb p = true -> path_wfb v = true -> nth_error st r = Some v ->
    exists st' r',
      process env c p st r = Ok (st', r', snd (policy_ref env (cfg_stmts cf) names p v)) /\
      nth_error st' r' = Some (fst (policy_ref env (cfg_stmts cf) names p v)) /\
      (length st <= r')%nat /\
      (forall k, (k < length st)%nat -> nth_error st' k = nth_error st k).
Proof.
  intros L imp env p st r v c names Wc Wp Wv Hn.
  destruct (load_cfg_ok cf ci ce L env p v) as [Hi He].
  destruct imp; subst c names; [rewrite <- Hi | rewrite <- He]; apply (process_ref_w _ PolicyBits.matcher_ok); assumption.
Qed.
