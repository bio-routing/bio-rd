(* C08: under the guards, every RemovePath / AddPath call of the Loc-RIB, every view change and every
   history keep "table of the prefix = export view of the paths the session has been told about". *)
From Coq Require Import List NArith Bool Lia Permutation.
Import ListNotations.
From BioVerif Require Import Lib.ListFacts Lib.KeyedTable Model.AdjRIBOut Model.LocView Spec.ExportViewSpec Proofs.AroIDsProofs Proofs.ExportViewA.

Local Open Scope N_scope.

Lemma mem_path_iff : forall p l, mem_path p l = true <-> In p l.
Proof. intros p l. unfold mem_path. destruct (in_dec path_eq_dec p l); split; auto; discriminate. Qed.

Lemma in_paths_diff : forall x a b, In x (paths_diff a b) <-> In x a /\ ~ In x b.
Proof.
  intros x a b. unfold paths_diff. rewrite filter_In, negb_true_iff, <- not_true_iff_false, mem_path_iff.
  reflexivity.
Qed.

Lemma paths_diff_nil : forall l, paths_diff l [] = l.
Proof. intros l. now apply filter_all. Qed.

Lemma change_ops_nil : forall (P : Type) l pfx, change_ops P [] l pfx = map (OAdd pfx) l.
Proof. intros. unfold change_ops. cbn [paths_diff filter map app]. now rewrite paths_diff_nil. Qed.

Definition paths_kept (a b : list path) : list path := filter (fun p => mem_path p b) a.

Lemma paths_diff_kept : forall a b, Permutation a (paths_diff a b ++ paths_kept a b).
Proof. intros a b. apply filter_split. Qed.

Lemma paths_kept_diff : forall a b, NoDup a -> NoDup b -> Permutation (paths_kept a b ++ paths_diff b a) b.
Proof.
  intros a b Na Nb.
  assert (K : forall x, In x (paths_kept a b) <-> In x a /\ In x b).
  { intros x. unfold paths_kept. now rewrite filter_In, mem_path_iff. }
  apply NoDup_Permutation; [apply NoDup_app|assumption|].
  - now apply NoDup_filter.
  - now apply NoDup_filter.
  - intros x Hx Hx'. apply K in Hx. apply in_paths_diff in Hx'. tauto.
  - intros x. rewrite in_app_iff, K, in_paths_diff. destruct (in_dec path_eq_dec x a); tauto.
Qed.

Lemma view_get_get : forall pfx (v : view), view_get pfx v = match get N.eqb pfx v with Some l => l | None => [] end.
Proof. induction v as [|[k m] v IH]; cbn [view_get get]; [reflexivity|]. now destruct (N.eqb k pfx). Qed.

Lemma view_get_set_same : forall pfx l v, view_get pfx (view_set pfx l v) = l.
Proof. intros. rewrite view_get_get. change (view_set pfx l v) with (put N.eqb pfx l v). now rewrite (get_put N.eqb_eq), N.eqb_refl. Qed.

Lemma view_get_set_other : forall pfx pfx' l v, pfx <> pfx' -> view_get pfx' (view_set pfx l v) = view_get pfx' v.
Proof.
  intros pfx pfx' l v NE. rewrite !view_get_get. change (view_set pfx l v) with (put N.eqb pfx l v).
  rewrite (get_put N.eqb_eq). now destruct (N.eqb_spec pfx pfx').
Qed.

Lemma view_get_in : forall pfx l (w : view), NoDup (map fst w) -> In (pfx, l) w -> view_get pfx w = l.
Proof. intros pfx l w ND HI. now rewrite view_get_get, (in_get N.eqb_eq pfx l w ND HI). Qed.

Lemma view_get_absent : forall pfx (w : view), ~ In pfx (map fst w) -> view_get pfx w = [].
Proof. intros pfx w H. now rewrite view_get_get, (notin_get_none N.eqb_eq pfx w H). Qed.

Lemma export_view_app : forall f s pfx W1 W2,
  export_view f s pfx (W1 ++ W2) = export_view f s pfx W1 ++ export_view f s pfx W2.
Proof. intros. unfold export_view. apply flat_map_app. Qed.

Lemma export_view_cons : forall f s pfx p W,
  export_view f s pfx (p :: W) = opt_list (export_with f s pfx p) ++ export_view f s pfx W.
Proof. reflexivity. Qed.

Lemma in_export_view : forall f s pfx l q,
  In q (export_view f s pfx l) <-> exists p, In p l /\ export_with f s pfx p = Some q.
Proof.
  intros f s pfx l q. unfold export_view. rewrite in_flat_map. split; intros [p [HP HO]]; exists p; split; auto.
  - destruct (export_with f s pfx p); [destruct HO as [->|[]]; reflexivity|destruct HO].
  - rewrite HO. now left.
Qed.

Lemma export_is_bgp : forall (f : N -> path -> option path) s pfx p q,
  (forall pf r b q', f pf (PBgp r b) = Some q' -> exists r' b', q' = PBgp r' b') ->
  export_with f s pfx p = Some q -> exists r' b', q = PBgp r' b'.
Proof.
  intros f s pfx p q T H. unfold export_with in H. destruct (redistribute s p) as [r b].
  destruct (should_propagate s (PBgp r b)); [|discriminate].
  destruct (rewrite s r b) as [b'|]; [|discriminate]. eapply T; eassumption.
Qed.

Lemma export_with_ext : forall (f g : N -> path -> option path) s pfx p,
  (forall pf q, f pf q = g pf q) -> export_with f s pfx p = export_with g s pfx p.
Proof.
  intros f g s pfx p E. unfold export_with. destruct (redistribute s p) as [r b].
  destruct (should_propagate s (PBgp r b)); [|reflexivity].
  destruct (rewrite s r b); [apply E|reflexivity].
Qed.

Lemma export_view_ext : forall (f g : N -> path -> option path) s pfx l,
  (forall pf q, f pf q = g pf q) -> export_view f s pfx l = export_view g s pfx l.
Proof.
  intros f g s pfx l E. unfold export_view. apply flat_map_ext. intros p.
  now rewrite (export_with_ext f g s pfx p E).
Qed.

Section Guarded.
  Variable P : Type.
  Variable apply : P -> N -> path -> option path.
  Variable s : sess.
  Variable c : P.

  Notation f := (apply c).
  Notation EV := (export_view f s).

  Record lguards (pfx : N) (l : list path) : Prop := mkLGuards {
    lg_bgp : forall p, In p l -> exists b, p = PBgp 0 b;
    lg_prop : s_addpath s = true -> forall p, In p l -> should_propagate s p = true;
    lg_apart : s_addpath s = true -> forall p1 p2 q1 q2, In p1 l -> In p2 l ->
               f pfx p1 = Some q1 -> f pfx p2 = Some q2 -> path_compare (strip q1) (strip q2) = true -> p1 = p2;
    lg_nodup : NoDup l;
    lg_best : s_addpath s = false -> (length l <= 1)%nat }.

  Lemma lguards_nil : forall pfx, lguards pfx [].
  Proof. intros pfx. constructor; try (intros; contradiction); [constructor|cbn; lia]. Qed.

  Lemma lguards_sub : forall pfx l l', lguards pfx l -> NoDup l' -> incl l' l -> lguards pfx l'.
  Proof.
    intros pfx l l' [A B C D E] ND Sub. constructor; [auto|auto| |exact ND|].
    - intros Hap p1 p2 q1 q2 H1 H2. apply (C Hap); auto.
    - intros Hbo. pose proof (NoDup_incl_length ND Sub). specialize (E Hbo). lia.
  Qed.

  Hypothesis Tr : forall r b b', rewrite s r b = Some b' -> b' = b.
  Hypothesis Fb : forall pfx r b q, f pfx (PBgp r b) = Some q -> exists r' b', q = PBgp r' b'.

  Lemma export_transparent : forall pfx b q, export_with f s pfx (PBgp 0 b) = Some q ->
    should_propagate s (PBgp 0 b) = true /\ f pfx (PBgp 0 b) = Some q.
  Proof.
    intros pfx b q H. unfold export_with in H. cbn [redistribute] in H.
    destruct (should_propagate s (PBgp 0 b)); [|discriminate].
    destruct (rewrite s 0 b) as [b'|] eqn:R; [|discriminate]. now rewrite (Tr 0 b b' R) in H.
  Qed.

  Lemma view_remove : forall a pfx p W,
    good s c a -> lguards pfx (p :: W) -> table_is P s a pfx (EV pfx (p :: W)) ->
    table_is P s (fst (remove_path P apply s a pfx p)) pfx (EV pfx W).
  Proof.
    intros a pfx p W Gd G H.
    destruct (lg_bgp _ _ G p (or_introl eq_refl)) as [b ->].
    (* what the policy answers for p cannot be mistaken for the export of another path of the view *)
    assert (Alone : forall q x, f pfx (PBgp 0 b) = Some q -> In x (EV pfx W) ->
                    path_compare (norm s x) (norm s q) = false).
    { intros q x F Hx. apply in_export_view in Hx. destruct Hx as [p2 [HP2 EP2]].
      destruct (s_addpath s) eqn:Hap.
      2:{ pose proof (lg_best _ _ G Hap) as L. destruct W; [destruct HP2|cbn in L; lia]. }
      destruct (lg_bgp _ _ G p2 (or_intror HP2)) as [b2 ->]. apply export_transparent in EP2.
      apply not_true_is_false. intros C. unfold norm in C. rewrite Hap in C.
      pose proof (lg_nodup _ _ G) as ND. apply NoDup_cons_iff in ND.
      rewrite <- (lg_apart _ _ G Hap _ _ _ _ (or_intror HP2) (or_introl eq_refl) (proj2 EP2) F C) in ND. tauto. }
    rewrite export_view_cons in H. unfold remove_path. rewrite (good_cur P s c a Gd).
    destruct (export_with f s pfx (PBgp 0 b)) as [q|] eqn:EP; cbn [opt_list app] in H.
    - destruct (export_transparent pfx b q EP) as [-> F]. rewrite F.
      destruct (Fb _ _ _ _ F) as [rq [bq ->]]. apply table_remove; [exact H|].
      intros x Hx. now apply Alone.
    - destruct (should_propagate s (PBgp 0 b)); [|exact H].
      destruct (f pfx (PBgp 0 b)) as [q|] eqn:F; [|exact H].
      unfold table_is. rewrite remove_exported_absent; [exact H|].
      intros x Hx. apply (in_map (norm s)), (Permutation_in _ H), in_map_iff in Hx.
      destruct Hx as [y [<- Hy]]. now apply Alone.
  Qed.

  Lemma view_add : forall a pfx l W p,
    good s c a -> lguards pfx l -> In p l -> (s_addpath s = false -> W = []) -> table_is P s a pfx (EV pfx W) ->
    errs (add_path P apply s a pfx p) = errs a -> table_is P s (add_path P apply s a pfx p) pfx (EV pfx (W ++ [p])).
  Proof.
    intros a pfx l W p Gd G HP Best H HE.
    destruct (lg_bgp _ _ G p HP) as [b ->].
    rewrite export_view_app, export_view_cons. cbn [export_view flat_map].
    rewrite add_path_export, (good_cur P s c a Gd) in *. cbn [redistribute] in *.
    destruct (export_with f s pfx (PBgp 0 b)) as [q|] eqn:EP; cbn [opt_list app].
    - destruct (export_is_bgp f s pfx _ q Fb EP) as [rq [bq ->]]. apply table_add; try assumption; [exact (good_inv P s c a Gd)|].
      intros Hbo. now rewrite Best.
    - rewrite app_nil_r. destruct (should_propagate s (PBgp 0 b)) eqn:SP; [exact H|].
      destruct (s_addpath s) eqn:Hap; [|exact H]. rewrite (lg_prop _ _ G Hap _ HP) in SP. discriminate.
  Qed.

  Notation rm := (fun (pfx : N) (acc : aro P) (p : path) => fst (remove_path P apply s acc pfx p)).
  Notation ad := (fun (pfx : N) (acc : aro P) (p : path) => add_path P apply s acc pfx p).

  Lemma change_fold : forall old new pfx a,
    fold_left (step P apply s) (change_ops P old new pfx) a =
    fold_left (ad pfx) (paths_diff new old) (fold_left (rm pfx) (paths_diff old new) a).
  Proof.
    intros. unfold change_ops. rewrite fold_left_app, !fold_left_map. reflexivity.
  Qed.

  Lemma rm_prims : forall pfx l a, prims P s pfx a (fold_left (rm pfx) l a).
  Proof. intros. apply prims_fold. intros. apply remove_path_prims. Qed.

  Lemma ad_prims : forall pfx l a, prims P s pfx a (fold_left (ad pfx) l a).
  Proof. intros. apply prims_fold. intros. apply add_path_prims. Qed.

  Lemma view_remove_all : forall pfx R W a,
    good s c a -> lguards pfx (R ++ W) -> table_is P s a pfx (EV pfx (R ++ W)) ->
    table_is P s (fold_left (rm pfx) R a) pfx (EV pfx W).
  Proof.
    intros pfx R. induction R as [|p R IH]; intros W a Gd G H; cbn [fold_left app] in *; [exact H|].
    apply IH.
    - exact (prims_good P s c pfx a _ (remove_path_prims P apply s a pfx p) Gd).
    - apply (lguards_sub _ _ _ G); [exact (proj2 (proj1 (NoDup_cons_iff _ _) (lg_nodup _ _ G)))|apply incl_tl, incl_refl].
    - now apply view_remove.
  Qed.

  Lemma view_add_all : forall pfx l A W a,
    good s c a -> lguards pfx l -> incl A l -> (s_addpath s = false -> (length (W ++ A) <= 1)%nat) ->
    table_is P s a pfx (EV pfx W) -> errs (fold_left (ad pfx) A a) = errs a ->
    table_is P s (fold_left (ad pfx) A a) pfx (EV pfx (W ++ A)).
  Proof.
    intros pfx l A W a Gd G Sub Best H HE.
    apply (prims_fold_split P s c _ (ad pfx) A (fun done _ a' => table_is P s a' pfx (EV pfx (W ++ done)))); auto.
    - intros a' x. exists pfx. apply add_path_prims.
    - intros done x rest a' EA Gd' H' HE'. rewrite app_assoc. apply (view_add a' pfx l); try assumption.
      + apply Sub. rewrite EA. apply in_or_app. right. now left.
      + intros Hbo. specialize (Best Hbo). rewrite EA, !app_length in Best. cbn [length] in Best.
        destruct W, done; cbn [length] in Best; try lia. reflexivity.
    - now rewrite app_nil_r.
  Qed.

  Lemma change_ok : forall a pfx old new,
    good s c a -> lguards pfx old -> lguards pfx new -> table_is P s a pfx (EV pfx old) ->
    let a' := fold_left (step P apply s) (change_ops P old new pfx) a in
    errs a' = errs a -> good s c a' /\ table_is P s a' pfx (EV pfx new).
  Proof.
    intros a pfx old new Gd Go Gn H a' HE. subst a'. rewrite change_fold in *.
    set (a1 := fold_left (rm pfx) (paths_diff old new) a) in *.
    pose proof (rm_prims pfx (paths_diff old new) a) as P1. fold a1 in P1.
    pose proof (prims_errs _ _ _ _ _ P1). pose proof (prims_errs _ _ _ _ _ (ad_prims pfx (paths_diff new old) a1)).
    pose proof (paths_diff_kept old new) as PO.
    pose proof (paths_kept_diff old new (lg_nodup _ _ Go) (lg_nodup _ _ Gn)) as PN.
    pose proof (prims_good P s c pfx a a1 P1 Gd) as Gd1.
    split; [exact (prims_good P s c pfx a1 _ (ad_prims pfx _ a1) Gd1)|].
    apply (table_is_perm P s _ pfx _ _ (Permutation_flat_map _ PN)).
    apply (view_add_all pfx new (paths_diff new old) (paths_kept old new) a1); try assumption.
    - intros x Hx. apply in_paths_diff in Hx. tauto.
    - intros Hbo. rewrite (Permutation_length PN). exact (lg_best _ _ Gn Hbo).
    - apply view_remove_all; [exact Gd| |exact (table_is_perm P s a pfx _ _ (Permutation_flat_map _ PO) H)].
      apply (lguards_sub _ _ _ Go); [|intros x Hx; exact (Permutation_in _ (Permutation_sym PO) Hx)].
      exact (Permutation_NoDup PO (lg_nodup _ _ Go)).
    - lia.
  Qed.

  Variable h : list (N * list path).
  Hypothesis GL : forall pfx l, In (pfx, l) h -> lguards pfx l.

  Record feed_inv (st : view * aro P) : Prop := mkFeedInv {
    fi_good : good s c (snd st);
    fi_views : forall pfx, lguards pfx (view_get pfx (fst st));
    fi_view : ribout_is_export_view f s (fst st) (snd st)
  }.

  Lemma feed_inv_init : feed_inv ([], init P c).
  Proof.
    constructor; cbn [fst snd].
    - apply good_init.
    - intros pfx. apply lguards_nil.
    - intros pfx. cbn. constructor.
  Qed.

  Lemma feed_step_prims : forall v a pfx new,
    prims P s pfx a (snd (feed_step P apply s (v, a) (pfx, new))).
  Proof.
    intros. cbn [feed_step snd]. rewrite change_fold. eapply prims_trans; [apply rm_prims|apply ad_prims].
  Qed.

  Lemma feed_inv_step : forall st pfx new,
    feed_inv st -> In (pfx, new) h ->
    errs (snd (feed_step P apply s st (pfx, new))) = errs (snd st) ->
    feed_inv (feed_step P apply s st (pfx, new)).
  Proof.
    intros [v a] pfx new [Gd HV H] HN HE. cbn [fst snd] in *.
    pose proof (feed_step_prims v a pfx new) as Pr. cbn [feed_step fst snd] in *.
    destruct (change_ok a pfx (view_get pfx v) new Gd (HV pfx) (GL pfx new HN) (H pfx) HE) as [Gd' H'].
    constructor; cbn [fst snd]; [exact Gd'| |]; intros pfx'; destruct (N.eq_dec pfx pfx') as [<-|NE].
    - rewrite view_get_set_same. now apply GL.
    - rewrite view_get_set_other by assumption. apply HV.
    - now rewrite view_get_set_same.
    - rewrite view_get_set_other, (prims_other _ _ _ _ _ _ Pr) by assumption. apply H.
  Qed.

  Lemma errs_feed_step : forall st ch, errs (snd st) <= errs (snd (feed_step P apply s st ch)).
  Proof. intros [v a] [pfx new]. apply (prims_errs P s pfx), feed_step_prims. Qed.

  Lemma feed_inv_holds : errs (snd (feed P apply s c h)) = 0 -> feed_inv (feed P apply s c h).
  Proof.
    intros HE. unfold feed in *.
    apply (fold_split_inv _ _ (fun st => errs (snd st)) (feed_step P apply s) h (fun _ _ => feed_inv)
             errs_feed_step) with (done := []); [|reflexivity|apply feed_inv_init|exact HE].
    intros done [pfx new] rest st EH F HE'. apply feed_inv_step; [assumption| |assumption].
    rewrite EH. apply in_or_app. right. now left.
  Qed.
End Guarded.

(* only one view at a time is ever asked of g_apart: feed_inv_holds, over lguards, is the theorem with the
   hypotheses that are used *)
Lemma guards_local : forall (P : Type) (apply : P -> N -> path -> option path) s c h pfx l,
  guards (apply c) s h -> In (pfx, l) h -> lguards P apply s c pfx l.
Proof.
  intros P apply s c h pfx l G HI. destruct G. constructor; eauto.
Qed.

Lemma feed_inv_guards : forall (P : Type) (apply : P -> N -> path -> option path) s c h,
  guards (apply c) s h -> errs (snd (feed P apply s c h)) = 0 -> feed_inv P apply s c (feed P apply s c h).
Proof.
  intros P apply s c h G. apply (feed_inv_holds P apply s c (g_transparent _ s h G) (g_fbgp _ s h G) h).
  intros pfx l. now apply (guards_local P apply s c h).
Qed.

Theorem ribout_is_export_view_partial :
  forall (P : Type) (apply : P -> N -> path -> option path) (s : sess) (c : P) (h : list (N * list path)),
  guards (apply c) s h ->
  errs (snd (feed P apply s c h)) = 0 ->
  ribout_is_export_view (apply c) s (fst (feed P apply s c h)) (snd (feed P apply s c h)).
Proof. intros P apply s c h G HE. now apply (fi_view P apply s c), feed_inv_guards. Qed.
