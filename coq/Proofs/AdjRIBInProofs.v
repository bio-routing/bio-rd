(* C05 / C06: the Adj-RIB-In model against its specification.  Every operation but Flush (a fold of
   Withdraws) is brought into the form "change table, registrations or policy quietly, then deliver a
   list of calls" ([emits]); what it leaves untouched ([step_frame]), what each client then holds
   ([emits_get]), the log, and where a delivered path comes from are read off that list.
   C05: every client mirrors the contribution of the model's own table ([Mirrors]; with one path per
   slot it is the invariant [Inv]), and that table simulates the specification's list of announcements
   in force ([Sim]).  C06: every path handed over is justified ([Gd]): an operation hands over only paths
   of the contribution it leaves ([step_Gd]), which by the simulation is the specification's
   ([run_contribution]). *)
From Coq Require Import List NArith Bool Permutation Lia.
Import ListNotations.
From BioVerif Require Import Lib.ListFacts Model.AdjRIBIn Spec.AdjRIBInSpec.
Open Scope N_scope.

Lemma filter_sublist_NoDup : forall {A B} (f : A -> B) g l, NoDup (map f l) -> NoDup (map f (filter g l)).
Proof. exact NoDup_map_filter. Qed.

Lemma filter_map_snd : forall (h : pfx * path -> bool) (g : path -> bool) (t : list (pfx * path)),
  filter g (map snd (filter h t)) = map snd (filter (fun e => h e && g (snd e)) t).
Proof.
  induction t as [|e t IH]; simpl; [reflexivity|].
  destruct (h e); simpl; [destruct (g (snd e)); simpl; congruence | exact IH].
Qed.

Lemma list_eqb_eq : forall a b, list_eqb a b = true <-> a = b.
Proof. exact (list_eqb_by_eq N.eqb_eq). Qed.

Lemma pcmp_iff : forall a b, pcmp a b = true <-> pkey a = pkey b.
Proof.
  intros a b. unfold pcmp, pkey, set_hid, set_otc. destruct a, b; simpl.
  rewrite !andb_true_iff, !N.eqb_eq, !list_eqb_eq. split.
  - intros [[[[[[H1 H2] H3] H4] H5] H6] H7]. subst. reflexivity.
  - intro H. inversion H; subst. repeat split; reflexivity.
Qed.

Lemma pcmp_refl : forall a, pcmp a a = true.
Proof. intro a. apply pcmp_iff. reflexivity. Qed.

Lemma pcmp_false_iff : forall a b, pcmp a b = false <-> pkey a <> pkey b.
Proof.
  intros a b. rewrite <- pcmp_iff. destruct (pcmp a b); split; congruence.
Qed.

Lemma pcmp_peq : forall a b, pcmp a b = true -> peq a b = true.
Proof.
  intros a b H. apply pcmp_iff in H. change (peq (pkey a) (pkey b) = true). rewrite H.
  unfold peq. rewrite !N.eqb_refl, orb_true_r. reflexivity.
Qed.

Lemma peq_pid : forall a b, peq a b = true -> pid a = pid b.
Proof. intros a b H. unfold peq in H. rewrite !andb_true_iff, N.eqb_eq in H. apply H. Qed.

Lemma pkey_pid : forall q, pid (pkey q) = pid q.
Proof. destruct q; reflexivity. Qed.

Lemma pkey_eq_pid : forall a b, pkey a = pkey b -> pid a = pid b.
Proof. intros a b H. rewrite <- (pkey_pid a), H. apply pkey_pid. Qed.

Definition keys (t : list (pfx * path)) : list (pfx * path) := map ekey t.

(* the test by which RemovePath picks its victim *)
Lemma match_iff : forall (p : pfx) q (p' : pfx) q', ((p' =? p) && pcmp q' q = true) <-> ekey (p', q') = ekey (p, q).
Proof.
  intros. unfold ekey; simpl. rewrite andb_true_iff, N.eqb_eq, pcmp_iff. split.
  - intros [H1 H2]. congruence.
  - intro H. inversion H. split; congruence.
Qed.

Lemma keys_app : forall a b, keys (a ++ b) = keys a ++ keys b.
Proof. intros. apply map_app. Qed.

Lemma keys_nil : forall t, Permutation (keys t) [] -> t = [].
Proof. intros t H. apply Permutation_sym, Permutation_nil in H. destruct t; [reflexivity | discriminate]. Qed.

Lemma ct_remove_perm : forall p q t, In (ekey (p, q)) (keys t) ->
  Permutation (keys t) (ekey (p, q) :: keys (ct_remove p q t)).
Proof.
  induction t as [|[p' q'] r IH]; intro H; [contradiction|].
  cbn [ct_remove]. destruct ((p' =? p) && pcmp q' q) eqn:E.
  - apply match_iff in E. unfold keys. cbn [map]. rewrite E. apply Permutation_refl.
  - unfold keys in *. cbn [map] in *. destruct H as [H|H].
    + apply match_iff in H. congruence.
    + eapply perm_trans; [apply perm_skip, IH, H | apply perm_swap].
Qed.

Lemma ct_remove_subset : forall p q t e, In e (ct_remove p q t) -> In e t.
Proof.
  induction t as [|[p' q'] r IH]; simpl; intros e H; [contradiction|].
  destruct ((p' =? p) && pcmp q' q); [right; exact H|].
  destruct H as [H|H]; [left; exact H | right; apply IH, H].
Qed.

Lemma ct_replace_In : forall p o n t e, In e (ct_replace p o n t) -> e = (p, n) \/ In e t.
Proof.
  induction t as [|[p' q'] r IH]; simpl; intros e H; [contradiction|].
  destruct ((p' =? p) && peq q' o) eqn:E.
  - apply andb_true_iff in E. destruct E as [E _]. apply N.eqb_eq in E. subst p'.
    destruct H as [H|H]; [left; symmetry; exact H | right; right; exact H].
  - destruct H as [H|H]; [right; left; exact H|]. destruct (IH e H); auto.
Qed.

Definition remove_list (l : list (pfx * path)) (t : ctable) : ctable :=
  fold_left (fun acc e => ct_remove (fst e) (snd e) acc) l t.

Lemma remove_list_perm : forall l t r, Permutation (keys t) (keys l ++ r) ->
  Permutation (keys (remove_list l t)) r.
Proof.
  induction l as [|[p q] l IH]; simpl; intros t r H; [exact H|].
  apply IH. assert (Hin : In (ekey (p, q)) (keys t)).
  { eapply Permutation_in; [apply Permutation_sym, H | left; reflexivity]. }
  apply ct_remove_perm in Hin. eapply Permutation_cons_inv.
  eapply perm_trans; [apply Permutation_sym, Hin | exact H].
Qed.

Lemma remove_list_subset : forall l t e, In e (remove_list l t) -> In e t.
Proof.
  induction l as [|[p q] l IH]; simpl; intros t e H; [exact H|].
  apply IH in H. eapply ct_remove_subset, H.
Qed.

Lemma fold_ct_add : forall L t, fold_left (fun t e => ct_add (fst e) (snd e) t) L t = t ++ L.
Proof.
  induction L as [|[p q] L IH]; intro t; simpl; [symmetry; apply app_nil_r|].
  rewrite IH. unfold ct_add. rewrite <- app_assoc. reflexivity.
Qed.

Lemma ct_get_upd : forall c k f m, ct_get c (ct_upd k f m) = if k =? c then f (ct_get c m) else ct_get c m.
Proof.
  induction m as [|[k0 t] r IH]; simpl; [reflexivity|].
  destruct (k0 =? k) eqn:E; simpl.
  - apply N.eqb_eq in E. subst k0. destruct (k =? c); reflexivity.
  - rewrite IH. destruct (k0 =? c) eqn:E2; [|reflexivity]. destruct (k =? c) eqn:E3; [|reflexivity].
    apply N.eqb_eq in E2, E3. subst. rewrite N.eqb_refl in E. discriminate.
Qed.

(* Every call of the model hands a client the event it logs: the client and the change to its table
   can be read off the event. *)
Definition ev_client (e : event) : N :=
  match e with EvAdd c _ _ | EvDump c _ _ | EvRemove c _ _ | EvReplace c _ _ _ | EvEOR c => c end.
Definition ev_fun (e : event) : ctable -> ctable :=
  match e with
  | EvAdd _ p q | EvDump _ p q => ct_add p q
  | EvRemove _ p q => ct_remove p q
  | EvReplace _ p o n => ct_replace p o n
  | EvEOR _ => fun t => t
  end.
Definition emit (s : st) (e : event) : st := call (ev_client e) e (ev_fun e) s.
(* oldest first *)
Definition emits (l : list event) (s : st) : st := fold_left emit l s.
Definition maker (mk : N -> event) (f : ctable -> ctable) : Prop :=
  forall k, ev_client (mk k) = k /\ ev_fun (mk k) = f.

(* the part of the state that calls to clients never touch *)
Definition core_eq (s s' : st) : Prop :=
  sa s = sa s' /\ chain s = chain s' /\ tab s = tab s' /\ asns s = asns s' /\ cids s = cids s' /\ regs s = regs s'.

Lemma core_eq_refl : forall s, core_eq s s.
Proof. intro s. repeat split. Qed.
Lemma core_eq_sym : forall a b, core_eq a b -> core_eq b a.
Proof. unfold core_eq. intros a b H. intuition congruence. Qed.
Lemma core_eq_trans : forall a b c, core_eq a b -> core_eq b c -> core_eq a c.
Proof. unfold core_eq. intros a b c H1 H2. intuition congruence. Qed.

Lemma emits_app : forall l1 l2 s, emits (l1 ++ l2) s = emits l2 (emits l1 s).
Proof. intros. apply fold_left_app. Qed.

Lemma call_core : forall c e f s, core_eq s (call c e f s).
Proof. intros. repeat split. Qed.

Lemma emits_core : forall l s, core_eq s (emits l s).
Proof.
  induction l as [|e l IH]; intro s; [apply core_eq_refl|].
  eapply core_eq_trans; [apply call_core | apply (IH (emit s e))].
Qed.

Lemma emits_log : forall l s, log (emits l s) = rev l ++ log s.
Proof.
  induction l as [|e l IH]; intro s; [reflexivity|].
  cbn [emits fold_left rev]. fold (emits l (emit s e)). rewrite IH, <- app_assoc. reflexivity.
Qed.

Definition bag_after (c : N) (l : list event) (t : ctable) : ctable :=
  fold_left (fun t e => if ev_client e =? c then ev_fun e t else t) l t.

Lemma bag_after_cons : forall c e l t,
  bag_after c (e :: l) t = bag_after c l (if ev_client e =? c then ev_fun e t else t).
Proof. reflexivity. Qed.
Lemma bag_after_app : forall c l1 l2 t, bag_after c (l1 ++ l2) t = bag_after c l2 (bag_after c l1 t).
Proof. intros. apply fold_left_app. Qed.

Lemma emits_get : forall c l s, ct_get c (ctabs (emits l s)) = bag_after c l (ct_get c (ctabs s)).
Proof.
  induction l as [|e l IH]; intro s; [reflexivity|].
  rewrite bag_after_cons, <- ct_get_upd. apply (IH (emit s e)).
Qed.

Definition mem (c : N) (l : list N) : bool := existsb (N.eqb c) l.

Lemma mem_In : forall c l, mem c l = true <-> In c l.
Proof. exact (existsb_eqb_In N.eqb_eq). Qed.

Lemma mem_false_notin : forall c l, mem c l = false <-> ~ In c l.
Proof. intros. rewrite <- mem_In. destruct (mem c l); split; congruence. Qed.

Definition bcast (R : list N) (mk : N -> pfx -> path -> event) (L : list (pfx * path)) : list event :=
  flat_map (fun x => map (fun c => mk c (fst x) (snd x)) R) L.

Lemma bcast_Forall : forall (Q : event -> Prop) R mk L,
  (forall x, In x L -> forall k, Q (mk k (fst x) (snd x))) -> Forall Q (bcast R mk L).
Proof.
  intros Q R mk L H. apply Forall_flat_map, Forall_forall. intros x Hx. apply Forall_map, Forall_forall. intros k _. apply H, Hx.
Qed.

Lemma bag_to_all : forall c R mk f t, NoDup R -> maker mk f ->
  bag_after c (map mk R) t = if mem c R then f t else t.
Proof.
  intros c R mk f t HR H. revert t. induction HR as [|k R Hk HR IH]; intro t; [reflexivity|].
  cbn [map mem existsb]. fold (mem c R). destruct (H k) as [H1 H2]. rewrite bag_after_cons, IH, H1, H2, (N.eqb_sym c k).
  destruct (k =? c) eqn:E; [|reflexivity].
  apply N.eqb_eq in E. subst k. apply mem_false_notin in Hk. rewrite Hk. reflexivity.
Qed.

Lemma bag_flat_map : forall {X} c (b : bool) (ev : X -> list event) (f : X -> ctable -> ctable),
  (forall x t, bag_after c (ev x) t = if b then f x t else t) ->
  forall L t, bag_after c (flat_map ev L) t = if b then fold_left (fun t x => f x t) L t else t.
Proof.
  intros X c b ev f H. induction L as [|x L IH]; intro t; cbn [flat_map fold_left]; [destruct b; reflexivity|].
  rewrite bag_after_app, H, IH. destruct b; reflexivity.
Qed.

Lemma bag_bcast_remove : forall c R L t, NoDup R ->
  bag_after c (bcast R EvRemove L) t = if mem c R then remove_list L t else t.
Proof.
  intros c R L t HR. apply (bag_flat_map c _ _ (fun x => ct_remove (fst x) (snd x))).
  intros x t0. apply bag_to_all; [assumption | split; reflexivity].
Qed.

(* mk is EvAdd or EvDump *)
Lemma bag_bcast_add : forall c R mk L t, NoDup R -> (forall p q, maker (fun k => mk k p q) (ct_add p q)) ->
  bag_after c (bcast R mk L) t = if mem c R then t ++ L else t.
Proof.
  intros c R mk L t HR H. rewrite <- fold_ct_add. apply (bag_flat_map c _ _ (fun x => ct_add (fst x) (snd x))).
  intros x t0. apply bag_to_all; auto.
Qed.

Lemma NoDup_one : forall c : N, NoDup [c].
Proof. intro c. constructor; [intros [] | constructor]. Qed.
Lemma mem_one : forall c' c, mem c' [c] = (c' =? c).
Proof. intros. unfold mem. cbn. apply orb_false_r. Qed.
Lemma mem_app : forall c l l', mem c (l ++ l') = mem c l || mem c l'.
Proof. intros. apply existsb_app. Qed.

Lemma bcast_one : forall c mk L, bcast [c] mk L = map (fun x => mk c (fst x) (snd x)) L.
Proof. intros. induction L as [|x L IH]; [reflexivity|]. cbn. rewrite <- IH. reflexivity. Qed.

Lemma call_all_emits : forall mk f s, maker mk f -> call_all mk f s = emits (map mk (regs s)) s.
Proof.
  intros mk f s H. unfold call_all, emits. generalize (regs s) as R. intro R. revert s.
  induction R as [|c R IH]; intro s; [reflexivity|].
  cbn [map fold_left]. rewrite IH. f_equal. unfold emit. destruct (H c) as [-> ->]. reflexivity.
Qed.

Lemma call_all_core : forall mk f s, core_eq s (call_all mk f s).
Proof.
  intros mk f s. unfold call_all. generalize (regs s) as R. intro R. revert s.
  induction R as [|c R IH]; intro s; [apply core_eq_refl|].
  eapply core_eq_trans; [apply (call_core c (mk c) f) | apply IH].
Qed.

Lemma call_all_get : forall mk f s c, NoDup (regs s) ->
  ct_get c (ctabs (call_all mk f s)) = if mem c (regs s) then f (ct_get c (ctabs s)) else ct_get c (ctabs s).
Proof.
  intros mk f s c. unfold call_all. generalize (regs s) as R. intros R HR. revert s.
  induction HR as [|k R Hk HR IH]; intro s; [reflexivity|].
  cbn [fold_left mem existsb]. fold (mem c R). rewrite IH. cbn [call ctabs]. rewrite ct_get_upd, (N.eqb_sym c k).
  destruct (k =? c) eqn:E; [|reflexivity].
  apply N.eqb_eq in E. subst k. apply mem_false_notin in Hk. rewrite Hk. reflexivity.
Qed.

(* what a policy makes of one stored entry, and of a table *)
Definition img (ch : policy) (e : pfx * path) : list (pfx * path) :=
  if hid (snd e) =? 0 then
    match ch (fst e) (snd e) with Some q' => [(fst e, q')] | None => [] end
  else [].
Definition contrib (ch : policy) (t : list (pfx * path)) : list (pfx * path) := flat_map (img ch) t.

Lemma contrib_app : forall ch a b, contrib ch (a ++ b) = contrib ch a ++ contrib ch b.
Proof. intros. apply flat_map_app. Qed.

Lemma contrib_In : forall ch l x, In x (contrib ch l) ->
  exists q, In (fst x, q) l /\ hid q = 0 /\ ch (fst x) q = Some (snd x).
Proof.
  intros ch l x H. apply in_flat_map in H. destruct H as [[p q] [He Hx]]. unfold img in Hx. cbn [fst snd] in Hx.
  destruct (hid q =? 0) eqn:Eh; [|contradiction]. destruct (ch p q) eqn:Ec; [|contradiction].
  destruct Hx as [<-|[]]. exists q. apply N.eqb_eq in Eh. auto.
Qed.

(* The loops of the model that walk over stored entries have one shape: skip hidden entries, ask the
   policy, and for an accepted image do g - which is a call to each client of R. *)
Lemma policy_loop : forall R mk (g : st -> pfx -> path -> st) s0,
  (forall acc p q', core_eq s0 acc -> g acc p q' = emits (map (fun c => mk c p q') R) acc) ->
  forall l s, core_eq s0 s ->
  fold_left (fun acc e =>
      if negb (hid (snd e) =? 0) then acc else
      match chain acc (fst e) (snd e) with
      | None => acc
      | Some q' => g acc (fst e) q'
      end) l s
  = emits (bcast R mk (contrib (chain s0) l)) s.
Proof.
  intros R mk g s0 Hg. induction l as [|x l IH]; intros s Hs; [reflexivity|].
  cbn [fold_left contrib flat_map]. fold (contrib (chain s0) l).
  unfold bcast. rewrite flat_map_app. fold (bcast R mk (contrib (chain s0) l)). rewrite emits_app.
  assert (Ec : chain s = chain s0) by (symmetry; apply Hs). rewrite Ec. unfold img.
  destruct (hid (snd x) =? 0); cbn [negb]; [|apply IH, Hs].
  destruct (chain s0 (fst x) (snd x)) as [q'|]; [|apply IH, Hs].
  cbn [flat_map fst snd]. rewrite app_nil_r, <- Hg by exact Hs. apply IH.
  rewrite Hg by exact Hs. eapply core_eq_trans; [exact Hs | apply emits_core].
Qed.

Lemma notify_remove_emits : forall p removed s,
  notify_remove p removed s = emits (bcast (regs s) EvRemove (contrib (chain s) (map (pair p) removed))) s.
Proof.
  intros p removed s.
  rewrite <- (policy_loop (regs s) EvRemove (fun acc p q' => call_all (fun c => EvRemove c p q') (ct_remove p q') acc) s);
    [apply eq_sym, fold_left_map | | apply core_eq_refl].
  intros acc p0 q' Hc. rewrite call_all_emits by (split; reflexivity). replace (regs acc) with (regs s) by apply Hc. reflexivity.
Qed.

Definition tkey (ap : bool) (e : pfx * path) : N * N := (fst e, if ap then pid (snd e) else 0).
Definition in_slot (ap : bool) (p : pfx) (i : N) (e : pfx * path) : bool :=
  (fst e =? p) && (negb ap || (pid (snd e) =? i)).

Lemma in_slot_tkey : forall ap p i e, in_slot ap p i e = true <-> tkey ap e = (p, if ap then i else 0).
Proof.
  intros ap p i [p' q]. unfold in_slot, tkey; simpl. rewrite andb_true_iff, N.eqb_eq. destruct ap; simpl.
  - rewrite N.eqb_eq. split; [intros [? ?]; congruence | intro H; inversion H; auto].
  - split; [intros [? _]; congruence | intro H; inversion H; auto].
Qed.

Lemma in_slot_fst : forall ap p i e, in_slot ap p i e = true -> fst e = p.
Proof. intros ap p i e H. apply in_slot_tkey in H. apply (f_equal fst) in H. exact H. Qed.

Lemma rt_remove_all_skip : forall p L (e : pfx * path) t,
  (forall x, In x L -> (fst e =? p) && pcmp (snd e) x = false) ->
  rt_remove_all p L (e :: t) = e :: rt_remove_all p L t.
Proof.
  intros p L [p' q']. unfold rt_remove_all. induction L as [|x L IH]; intros t H; [reflexivity|].
  cbn [fold_left ct_remove]. cbn [fst snd] in H. rewrite (H x (or_introl eq_refl)).
  apply IH. intros y Hy. apply H. right. exact Hy.
Qed.

Lemma in_slot_closed : forall ap p i (e : pfx * path) x,
  (fst e =? p) && pcmp (snd e) x = true -> in_slot ap p i (p, x) = true -> in_slot ap p i e = true.
Proof.
  intros ap p i e x M H. apply andb_true_iff in M. destruct M as [M1 M2].
  apply pcmp_iff, pkey_eq_pid in M2. unfold in_slot in *. cbn [fst snd] in H. rewrite M1, M2.
  rewrite N.eqb_refl in H. exact H.
Qed.

(* removing the slot's paths one by one removes nothing else: an entry that Compares equal to one in the
   slot is in the slot (in_slot_closed) *)
Lemma slot_paths : forall (ap : bool) p i t,
  let g := in_slot ap p i in
  let old := if ap then filter (fun x => pid x =? i) (at_pfx p t) else at_pfx p t in
  map (pair p) old = filter g t /\ rt_remove_all p old t = filter (fun e => negb (g e)) t.
Proof.
  intros ap p i t g old.
  assert (E : old = map snd (filter g t)).
  { unfold old, g, at_pfx. destruct ap; [apply filter_map_snd|].
    f_equal. apply filter_ext. intro e. unfold in_slot. simpl. rewrite andb_true_r. reflexivity. }
  rewrite E. clear E old. induction t as [|[p' q] t [IH1 IH2]]; [split; reflexivity|].
  cbn [filter]. destruct (g (p', q)) eqn:G; cbn [negb map snd].
  - apply in_slot_fst in G as Ep. cbn [fst] in Ep. subst p'. split; [f_equal; exact IH1|].
    unfold rt_remove_all. cbn [fold_left ct_remove]. rewrite N.eqb_refl, pcmp_refl. exact IH2.
  - split; [exact IH1|]. rewrite rt_remove_all_skip; [f_equal; exact IH2|].
    intros x Hx. apply in_map_iff in Hx. destruct Hx as [[py y] [<- Hy]]. apply filter_In in Hy. destruct Hy as [_ Gy].
    destruct (_ && _) eqn:M; [|reflexivity]. apply in_slot_fst in Gy as Ey. cbn [fst snd] in *. subst py.
    unfold g in G. rewrite (in_slot_closed ap p i (p', q) y M Gy) in G. discriminate.
Qed.

Definition apx (s : st) : bool := addpath_rx (sa s).
Definition Kinv (s : st) : Prop := NoDup (map (tkey (apx s)) (tab s)).

Definition stored_form (s : st) (q : path) : path :=
  let hv := validate (sa s) (asns s) (cids s) q in
  let h := fst hv in
  let qv := snd hv in
  let ql := if (h =? 0) && negb (ibgp (sa s)) && (lpref qv =? 0) then set_lpref qv (deflp (sa s)) else qv in
  set_hid ql h.

Lemma validate_otc_pid : forall a q q', validate_otc a q = Some q' -> pid q' = pid q.
Proof.
  intros a q q' H. unfold validate_otc in H.
  repeat match type of H with
  | (if ?b then _ else _) = _ => destruct b
  end; inversion H; subst; reflexivity.
Qed.

Lemma validate_pid : forall a r1 r2 q, pid (snd (validate a r1 r2 q)) = pid q.
Proof.
  intros. unfold validate.
  repeat match goal with
  | |- context [if ?b then _ else _] => destruct b; simpl; try reflexivity
  end.
  destruct (validate_otc a q) eqn:E; simpl; [eapply validate_otc_pid, E | reflexivity].
Qed.

Lemma stored_form_pid : forall s q, pid (stored_form s q) = pid q.
Proof.
  intros. unfold stored_form. cbv zeta.
  destruct (_ && _ && _); simpl; apply validate_pid.
Qed.

Lemma in_slot_stored : forall s p q, in_slot (apx s) p (pid q) (p, stored_form s q) = true.
Proof. intros. apply in_slot_tkey. unfold tkey. cbn [fst snd]. rewrite stored_form_pid. reflexivity. Qed.

Definition in_wslot (s : st) (p : pfx) (oid : option N) : pfx * path -> bool :=
  match oid with Some i => in_slot (apx s) p i | None => in_slot false p 0 end.

Lemma remove_path_emits : forall p oid s,
  let g := in_wslot s p oid in
  remove_path p oid s = emits (bcast (regs s) EvRemove (contrib (chain s) (filter g (tab s))))
                              (set_tab s (filter (fun e => negb (g e)) (tab s))).
Proof.
  intros p oid s g. unfold remove_path, g, in_wslot, apx.
  destruct oid as [i|].
  - destruct (slot_paths (addpath_rx (sa s)) p i (tab s)) as [E1 E2]. rewrite notify_remove_emits, E1, E2. reflexivity.
  - destruct (slot_paths false p 0 (tab s)) as [E1 E2]. rewrite notify_remove_emits, E1, E2. reflexivity.
Qed.

Lemma add_path_emits : forall p q s,
  let g := in_slot (apx s) p (pid q) in
  let qs := stored_form s q in
  add_path p q s = emits (bcast (regs s) EvRemove (contrib (chain s) (filter g (tab s))) ++
                          bcast (regs s) EvAdd (contrib (chain s) [(p, qs)]))
                         (set_tab s (filter (fun e => negb (g e)) (tab s) ++ [(p, qs)])).
Proof.
  intros p q s g qs. destruct (slot_paths (apx s) p (pid q) (tab s)) as [E1 E2]. unfold add_path. cbv zeta in *.
  fold (stored_form s q). fold qs. unfold apx in E1, E2.
  rewrite notify_remove_emits, E1, E2, emits_app.
  cbn [set_tab regs chain]. set (s1 := emits _ (set_tab s _)).
  unfold contrib. cbn [flat_map]. unfold img. cbn [fst snd].
  change (hid qs) with (fst (validate (sa s) (asns s) (cids s) q)).
  destruct (fst (validate (sa s) (asns s) (cids s) q) =? 0); cbn [negb]; [|reflexivity].
  destruct (chain s p qs) as [q'|]; [|reflexivity].
  rewrite call_all_emits by (split; reflexivity). replace (regs s1) with (regs s) by apply (emits_core _ (set_tab s _)).
  cbn. rewrite app_nil_r. reflexivity.
Qed.

Lemma set_regs_fields : forall s r, sa (set_regs s r) = sa s /\ chain (set_regs s r) = chain s /\
  tab (set_regs s r) = tab s /\ asns (set_regs s r) = asns s /\ cids (set_regs s r) = cids s /\
  regs (set_regs s r) = r /\ ctabs (set_regs s r) = ctabs s.
Proof. intros. repeat split. Qed.

Lemma register_emits : forall c s,
  register c s = emits (bcast [c] EvDump (contrib (chain s) (tab s)) ++ [EvEOR c])
                       (if mem c (regs s) then s else set_regs s (regs s ++ [c])).
Proof.
  intros c s. unfold register. fold (mem c (regs s)). set (s1 := if mem c (regs s) then s else _).
  replace (contrib (chain s) (tab s)) with (contrib (chain s1) (tab s1)) by (unfold s1; destruct (mem c (regs s)); reflexivity).
  rewrite emits_app. apply (f_equal (call c (EvEOR c) (fun t => t))).
  apply (policy_loop [c] EvDump (fun acc p q' => call c (EvDump c p q') (ct_add p q') acc) s1);
    [reflexivity | apply core_eq_refl].
Qed.

Lemma unregister_emits : forall c s,
  unregister c s =
  if mem c (regs s)
  then emits (bcast [c] EvRemove (contrib (chain s) (tab s))) (set_regs s (filter (fun k => negb (k =? c)) (regs s)))
  else s.
Proof.
  intros c s. unfold unregister. fold (mem c (regs s)). destruct (mem c (regs s)); cbn [negb]; [|reflexivity].
  apply (policy_loop [c] EvRemove (fun acc p q' => call c (EvRemove c p q') (ct_remove p q') acc)
           (set_regs s (filter (fun k => negb (k =? c)) (regs s))));
    [reflexivity | apply core_eq_refl].
Qed.

Definition rc_body (s : st) (c' : policy) (acc : st) (e : pfx * path) : st :=
  let p := fst e in let q := snd e in
  if negb (hid q =? 0) then acc else
  match chain s p q, c' p q with
  | None, None => acc
  | None, Some n => call_all (fun c => EvAdd c p n) (ct_add p n) acc
  | Some o, None => call_all (fun c => EvRemove c p o) (ct_remove p o) acc
  | Some o, Some n =>
      if negb (pcmp o n) then call_all (fun c => EvReplace c p o n) (ct_replace p o n) acc else acc
  end.

Lemma replace_chain_unfold : forall c' s, replace_chain c' s = set_chain (fold_left (rc_body s c') (tab s) s) c'.
Proof. reflexivity. Qed.

(* rc_body's case distinction as data: the events of the loop and what it does to a client's table are
   read off it (ev_fun (mk k) is the same for every k, rc_call_spec: mk 0 stands for any of them) *)
Definition rc_call (ch c' : policy) (e : pfx * path) : option (N -> event) :=
  let p := fst e in let q := snd e in
  if negb (hid q =? 0) then None else
  match ch p q, c' p q with
  | None, None => None
  | None, Some n => Some (fun c => EvAdd c p n)
  | Some o, None => Some (fun c => EvRemove c p o)
  | Some o, Some n => if negb (pcmp o n) then Some (fun c => EvReplace c p o n) else None
  end.
Definition rc_events (s : st) (c' : policy) (e : pfx * path) : list event :=
  match rc_call (chain s) c' e with Some mk => map mk (regs s) | None => [] end.
Definition rc_fun (ch c' : policy) (e : pfx * path) : ctable -> ctable :=
  match rc_call ch c' e with Some mk => ev_fun (mk 0) | None => fun t => t end.

Lemma rc_call_spec : forall ch c' e mk, rc_call ch c' e = Some mk ->
  maker mk (ev_fun (mk 0)) /\
  (forall k c p n, delivered (mk k) = Some (c, p, n) -> In (p, n) (img c' e)).
Proof.
  intros ch c' e mk. unfold rc_call, img. cbv zeta. destruct (hid (snd e) =? 0); [|discriminate]. cbn [negb].
  destruct (ch _ _) as [o|], (c' _ _) as [n|]; try destruct (negb (pcmp o n)); intros [= <-];
    (split; [split; reflexivity|]); intros k c p n' [= _ <- <-]; left; reflexivity.
Qed.

Lemma set_chain_emits : forall c l s, set_chain (emits l s) c = emits l (set_chain s c).
Proof. intros c. induction l as [|e l IH]; intro s; [reflexivity | apply (IH (emit s e))]. Qed.

Lemma rc_loop_emits : forall s c' l acc, core_eq s acc ->
  fold_left (rc_body s c') l acc = emits (flat_map (rc_events s c') l) acc.
Proof.
  intros s c'. induction l as [|e l IH]; intros acc Hc; [reflexivity|].
  cbn [fold_left flat_map]. rewrite emits_app.
  assert (E : rc_body s c' acc e = emits (rc_events s c' e) acc).
  { unfold rc_body, rc_events, rc_call. cbv zeta. replace (regs s) with (regs acc) by (symmetry; apply Hc).
    destruct (negb (hid (snd e) =? 0)); [reflexivity|].
    destruct (chain s (fst e) (snd e)) as [o|], (c' (fst e) (snd e)) as [n|]; try reflexivity;
      [destruct (negb (pcmp o n)); [|reflexivity]| |]; apply call_all_emits; split; reflexivity. }
  rewrite E. apply IH. eapply core_eq_trans; [exact Hc | apply emits_core].
Qed.

Lemma replace_chain_emits : forall c' s,
  replace_chain c' s = emits (flat_map (rc_events s c') (tab s)) (set_chain s c').
Proof.
  intros c' s. rewrite replace_chain_unfold, rc_loop_emits by apply core_eq_refl. apply set_chain_emits.
Qed.

Lemma remove_path_frame : forall p oid s,
  core_eq (remove_path p oid s) (set_tab s (filter (fun e => negb (in_wslot s p oid e)) (tab s))).
Proof. intros. rewrite remove_path_emits. apply core_eq_sym, emits_core. Qed.

Lemma flush_frame : forall s, core_eq (flush s) (set_tab s []).
Proof.
  intro s. unfold flush.
  (* every entry still in the table is among those still to be walked; withdrawing an entry's own
     slot removes it *)
  assert (H : forall l s, (forall e, In e (tab s) -> In e l) ->
            core_eq (fold_left (fun acc e => remove_path (fst e) (Some (pid (snd e))) acc) l s) (set_tab s [])).
  { induction l as [|x l IH]; intros s0 Hsub; cbn [fold_left].
    - destruct (tab s0) as [|e t] eqn:E; [|destruct (Hsub e (or_introl eq_refl))]. repeat split. exact E.
    - destruct (remove_path_frame (fst x) (Some (pid (snd x))) s0) as (E1&E2&E3&E4&E5&E6).
      eapply core_eq_trans; [apply IH | repeat split; assumption].
      intros e He. rewrite E3 in He. apply filter_In in He. destruct He as [He Hs].
      destruct (Hsub e He) as [<-|Hl]; [|exact Hl].
      cbn [in_wslot] in Hs. rewrite (proj2 (in_slot_tkey _ _ _ _) eq_refl) in Hs. discriminate. }
  apply H. auto.
Qed.

Definition tab_after (s : st) (o : op) : list (pfx * path) :=
  match o with
  | Announce p q => filter (fun e => negb (in_slot (apx s) p (pid q) e)) (tab s) ++ [(p, stored_form s q)]
  | Withdraw p i => filter (fun e => negb (in_slot (apx s) p i e)) (tab s)
  | WithdrawAll p => filter (fun e => negb (in_slot false p 0 e)) (tab s)
  | Flush => []
  | _ => tab s
  end.
Definition regs_step (r : list N) (o : op) : list N :=
  match o with
  | Register c => if existsb (N.eqb c) r then r else r ++ [c]
  | Unregister c => filter (fun k => negb (k =? c)) r
  | _ => r end.

Lemma step_frame : forall o s,
  sa (step s o) = sa s /\
  chain (step s o) = match o with ReplaceChain c' => c' | _ => chain s end /\
  tab (step s o) = tab_after s o /\
  asns (step s o) = match o with AddASN a => rc_add a (asns s) | DelASN a => rc_remove a (asns s) | _ => asns s end /\
  cids (step s o) = match o with AddCID a => rc_add a (cids s) | DelCID a => rc_remove a (cids s) | _ => cids s end /\
  regs (step s o) = regs_step (regs s) o.
Proof.
  pose proof (fun l s => core_eq_sym _ _ (emits_core l s)) as emits_frame.
  intros [p q|p i|p| |c|c|c'|a|a|a|a] s; cbn [step tab_after regs_step]; try (repeat split; fail).
  - rewrite add_path_emits. exact (emits_frame _ _).
  - exact (remove_path_frame p (Some i) s).
  - exact (remove_path_frame p None s).
  - exact (flush_frame s).
  - rewrite register_emits. fold (mem c (regs s)). destruct (mem c (regs s)); exact (emits_frame _ _).
  - rewrite unregister_emits. destruct (mem c (regs s)) eqn:Hm; [exact (emits_frame _ _)|].
    repeat split. symmetry. apply filter_all. intros k Hk. apply negb_true_iff, N.eqb_neq. intros ->.
    apply mem_false_notin in Hm. contradiction.
  - rewrite replace_chain_emits. exact (emits_frame _ _).
Qed.

Lemma step_sa : forall o s, sa (step s o) = sa s.
Proof. intros. apply step_frame. Qed.
Lemma step_chain : forall o s, chain (step s o) = match o with ReplaceChain c' => c' | _ => chain s end.
Proof. intros. apply step_frame. Qed.
Lemma step_tab : forall o s, tab (step s o) = tab_after s o.
Proof. intros. apply step_frame. Qed.
Lemma step_regs : forall o s, regs (step s o) = regs_step (regs s) o.
Proof. intros. apply step_frame. Qed.

Lemma Kinv_tab_after : forall o s, Kinv s -> NoDup (map (tkey (apx s)) (tab_after s o)).
Proof.
  intros o s HK. destruct o; cbn [tab_after]; try exact HK; try (apply NoDup_map_filter, HK); [|constructor].
  rewrite map_app. apply NoDup_snoc; [apply NoDup_map_filter, HK|].
  intro Hin. apply in_map_iff in Hin. destruct Hin as [e [Ek He]]. apply filter_In in He.
  destruct He as [_ Hs]. apply negb_true_iff in Hs. rewrite (proj2 (in_slot_tkey _ _ _ _)) in Hs; [discriminate|].
  rewrite Ek. apply in_slot_tkey, in_slot_stored.
Qed.

Lemma NoDup_regs_step : forall o r, NoDup r -> NoDup (regs_step r o).
Proof.
  intros o r H. destruct o; cbn [regs_step]; try exact H; [|apply NoDup_filter, H].
  fold (mem c r). destruct (mem c r) eqn:Hm; [exact H|]. apply NoDup_snoc; [exact H | apply mem_false_notin, Hm].
Qed.

Record Inv (s : st) : Prop := mkInv {
  inv_K : Kinv s;
  inv_R : NoDup (regs s);
  inv_C : forall c, In c (regs s) ->
          Permutation (keys (ct_get c (ctabs s))) (keys (contrib (chain s) (tab s)));
  inv_U : forall c, ~ In c (regs s) -> ct_get c (ctabs s) = []
}.

Definition Mirrors (s : st) : Prop :=
  forall c, Permutation (keys (ct_get c (ctabs s)))
                        (if mem c (regs s) then keys (contrib (chain s) (tab s)) else []).

Lemma Inv_Mirrors : forall s, Inv s <-> Kinv s /\ NoDup (regs s) /\ Mirrors s.
Proof.
  intro s. split.
  - intros [HK HR HC HU]. split; [exact HK|]. split; [exact HR|]. intro c. destruct (mem c (regs s)) eqn:Hm.
    + apply HC, mem_In, Hm.
    + rewrite (HU c) by (apply mem_false_notin, Hm). constructor.
  - intros (HK&HR&HM). constructor; [exact HK | exact HR | |]; intros c Hc; specialize (HM c).
    + apply mem_In in Hc. rewrite Hc in HM. exact HM.
    + apply mem_false_notin in Hc. rewrite Hc in HM. apply keys_nil, HM.
Qed.

Lemma contrib_partition : forall ch (g : pfx * path -> bool) t,
  Permutation (contrib ch t) (contrib ch (filter g t) ++ contrib ch (filter (fun e => negb (g e)) t)).
Proof.
  intros ch g t. unfold contrib. rewrite <- flat_map_app. apply Permutation_flat_map.
  eapply perm_trans; [apply (filter_split g)|apply Permutation_app_comm].
Qed.

Lemma drop_mirror : forall ch g t ct,
  Permutation (keys ct) (keys (contrib ch t)) ->
  Permutation (keys (remove_list (contrib ch (filter g t)) ct))
              (keys (contrib ch (filter (fun e => negb (g e)) t))).
Proof.
  intros ch g t ct H. apply remove_list_perm. rewrite <- keys_app.
  eapply perm_trans; [exact H|]. apply Permutation_map, contrib_partition.
Qed.

Lemma Mirrors_emits : forall l s,
  (forall c, Permutation (keys (bag_after c l (ct_get c (ctabs s))))
                         (if mem c (regs s) then keys (contrib (chain s) (tab s)) else [])) ->
  Mirrors (emits l s).
Proof. intros l s H c. destruct (emits_core l s) as (_&<-&<-&_&_&<-). rewrite emits_get. apply H. Qed.

Lemma Mirrors_remove_path : forall p oid s, NoDup (regs s) -> Mirrors s -> Mirrors (remove_path p oid s).
Proof.
  intros p oid s HR HM. rewrite remove_path_emits. apply Mirrors_emits. intro c. cbn [set_tab ctabs regs chain tab].
  rewrite bag_bcast_remove by exact HR.
  specialize (HM c). destruct (mem c (regs s)); [apply drop_mirror|]; exact HM.
Qed.

Lemma Mirrors_add_path : forall p q s, NoDup (regs s) -> Mirrors s -> Mirrors (add_path p q s).
Proof.
  intros p q s HR HM. rewrite add_path_emits. apply Mirrors_emits. intro c. cbn [set_tab ctabs regs chain tab].
  rewrite bag_after_app, bag_bcast_remove, (bag_bcast_add c _ EvAdd) by (exact HR || (split; reflexivity)).
  specialize (HM c). destruct (mem c (regs s)); [|exact HM].
  rewrite contrib_app, !keys_app. apply Permutation_app_tail, drop_mirror, HM.
Qed.

Lemma Mirrors_register : forall c s, mem c (regs s) = false -> Mirrors s -> Mirrors (register c s).
Proof.
  intros c s Hm HM. rewrite register_emits, Hm. apply Mirrors_emits. intro c'. cbn [set_regs ctabs regs chain tab].
  rewrite bag_after_app, (bag_bcast_add c' [c] EvDump), mem_app, mem_one by ((split; reflexivity) || apply NoDup_one).
  cbn.
  specialize (HM c'). destruct (c' =? c) eqn:E.
  - apply N.eqb_eq in E. subst c'. rewrite Hm in HM. apply keys_nil in HM.
    rewrite HM, N.eqb_refl, orb_true_r. apply Permutation_refl.
  - rewrite N.eqb_sym, E, orb_false_r. exact HM.
Qed.

Lemma mem_filter_neq : forall c k l, mem k (filter (fun x => negb (x =? c)) l) = mem k l && negb (k =? c).
Proof.
  induction l as [|a l IH]; simpl; [reflexivity|].
  destruct (a =? c) eqn:E; simpl.
  - rewrite IH. apply N.eqb_eq in E. subst a. destruct (k =? c) eqn:E2; simpl.
    + rewrite andb_false_r. reflexivity.
    + reflexivity.
  - rewrite IH. destruct (k =? a) eqn:E2; simpl; [|reflexivity].
    apply N.eqb_eq in E2. subst a. rewrite E. reflexivity.
Qed.

Lemma Mirrors_unregister : forall c s, Mirrors s -> Mirrors (unregister c s).
Proof.
  intros c s HM. rewrite unregister_emits. destruct (mem c (regs s)) eqn:Hm; [|exact HM].
  apply Mirrors_emits. intro c'. cbn [set_regs ctabs regs chain tab].
  rewrite bag_bcast_remove, mem_one, mem_filter_neq by apply NoDup_one.
  specialize (HM c'). destruct (c' =? c) eqn:E.
  - apply N.eqb_eq in E. subst c'. rewrite Hm in HM. rewrite andb_false_r.
    apply remove_list_perm. rewrite app_nil_r. exact HM.
  - rewrite andb_true_r. exact HM.
Qed.

Lemma ct_replace_perm : forall p o n t,
  (forall x, In x t -> fst x = p -> peq (snd x) o = true -> pcmp (snd x) o = true) ->
  In (ekey (p, o)) (keys t) ->
  Permutation (keys (ct_replace p o n t)) (ekey (p, n) :: keys (ct_remove p o t)).
Proof.
  induction t as [|[p' q'] r IH]; intros Hx Hin; [contradiction|].
  cbn [ct_replace ct_remove].
  destruct ((p' =? p) && peq q' o) eqn:E.
  - apply andb_true_iff in E. destruct E as [E1 E2]. apply N.eqb_eq in E1. subst p'.
    assert (Hc : pcmp q' o = true) by (apply (Hx (p, q')); [left; reflexivity | reflexivity | exact E2]).
    rewrite N.eqb_refl, Hc. apply Permutation_refl.
  - assert (E' : (p' =? p) && pcmp q' o = false).
    { destruct ((p' =? p) && pcmp q' o) eqn:E3; [|reflexivity].
      apply andb_true_iff in E3. destruct E3 as [E3 E4]. apply pcmp_peq in E4. rewrite E3, E4 in E. discriminate. }
    rewrite E'. unfold keys in *. cbn [map] in *. destruct Hin as [Hin|Hin].
    + apply match_iff in Hin. congruence.
    + eapply perm_trans; [apply perm_skip, IH|apply perm_swap].
      * intros x H1 H2 H3. apply Hx; [right; exact H1 | exact H2 | exact H3].
      * exact Hin.
Qed.

Lemma ekey_fst_pid : forall x y, ekey x = ekey y -> fst x = fst y /\ pid (snd x) = pid (snd y).
Proof.
  intros [a b] [c d] H. split; [exact (f_equal fst H) | exact (pkey_eq_pid b d (f_equal snd H))].
Qed.

(* ReplacePath looks for a path Equal to the old image; under id-preserving policies the only entry of
   that prefix and identifier a mirrored client can hold is the old image itself *)
Lemma unique_image : forall ap (ch c' : policy) T done p q o todo',
  NoDup (map (tkey ap) T) -> T = done ++ (p, q) :: todo' ->
  id_preserving ch -> id_preserving c' -> ch p q = Some o -> hid q = 0 ->
  forall x, In (ekey x) (keys (contrib c' done ++ contrib ch ((p, q) :: todo'))) ->
            fst x = p -> pid (snd x) = pid o -> ekey x = ekey (p, o).
Proof.
  intros ap ch c' T done p q o todo' Hnd HT Hid Hid' Hch Hh x Hin Hp Hpid.
  apply in_map_iff in Hin. destruct Hin as [y [Ey Hy]]. rewrite <- Ey.
  apply ekey_fst_pid in Ey. destruct Ey as [Ey1 Ey2].
  assert (Hsame : forall chx q0, id_preserving chx -> In (fst y, q0) T -> chx (fst y) q0 = Some (snd y) -> q0 = q).
  { intros chx q0 Hx H0 Hc. apply Hx in Hc. apply Hid in Hch as Ho.
    assert (E : (fst y, q0) = (p, q)); [|inversion E; reflexivity].
    apply (NoDup_map_inj_in (tkey ap) T); [exact Hnd | exact H0 | rewrite HT; apply in_or_app; right; left; reflexivity|].
    unfold tkey. cbn [fst snd]. rewrite Ey1, Hp. f_equal. destruct ap; congruence. }
  apply in_app_or in Hy. destruct Hy as [Hy|Hy]; apply contrib_In in Hy; destruct Hy as (q0&H0&_&Hc0).
  - exfalso. assert (q0 = q) by (apply (Hsame c'); [exact Hid' | rewrite HT; apply in_or_app; left; exact H0 | exact Hc0]).
    subst q0. rewrite Ey1, Hp in H0. apply NoDup_map_inv in Hnd. rewrite HT in Hnd.
    apply NoDup_remove_2 in Hnd. apply Hnd, in_or_app. left. exact H0.
  - assert (q0 = q) by (apply (Hsame ch); [exact Hid | rewrite HT; apply in_or_app; right; exact H0 | exact Hc0]).
    subst q0. rewrite Ey1, Hp, Hch in Hc0. destruct y as [py qy]. cbn [fst snd] in *. congruence.
Qed.

Lemma contrib_cons : forall ch e l, contrib ch (e :: l) = img ch e ++ contrib ch l.
Proof. reflexivity. Qed.
Lemma contrib_snoc : forall ch e l, contrib ch (l ++ [e]) = contrib ch l ++ img ch e.
Proof. intros. rewrite contrib_app. simpl. rewrite app_nil_r. reflexivity. Qed.

Lemma rc_events_bag : forall c s c' L t, NoDup (regs s) ->
  bag_after c (flat_map (rc_events s c') L) t =
  if mem c (regs s) then fold_left (fun t e => rc_fun (chain s) c' e t) L t else t.
Proof.
  intros c s c' L t HR. apply bag_flat_map. intros e t0. unfold rc_events, rc_fun.
  destruct (rc_call (chain s) c' e) as [mk|] eqn:E; [|destruct (mem c (regs s)); reflexivity].
  apply bag_to_all; [assumption | apply (rc_call_spec _ _ _ _ E)].
Qed.

(* the first hypothesis says that ReplacePath finds the old image *)
Lemma rc_fun_swap : forall ch c' (e : pfx * path) A B ct,
  (forall o x, hid (snd e) = 0 -> ch (fst e) (snd e) = Some o ->
     In x ct -> fst x = fst e -> peq (snd x) o = true -> pcmp (snd x) o = true) ->
  Permutation (keys ct) (keys (A ++ img ch e ++ B)) ->
  Permutation (keys (rc_fun ch c' e ct)) (keys (A ++ img c' e ++ B)).
Proof.
  intros ch c' [p q] A B ct Hu H. unfold rc_fun, rc_call, img, keys in *. cbn [fst snd] in *.
  destruct (hid q =? 0) eqn:Eh; cbn [negb]; [|exact H]. apply N.eqb_eq in Eh.
  rewrite !map_app in *.
  destruct (ch p q) as [o|]; cbn [map app] in *.
  - assert (Hin : In (ekey (p, o)) (keys ct)) by (eapply Permutation_in; [apply Permutation_sym, H | apply in_elt]).
    assert (Hr : Permutation (map ekey (ct_remove p o ct)) (map ekey A ++ map ekey B)).
    { apply (Permutation_cons_inv (a := ekey (p, o))).
      eapply perm_trans; [apply Permutation_sym, ct_remove_perm, Hin|]. eapply perm_trans; [exact H | apply Permutation_sym, Permutation_middle]. }
    destruct (c' p q) as [n|]; cbn [map app ev_fun]; [|exact Hr]. destruct (pcmp o n) eqn:Ec; cbn [negb ev_fun].
    + replace (ekey (p, n)) with (ekey (p, o)) by (apply match_iff; rewrite N.eqb_refl; exact Ec). exact H.
    + eapply perm_trans; [apply ct_replace_perm; [intros x Hx; apply (Hu o x Eh eq_refl Hx) | exact Hin]|].
      apply Permutation_cons_app, Hr.
  - destruct (c' p q) as [n|]; cbn [map app ev_fun]; [|exact H].
    unfold ct_add. rewrite map_app. eapply perm_trans; [apply Permutation_sym, Permutation_cons_append | apply Permutation_cons_app, H].
Qed.

Lemma replace_bag : forall ap (ch c' : policy) T, NoDup (map (tkey ap) T) -> id_preserving ch -> id_preserving c' ->
  forall todo done ct, T = done ++ todo ->
  Permutation (keys ct) (keys (contrib c' done ++ contrib ch todo)) ->
  Permutation (keys (fold_left (fun t e => rc_fun ch c' e t) todo ct)) (keys (contrib c' T)).
Proof.
  intros ap ch c' T HK Hid Hid'. induction todo as [|e todo IH]; intros done ct HT H.
  - rewrite HT. rewrite !app_nil_r in *. exact H.
  - cbn [fold_left].
    apply (IH (done ++ [e])); [rewrite <- app_assoc; exact HT|].
    rewrite contrib_snoc, <- app_assoc. rewrite contrib_cons in H.
    apply rc_fun_swap; [|exact H].
    intros o x Hh Eo Hx Hf Hq. apply pcmp_iff. destruct e as [p q]. cbn [fst snd] in *.
    assert (Ex : ekey x = ekey (p, o)); [|exact (f_equal snd Ex)].
    apply (unique_image ap ch c' T done p q o todo); try assumption.
    + eapply Permutation_in; [exact H|]. apply in_map, Hx.
    + apply peq_pid, Hq.
Qed.

Lemma replace_loop : forall s c', Kinv s -> NoDup (regs s) -> id_preserving (chain s) -> id_preserving c' ->
  forall todo done acc, tab s = done ++ todo -> core_eq s acc ->
  (forall c, In c (regs s) ->
     Permutation (keys (ct_get c (ctabs acc))) (keys (contrib c' done ++ contrib (chain s) todo))) ->
  (forall c, ~ In c (regs s) -> ct_get c (ctabs acc) = []) ->
  let acc' := fold_left (rc_body s c') todo acc in
  core_eq s acc' /\
  (forall c, In c (regs s) -> Permutation (keys (ct_get c (ctabs acc'))) (keys (contrib c' (tab s)))) /\
  (forall c, ~ In c (regs s) -> ct_get c (ctabs acc') = []).
Proof.
  intros s c' HK HR Hid Hid' todo done acc HT Hcore HC HU acc'. unfold acc'. rewrite rc_loop_emits by exact Hcore.
  split; [eapply core_eq_trans; [exact Hcore | apply emits_core]|].
  split; intros c Hc; rewrite emits_get, rc_events_bag by exact HR.
  - rewrite (proj2 (mem_In _ _) Hc). apply (replace_bag _ _ c' _ HK Hid Hid' todo done _ HT), HC, Hc.
  - rewrite (proj2 (mem_false_notin _ _) Hc). apply HU, Hc.
Qed.

Lemma Mirrors_replace_chain : forall c' s, Kinv s -> NoDup (regs s) -> id_preserving (chain s) -> id_preserving c' ->
  Mirrors s -> Mirrors (replace_chain c' s).
Proof.
  intros c' s HK HR Hid Hid' HM. rewrite replace_chain_emits. apply Mirrors_emits. intro c.
  cbn [set_chain ctabs regs chain tab]. specialize (HM c).
  rewrite rc_events_bag by exact HR. destruct (mem c (regs s)); [|exact HM].
  apply (replace_bag _ _ c' _ HK Hid Hid' (tab s) [] _ eq_refl), HM.
Qed.

Lemma wf_step : forall o s, Kinv s -> NoDup (regs s) -> Kinv (step s o) /\ NoDup (regs (step s o)).
Proof.
  intros o s HK HR.
  split; [unfold Kinv, apx; rewrite step_sa, step_tab; apply Kinv_tab_after, HK | rewrite step_regs; apply NoDup_regs_step, HR].
Qed.

Lemma Inv_step : forall o s, Inv s ->
  match o with
  | Register c => mem c (regs s) = false
  | ReplaceChain c' => id_preserving (chain s) /\ id_preserving c'
  | _ => True
  end -> Inv (step s o).
Proof.
  intros o s HI Hside. apply Inv_Mirrors in HI as (HK&HR&HM). apply Inv_Mirrors.
  destruct (wf_step o s HK HR) as [HK' HR']. split; [exact HK'|]. split; [exact HR'|]. clear HK' HR'.
  destruct o as [p q|p i|p| |c|c|c'|a|a|a|a]; cbn [step]; try exact HM.
  - apply Mirrors_add_path; assumption.
  - apply Mirrors_remove_path; assumption.
  - apply Mirrors_remove_path; assumption.
  - refine (proj2 (fold_left_invariant _ (fun s => NoDup (regs s) /\ Mirrors s) _ _ s (conj HR HM))).
    intros s0 x _ [H1 H2]. destruct (remove_path_frame (fst x) (Some (pid (snd x))) s0) as (_&_&_&_&_&E). rewrite E.
    split; [exact H1 | apply Mirrors_remove_path; assumption].
  - apply Mirrors_register; assumption.
  - apply Mirrors_unregister; assumption.
  - apply Mirrors_replace_chain; try assumption; apply Hside.
Qed.

Lemma Inv_init : forall a c, Inv (init a c).
Proof. intros. constructor; [constructor | constructor | intros c0 [] | reflexivity]. Qed.

Lemma Inv_steps : forall ops s, Inv s -> reg_once (regs s) ops = true -> replace_ok (chain s) ops ->
  Inv (fold_left step ops s).
Proof.
  induction ops as [|o ops IH]; intros s HI Hreg Hrep; simpl; [exact HI|].
  apply IH.
  - apply Inv_step; [exact HI|]. destruct o; try exact I.
    + simpl in Hreg. apply andb_true_iff in Hreg. apply negb_true_iff, Hreg.
    + split; apply Hrep.
  - rewrite step_regs. destruct o; simpl in *; try exact Hreg.
    apply andb_true_iff in Hreg. destruct Hreg as [Hm Hr]. apply negb_true_iff in Hm. rewrite Hm. exact Hr.
  - rewrite step_chain. destruct o; simpl in *; try exact Hrep. apply Hrep.
Qed.

Fixpoint cnt (v : N) (m : mset) : N :=
  match m with [] => 0 | x :: r => (if x =? v then 1 else 0) + cnt v r end.
Fixpoint rc_cnt (v : N) (r : refc) : N :=
  match r with [] => 0 | (k, n) :: r' => (if k =? v then n else 0) + rc_cnt v r' end.

Definition rc_pos (r : refc) : Prop := Forall (fun it => 0 < snd it) r.
Definition rc_rel (r : refc) (m : mset) : Prop := rc_pos r /\ forall v, rc_cnt v r = cnt v m.

Lemma ms_mem_cnt : forall v m, ms_mem v m = true <-> 0 < cnt v m.
Proof.
  induction m as [|x m IH]; simpl.
  - split; [discriminate | lia].
  - rewrite orb_true_iff, IH. rewrite (N.eqb_sym v x). destruct (x =? v).
    + split; intro H; [lia | left; reflexivity].
    + split; intro H; [destruct H as [H|H]; [discriminate | lia] | right; lia].
Qed.

Lemma rc_present_cnt : forall v r, rc_pos r -> (rc_present v r = true <-> 0 < rc_cnt v r).
Proof.
  induction r as [|[k n] r IH]; intro Hp; simpl.
  - split; [discriminate | lia].
  - inversion Hp as [|? ? Hk Hr]; subst. simpl in Hk. unfold rc_present in *. simpl.
    rewrite orb_true_iff, (IH Hr). destruct (k =? v).
    + split; intro H; [lia | left; reflexivity].
    + split; intro H; [destruct H as [H|H]; [discriminate | lia] | right; lia].
Qed.

Lemma rc_present_mem : forall r m v, rc_rel r m -> rc_present v r = ms_mem v m.
Proof.
  intros r m v [Hp Hc]. apply eq_true_iff_eq. rewrite rc_present_cnt by exact Hp. rewrite ms_mem_cnt, Hc. reflexivity.
Qed.

Lemma rc_add_spec : forall a r, rc_pos r ->
  rc_pos (rc_add a r) /\ forall v, rc_cnt v (rc_add a r) = (if a =? v then 1 else 0) + rc_cnt v r.
Proof.
  intros a r Hp. induction Hp as [|[k n] r Hk Hr [IH1 IH2]]; cbn [rc_add rc_cnt snd] in *.
  - split; [repeat constructor | intro v; lia].
  - destruct (k =? a) eqn:E; cbn [rc_cnt]; (split; [constructor; [cbn; lia | assumption]|]); intro v.
    + apply N.eqb_eq in E. subst k. destruct (a =? v); lia.
    + rewrite IH2. lia.
Qed.

Lemma rc_remove_spec : forall a r, rc_pos r ->
  rc_pos (rc_remove a r) /\ forall v, rc_cnt v (rc_remove a r) = rc_cnt v r - (if a =? v then 1 else 0).
Proof.
  intros a r Hp. induction Hp as [|[k n] r Hk Hr [IH1 IH2]]; cbn [rc_remove rc_cnt snd] in *.
  - split; [constructor | intro v; destruct (a =? v); reflexivity].
  - destruct (k =? a) eqn:E.
    + apply N.eqb_eq in E. subst k. destruct (n - 1 =? 0) eqn:E2.
      * apply N.eqb_eq in E2. split; [exact Hr|]. intro v. destruct (a =? v); lia.
      * apply N.eqb_neq in E2. split; [constructor; [cbn; lia | exact Hr]|]. intro v. cbn [rc_cnt]. destruct (a =? v); lia.
    + split; [constructor; assumption|]. intro v. cbn [rc_cnt]. rewrite IH2. destruct (k =? v) eqn:E3; [|reflexivity].
      apply N.eqb_eq in E3. subst k. rewrite (N.eqb_sym a v), E. lia.
Qed.

Lemma cnt_ms_remove : forall a v m, cnt v (ms_remove a m) = cnt v m - (if a =? v then 1 else 0).
Proof.
  intros a v. induction m as [|x m IH]; simpl; [destruct (a =? v); reflexivity|].
  destruct (x =? a) eqn:E.
  - apply N.eqb_eq in E. subst x. destruct (a =? v); lia.
  - simpl. rewrite IH. destruct (x =? v) eqn:E3; [|reflexivity].
    apply N.eqb_eq in E3. subst x. rewrite (N.eqb_sym a v), E. lia.
Qed.

Lemma rc_add_rel : forall a r m, rc_rel r m -> rc_rel (rc_add a r) (a :: m).
Proof.
  intros a r m [Hp Hc]. destruct (rc_add_spec a r Hp) as [H1 H2]. split; [exact H1|]. intro v. rewrite H2, Hc. reflexivity.
Qed.

Lemma rc_remove_rel : forall a r m, rc_rel r m -> rc_rel (rc_remove a r) (ms_remove a m).
Proof.
  intros a r m [Hp Hc]. destruct (rc_remove_spec a r Hp) as [H1 H2]. split; [exact H1|].
  intro v. rewrite H2, cnt_ms_remove, Hc. reflexivity.
Qed.

Lemma rc_rel_nil : rc_rel [] [].
Proof. split; [constructor | reflexivity]. Qed.

Definition lp_default (a : sattrs) (q : path) : path :=
  if negb (ibgp a) && (lpref q =? 0) then set_lpref q (deflp a) else q.

Lemma validate_spec : forall a r1 r2 las lcs q, rc_rel r1 las -> rc_rel r2 lcs ->
  (fst (validate a r1 r2 q) =? 0) = negb (ineligible a las lcs q) /\
  (ineligible a las lcs q = false -> set_hid (lp_default a (snd (validate a r1 r2 q))) 0 = normalize a q).
Proof.
  intros a r1 r2 las lcs q H1 H2.
  assert (E1 : existsb (fun x => rc_present x r1) (aspath q) = own_asn_in_path las q).
  { unfold own_asn_in_path. apply existsb_ext_in. intros x _. apply rc_present_mem, H1. }
  assert (E2 : existsb (fun x => rc_present x r2) (clist q) = own_cluster_in_list lcs q).
  { unfold own_cluster_in_list. apply existsb_ext_in. intros x _. apply rc_present_mem, H2. }
  unfold validate, ineligible. rewrite E1, E2.
  unfold own_originator, empty_aspath_on_ebgp, otc_check_fails, normalize, roles_negotiated, validate_otc, lp_default.
  destruct (negb (ibgp a) && is_nil (aspath q)) eqn:B1; simpl.
  { rewrite !orb_true_r. simpl. split; [reflexivity | discriminate]. }
  destruct (own_asn_in_path las q) eqn:B2; simpl; [split; [reflexivity | discriminate]|].
  destruct (origid q =? rid a) eqn:B3; simpl; [split; [reflexivity | discriminate]|].
  destruct (own_cluster_in_list lcs q) eqn:B4; simpl; [split; [reflexivity | discriminate]|].
  destruct (role_on a), (role_adv a); simpl; try (split; [reflexivity | intros _; reflexivity]).
  destruct (otc q =? 0) eqn:B5; simpl.
  - destruct (role_remote a =? 0), (role_remote a =? 4), (role_remote a =? 1); simpl;
      (split; [rewrite ?orb_false_r; reflexivity | intros _; reflexivity]).
  - rewrite !orb_false_r.
    destruct (role_remote a =? 3), (role_remote a =? 2), (role_remote a =? 4), (otc q =? peer_asn a); simpl;
      (split; [reflexivity | try discriminate; intros _; reflexivity]).
Qed.

(* An eligible announcement is stored by model and specification as the same path.  An ineligible one
   the specification keeps as received, the model with the hidden reason set: only prefix, the
   hidden / ok flag and the path identifier (all that slot selection reads) are related. *)
Definition entry_rel (e : pfx * path) (a : ann) : Prop :=
  fst e = a_pfx a /\ (hid (snd e) =? 0) = a_ok a /\ pid (snd e) = pid (a_path a) /\
  (a_ok a = true -> snd e = a_path a).

Record Sim (a0 : sattrs) (s : st) (sp : sstate) : Prop := mkSim {
  sim_sa : sa s = a0;
  sim_tab : Forall2 entry_rel (tab s) (s_anns sp);
  sim_as : rc_rel (asns s) (s_las sp);
  sim_cs : rc_rel (cids s) (s_lcs sp)
}.

Lemma normalize_pid : forall a q, pid (normalize a q) = pid q.
Proof.
  intros. unfold normalize. cbv zeta.
  destruct (roles_negotiated a && (otc q =? 0) && _); destruct (negb (ibgp a) && _); reflexivity.
Qed.

Lemma stored_form_spec : forall s las lcs q, rc_rel (asns s) las -> rc_rel (cids s) lcs ->
  (hid (stored_form s q) =? 0) = negb (ineligible (sa s) las lcs q) /\
  (ineligible (sa s) las lcs q = false -> stored_form s q = normalize (sa s) q).
Proof.
  intros s las lcs q H1 H2. destruct (validate_spec (sa s) (asns s) (cids s) las lcs q H1 H2) as [V1 V2].
  split; [exact V1|]. intro Hi. rewrite <- (V2 Hi). rewrite Hi in V1. unfold stored_form, lp_default. cbv zeta.
  rewrite V1. apply N.eqb_eq in V1. rewrite V1. reflexivity.
Qed.

Lemma in_slot_same_slot : forall ap p i e a, entry_rel e a -> in_slot ap p i e = same_slot ap p i a.
Proof. intros ap p i e a (H1&_&H3&_). unfold in_slot, same_slot. rewrite H1, H3. reflexivity. Qed.

Lemma Sim_step : forall a0 o s sp, Sim a0 s sp -> Sim a0 (step s o) (spec_step a0 sp o).
Proof.
  intros a0 o s sp [Hsa Htab Has Hcs].
  destruct (step_frame o s) as (E1&_&E2&E3&E4&_).
  constructor.
  - congruence.
  - rewrite E2. destruct o; simpl; try exact Htab; unfold apx; rewrite ?Hsa.
    + apply Forall2_app.
      * apply Forall2_filter; [|exact Htab]. intros x y Hxy. f_equal. apply in_slot_same_slot, Hxy.
      * constructor; [|constructor].
        destruct (stored_form_spec s (s_las sp) (s_lcs sp) q Has Hcs) as [V1 V2]. rewrite Hsa in V1, V2.
        unfold entry_rel. cbn [fst snd a_pfx a_path a_ok]. rewrite stored_form_pid. repeat split.
        -- exact V1.
        -- destruct (negb (ineligible a0 (s_las sp) (s_lcs sp) q)); [rewrite normalize_pid|]; reflexivity.
        -- intro Hok. rewrite Hok. apply V2, negb_true_iff, Hok.
    + apply Forall2_filter; [|exact Htab]. intros x y Hxy. f_equal. apply in_slot_same_slot, Hxy.
    + apply Forall2_filter; [|exact Htab]. intros x y (H1&_). cbv beta. f_equal. unfold in_slot. rewrite H1. apply andb_true_r.
    + constructor.
  - rewrite E3. destruct o; simpl; try exact Has; [apply rc_add_rel | apply rc_remove_rel]; exact Has.
  - rewrite E4. destruct o; simpl; try exact Hcs; [apply rc_add_rel | apply rc_remove_rel]; exact Hcs.
Qed.

Lemma contrib_contribution : forall ch t anns, Forall2 entry_rel t anns -> contrib ch t = contribution ch anns.
Proof.
  intros ch t anns H. induction H as [|e a t anns (H1&H2&H3&H4) HF IH]; simpl; [reflexivity|].
  rewrite IH. f_equal. unfold img. rewrite H2. destruct (a_ok a); [|reflexivity].
  rewrite H1, (H4 eq_refl). reflexivity.
Qed.

Lemma run_app : forall a pol l1 l2, run a pol (l1 ++ l2) = fold_left step l2 (run a pol l1).
Proof. intros. apply fold_left_app. Qed.
Lemma run_snoc : forall a pol ops o, run a pol (ops ++ [o]) = step (run a pol ops) o.
Proof. intros. apply run_app. Qed.

Lemma spec_regs_fold : forall ops, spec_regs ops = fold_left regs_step ops [].
Proof. reflexivity. Qed.
Lemma spec_regs_snoc : forall ops o, spec_regs (ops ++ [o]) = regs_step (spec_regs ops) o.
Proof. intros. rewrite !spec_regs_fold, fold_left_app. reflexivity. Qed.

Lemma reg_once_snoc : forall ops r o,
  reg_once r (ops ++ [o]) =
  reg_once r ops && match o with Register c => negb (mem c (fold_left regs_step ops r)) | _ => true end.
Proof.
  induction ops as [|x ops IH]; intros r o; cbn [app reg_once fold_left].
  - destruct o; cbn [reg_once]; now rewrite ?andb_true_r.
  - destruct x; cbn [regs_step]; rewrite IH; try reflexivity.
    destruct (existsb (N.eqb c) r); cbn [negb andb]; reflexivity.
Qed.

Lemma run_Sim : forall a pol ops, Sim a (run a pol ops) (spec_run a ops).
Proof.
  intros a pol ops. unfold run, spec_run. apply fold_left_sim; [intros s sp o _; apply Sim_step|].
  constructor; simpl; [reflexivity | constructor | apply rc_rel_nil..].
Qed.

Lemma run_regs : forall a pol ops, regs (run a pol ops) = spec_regs ops.
Proof. intros. unfold run, spec_regs. apply (fold_left_sim step regs_step (fun s r => regs s = r)); [|reflexivity]. intros s r o _ <-. apply step_regs. Qed.

Lemma run_chain : forall a pol ops, chain (run a pol ops) = final_policy pol ops.
Proof. intros. unfold run, final_policy. apply (fold_left_sim step _ (fun s c => chain s = c)); [|reflexivity]. intros s c o _ <-. apply step_chain. Qed.

Lemma run_Inv : forall a pol ops, reg_once [] ops = true -> replace_ok pol ops -> Inv (run a pol ops).
Proof. intros a pol ops Hreg Hrep. exact (Inv_steps ops (init a pol) (Inv_init a pol) Hreg Hrep). Qed.

Lemma run_contribution : forall a pol ops,
  contrib (chain (run a pol ops)) (tab (run a pol ops)) =
  contribution (final_policy pol ops) (s_anns (spec_run a ops)).
Proof.
  intros. rewrite run_chain. apply contrib_contribution, run_Sim.
Qed.

Theorem mirror : forall (a : sattrs) (pol : policy) (ops : list op),
  reg_once [] ops = true -> replace_ok pol ops ->
  forall c,
    (In c (spec_regs ops) ->
       Permutation (map ekey (ct_get c (ctabs (run a pol ops))))
                   (map ekey (contribution (final_policy pol ops) (s_anns (spec_run a ops))))) /\
    (~ In c (spec_regs ops) -> ct_get c (ctabs (run a pol ops)) = []).
Proof.
  intros a pol ops Hreg Hrep c. destruct (run_Inv a pol ops Hreg Hrep) as [_ _ HC HU].
  rewrite <- run_contribution, <- (run_regs a pol ops). split; [apply HC | apply HU].
Qed.

Lemma fixed_policy_tail : forall o ops, fixed_policy (o :: ops) -> fixed_policy ops.
Proof. intros o ops H x Hx. apply H. right. exact Hx. Qed.

Lemma fixed_policy_spec : forall ops pol, fixed_policy ops -> replace_ok pol ops /\ final_policy pol ops = pol.
Proof.
  induction ops as [|o ops IH]; intros pol H; simpl; [split; [exact I | reflexivity]|].
  destruct o; try (apply IH, (fixed_policy_tail _ _ H)). destruct (H (ReplaceChain c)). left. reflexivity.
Qed.

Theorem mirror_fixed : forall (a : sattrs) (pol : policy) (ops : list op),
  fixed_policy ops -> reg_once [] ops = true ->
  forall c,
    (In c (spec_regs ops) ->
       Permutation (map ekey (ct_get c (ctabs (run a pol ops))))
                   (map ekey (contribution pol (s_anns (spec_run a ops))))) /\
    (~ In c (spec_regs ops) -> ct_get c (ctabs (run a pol ops)) = []).
Proof.
  intros a pol ops Hf Hreg c. destruct (fixed_policy_spec ops pol Hf) as [Hr Hp].
  rewrite <- Hp at 2. apply mirror; assumption.
Qed.

Lemma unregister_calls : forall (s : st) (c : N), In c (regs s) ->
  let s' := step s (Unregister c) in
  log s' = rev (map (fun x => EvRemove c (fst x) (snd x)) (contrib (chain s) (tab s))) ++ log s /\
  tab s' = tab s /\
  (forall c', c' <> c -> ct_get c' (ctabs s') = ct_get c' (ctabs s)).
Proof.
  intros s c Hc s'. apply mem_In in Hc.
  split; [|split; [apply (step_tab (Unregister c))|]]; unfold s'; cbn [step]; rewrite unregister_emits, Hc.
  - rewrite emits_log, bcast_one. reflexivity.
  - intros c' Hne. rewrite emits_get, bag_bcast_remove, mem_one by apply NoDup_one.
    apply N.eqb_neq in Hne. rewrite Hne. reflexivity.
Qed.

Lemma unregister_empties : forall s c, Inv s -> ct_get c (ctabs (step s (Unregister c))) = [].
Proof.
  intros s c HI. apply (inv_U _ (Inv_step (Unregister c) s HI I)). rewrite step_regs. cbn [regs_step]. intro Hin.
  apply filter_In in Hin. rewrite N.eqb_refl in Hin. destruct Hin. discriminate.
Qed.

Lemma flush_empties : forall s, Inv s -> forall c, ct_get c (ctabs (flush s)) = [].
Proof.
  intros s HI c. apply (Inv_step Flush), Inv_Mirrors in HI as (_&_&HM); [|exact I].
  specialize (HM c). rewrite (step_tab Flush) in HM. cbn [step] in HM. apply keys_nil. destruct (mem c _); exact HM.
Qed.

Lemma slot_at : forall (s : st) (o : op) (g : pfx * path -> bool) new,
  tab_after s o = filter (fun e => negb (g e)) (tab s) ++ new -> (forall x, In x new -> g x = true) ->
  filter g (tab (step s o)) = new /\
  filter (fun e => negb (g e)) (tab (step s o)) = filter (fun e => negb (g e)) (tab s).
Proof.
  intros s o g new E H.
  rewrite step_tab, E, !filter_app, (filter_all g new H), (filter_none g (filter _ _)), (filter_all _ (filter _ _)), (filter_none _ new).
  - split; [reflexivity | apply app_nil_r].
  - intros x Hx. rewrite (H x Hx). reflexivity.
  - intros x Hx. apply filter_In in Hx. apply Hx.
  - intros x Hx. apply filter_In in Hx. apply negb_true_iff, Hx.
Qed.

Lemma announce_slot : forall s p q, let slot := in_slot (apx s) p (pid q) in
  (exists qs, filter slot (tab (step s (Announce p q))) = [(p, qs)] /\ pid qs = pid q) /\
  filter (fun e => negb (slot e)) (tab (step s (Announce p q))) = filter (fun e => negb (slot e)) (tab s).
Proof.
  intros s p q slot. destruct (slot_at s (Announce p q) slot [(p, stored_form s q)] eq_refl) as [H1 H2].
  { intros x [<-|[]]. apply in_slot_stored. }
  split; [|exact H2]. exists (stored_form s q). split; [exact H1 | apply stored_form_pid].
Qed.

Lemma run_apx : forall a pol ops, apx (run a pol ops) = addpath_rx a.
Proof. intros. unfold apx. rewrite (sim_sa _ _ _ (run_Sim a pol ops)). reflexivity. Qed.

Section Provenance.
  Variable Src : pfx -> path -> Prop.
  Variable Chs : policy -> Prop.

  (* Spec.justified with the set of sources and the set of policies abstract *)
  Definition Just (p : pfx) (q' : path) : Prop := exists qn c, Src p qn /\ Chs c /\ c p qn = Some q'.

  Definition Gd (s : st) : Prop :=
    (forall c p q', In (p, q') (ct_get c (ctabs s)) -> Just p q') /\
    (forall e c p q', In e (log s) -> delivered e = Some (c, p, q') -> Just p q').

  Definition okf (f : ctable -> ctable) : Prop :=
    forall t, (forall p q', In (p, q') t -> Just p q') -> forall p q', In (p, q') (f t) -> Just p q'.
  Definition oke (e : event) : Prop := forall c p q', delivered e = Some (c, p, q') -> Just p q'.

  Lemma call_Gd : forall c e f s, Gd s -> oke e -> okf f -> Gd (call c e f s).
  Proof.
    intros c e f s [G1 G2] He Hf. split; simpl.
    - intros k p q' Hin. rewrite ct_get_upd in Hin. destruct (c =? k).
      + eapply Hf; [|exact Hin]. intros p0 q0 H0. eapply G1, H0.
      + eapply G1, Hin.
    - intros e0 k p q' [Hin|Hin] Hd; [subst e0; eapply He, Hd | eapply G2; eassumption].
  Qed.

  Lemma oke_Just : forall e, match delivered e with Some (_, p, q) => Just p q | None => True end -> oke e.
  Proof. intros e H c p q E. rewrite E in H. exact H. Qed.

  Lemma oke_okf : forall e, oke e -> okf (ev_fun e).
  Proof.
    intros e He t Ht p0 q0 Hin.
    destruct e as [c p q|c p q|c p q|c p o n|c]; cbn [ev_fun] in Hin.
    - apply in_app_or in Hin. destruct Hin as [Hin|[[= <- <-]|[]]]; [apply Ht, Hin | exact (He c p q eq_refl)].
    - apply in_app_or in Hin. destruct Hin as [Hin|[[= <- <-]|[]]]; [apply Ht, Hin | exact (He c p q eq_refl)].
    - eapply Ht, ct_remove_subset, Hin.
    - apply ct_replace_In in Hin. destruct Hin as [[= -> ->]|Hin]; [exact (He c p n eq_refl) | apply Ht, Hin].
    - apply Ht, Hin.
  Qed.

  Lemma emits_Gd : forall l s, Gd s -> Forall oke l -> Gd (emits l s).
  Proof.
    induction l as [|e l IH]; intros s HG Hl; [exact HG|]. inversion Hl as [|? ? He Hl']; subst.
    apply IH; [|exact Hl']. apply call_Gd; [exact HG | exact He | apply oke_okf, He].
  Qed.

  Lemma bcast_remove_oke : forall R L, Forall oke (bcast R EvRemove L).
  Proof. intros R L. apply bcast_Forall. intros x _ k. apply oke_Just. exact I. Qed.

  Lemma remove_path_Gd : forall p oid s, Gd s -> Gd (remove_path p oid s).
  Proof. intros p oid s HG. rewrite remove_path_emits. apply emits_Gd; [exact HG | apply bcast_remove_oke]. Qed.

  Lemma step_Gd : forall o s, Gd s ->
    (forall x, In x (contrib (chain (step s o)) (tab (step s o))) -> Just (fst x) (snd x)) -> Gd (step s o).
  Proof.
    intros o s HG HJ. rewrite step_chain, step_tab in HJ.
    destruct o as [p q|p i|p| |c|c|c'|a|a|a|a]; cbn [step tab_after] in *; try exact HG.
    - rewrite add_path_emits. apply emits_Gd; [exact HG|]. apply Forall_app. split; [apply bcast_remove_oke|].
      apply bcast_Forall. intros x Hx k. apply oke_Just. apply HJ.
      rewrite contrib_app. apply in_or_app. right. exact Hx.
    - apply remove_path_Gd, HG.
    - apply remove_path_Gd, HG.
    - unfold flush. apply fold_left_invariant; [|exact HG]. intros s0 x _. apply remove_path_Gd.
    - rewrite register_emits. apply emits_Gd; [destruct (mem c (regs s)); exact HG|]. apply Forall_app.
      split; [|repeat constructor; apply oke_Just; exact I].
      apply bcast_Forall. intros x Hx k. apply oke_Just. exact (HJ _ Hx).
    - rewrite unregister_emits. destruct (mem c (regs s)); [|exact HG].
      apply emits_Gd; [exact HG | apply bcast_remove_oke].
    - rewrite replace_chain_emits. apply emits_Gd; [exact HG|].
      apply Forall_flat_map, Forall_forall. intros e He. unfold rc_events.
      destruct (rc_call (chain s) c' e) as [mk|] eqn:E; [|constructor]. apply rc_call_spec in E as (_&E).
      apply Forall_map, Forall_forall. intros k _ c p n Hd. apply (HJ (p, n)), in_flat_map. exists e. eauto.
  Qed.

  Lemma Gd_none : forall s p, Gd s -> (forall qn, ~ Src p qn) ->
    (forall c q', ~ In (p, q') (ct_get c (ctabs s))) /\
    (forall e c q', In e (log s) -> delivered e <> Some (c, p, q')).
  Proof.
    intros s p [G1 G2] Hno.
    assert (HJ : forall q', ~ Just p q') by (intros q' (qn&c&H&_); exact (Hno qn H)).
    split; [intros c q' Hin; eapply HJ, G1, Hin | intros e c q' Hin Hd; eapply HJ, G2; eassumption].
  Qed.
End Provenance.

Lemma anns_src : forall a post pre x, In x (s_anns (spec_run a pre)) -> a_ok x = true ->
  eligible_src a (pre ++ post) (a_pfx x) (a_path x).
Proof.
  intros a post pre. revert post. induction pre as [|o pre IH] using rev_ind; intros post x Hx Hok; [destruct Hx|].
  unfold spec_run in Hx. rewrite fold_left_app in Hx. cbn [fold_left] in Hx. fold (spec_run a pre) in Hx.
  rewrite <- app_assoc. cbn [app]. specialize (IH (o :: post) x).
  destruct o; cbn [spec_step s_anns] in Hx; try (apply IH; assumption); try (apply filter_In in Hx; apply IH; [apply Hx | exact Hok]); [|destruct Hx].
  apply in_app_or in Hx. destruct Hx as [Hx|[<-|[]]]; [apply filter_In in Hx; apply IH; [apply Hx | exact Hok]|].
  cbn [a_ok a_pfx a_path] in *. rewrite Hok. exists pre, q, post. apply negb_true_iff in Hok. auto.
Qed.

Lemma final_policy_of : forall pol post pre, policy_of pol (pre ++ post) (final_policy pol pre).
Proof.
  intros pol post pre. revert post. induction pre as [|o pre IH] using rev_ind; intro post; [left; reflexivity|].
  unfold final_policy. rewrite fold_left_app, <- app_assoc. cbn [fold_left app]. fold (final_policy pol pre).
  destruct o; try apply IH. right. apply in_or_app. right. left. reflexivity.
Qed.

Lemma contribution_justified : forall a pol pre post x,
  In x (contribution (final_policy pol pre) (s_anns (spec_run a pre))) -> justified a pol (pre ++ post) (fst x) (snd x).
Proof.
  intros a pol pre post x Hx. apply in_flat_map in Hx. destruct Hx as [an [Han Hx]].
  destruct (a_ok an) eqn:Hok; [|destruct Hx].
  destruct (final_policy pol pre (a_pfx an) (a_path an)) as [q'|] eqn:E; [|destruct Hx].
  destruct Hx as [<-|[]]. exists (a_path an), (final_policy pol pre). split; [apply anns_src; assumption|].
  split; [apply final_policy_of | exact E].
Qed.

(* the history is fixed, the induction runs over its prefixes *)
Lemma run_Gd : forall a pol post pre, Gd (eligible_src a (pre ++ post)) (policy_of pol (pre ++ post)) (run a pol pre).
Proof.
  intros a pol post pre. revert post.
  induction pre as [|o pre IH] using rev_ind; intro post; [split; [intros c p q' [] | intros e c p q' []]|].
  rewrite run_snoc. apply step_Gd.
  - rewrite <- app_assoc. apply IH.
  - rewrite <- run_snoc, run_contribution. apply contribution_justified.
Qed.

Lemma otc_table_tests : forall r x y,
  otc_table r x y = ((r =? 2) || (r =? 3)) && x || (r =? 4) && x && negb y.
Proof. intros r x y. destruct r as [|[[|[]|]|[[]|[]|]|]]; destruct x, y; reflexivity. Qed.

Theorem otc_matrix : forall (a : sattrs) (q : path),
  otc_check_fails a q =
  roles_negotiated a && otc_table (role_remote a) (negb (otc q =? 0)) (otc q =? peer_asn a).
Proof.
  intros a q. rewrite otc_table_tests. unfold otc_check_fails.
  destruct (roles_negotiated a), (negb (otc q =? 0)), (role_remote a =? 2), (role_remote a =? 3),
    (role_remote a =? 4), (otc q =? peer_asn a); reflexivity.
Qed.
