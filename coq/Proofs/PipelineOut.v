(* The sending side of the composed model.  A Loc-RIB operation is read from one session at a time
   (loc_op_sess): its Adj-RIB-Out takes the calls that the callbacks addressed to it mean, its view history ss_hist
   grows by what note_views records (fed).  On Loc-RIBs that hold no two indistinguishable paths for a prefix the
   calls of a route change are exactly Model.LocView.change_ops of the view before and after (propagate_change_ops;
   C08's Loc-RIB abstraction); hence the Adj-RIB-Out of every registered session is Model.LocView.feed over ss_hist,
   the view being the first 1/N selected candidates (C04's want), and with C08 (ribout_is_export_view_partial) as a
   black box it is the export view of the selection.  The recorded routes (ps_seen) only grow, so "no route seen so
   far had duplicates" can be assumed of the final state alone (older). *)
From Coq Require Import List NArith Bool Arith Permutation.
Import ListNotations.
From BioVerif Require Import Lib.ListFacts Model.Pipeline Spec.PipelineSpec Proofs.PipelineIn Proofs.PipelineLoc Proofs.PipelineProofs.
From BioVerif Require Model.AdjRIBIn Model.LocRIBClients Model.AdjRIBOut Model.LocView
  Spec.LocRIBClientsSpec Spec.ExportViewSpec Proofs.LocRIBClientsProofs Proofs.ExportViewC.

Section Out.
  Import LocRIBClients.
  Variable P : Type.
  Variable apply : P -> N -> AdjRIBOut.path -> option AdjRIBOut.path.
  Variable sel : nat -> list (entry AdjRIBOut.path) -> list (entry AdjRIBOut.path) * nat.
  Variable tagf : AdjRIBOut.bgp -> N.
  Hypothesis Hsel : LocRIBClientsSpec.sel_ok AdjRIBOut.path sel.
  Variable cfgs : list (scfg P).

  Notation path := AdjRIBOut.path.
  Notation sst := (sst P).
  Notation pst := (pst P).
  Notation lstep := (step path AdjRIBOut.path_compare AdjRIBOut.path_equal sel).
  Notation loc_op := (Pipeline.loc_op P apply sel tagf cfgs).
  Notation in_op := (Pipeline.in_op P apply sel tagf cfgs).
  Notation pstep := (Pipeline.step P apply sel tagf cfgs).
  Notation prun := (Pipeline.run P apply sel tagf cfgs).
  Notation deliver := (Pipeline.deliver P apply tagf cfgs).

  Lemma with_cfg_nth : forall k j f ss c, nth_error cfgs j = Some c ->
    nth_error (with_cfg P cfgs k f ss) j = option_map (fun s => if k =? j then f c s else s) (nth_error ss j).
  Proof.
    intros k j f ss c Hc. unfold with_cfg. destruct (Nat.eqb_spec k j) as [->|NE].
    - rewrite Hc, nth_error_upd. now destruct (nth_error ss j).
    - destruct (nth_error cfgs k) as [ck|].
      + rewrite nth_error_upd_other by congruence. now destruct (nth_error ss j).
      + now destruct (nth_error ss j).
  Qed.

  Definition op_of (j : nat) (b : cb path) : list (AdjRIBOut.op P) :=
    match b with
    | CbAdd k p e | CbDump k p e => if k =? j then [AdjRIBOut.OAdd (N.of_nat p) (snd e)] else []
    | CbRemove k p e => if k =? j then [AdjRIBOut.ORemove (N.of_nat p) (snd e)] else []
    | _ => []
    end.

  Definition ops_of (j : nat) (cbs : list (cb path)) : list (AdjRIBOut.op P) := flat_map (op_of j) cbs.

  Definition aro_not_replace (o : AdjRIBOut.op P) : Prop := match o with AdjRIBOut.OReplace _ _ => False | _ => True end.

  Lemma note_views_nth : forall loc ps only ss j,
    nth_error (note_views P loc ps only ss) j =
    option_map (fun s => match lookup j (clients loc) with
                         | Some o => if match only with Some k' => j =? k' | None => true end
                                     then set_hist P s (ss_hist P s ++ map (fun p => (N.of_nat p, visible o loc p)) ps) else s
                         | None => s end) (nth_error ss j).
  Proof. intros loc ps only ss j. unfold note_views. now rewrite nth_error_indexed. Qed.

  Definition noted (loc : state path) (ps : list pfx) (only : option nat) (j : nat) : list (N * list path) :=
    match lookup j (clients loc) with
    | Some o => if match only with Some k' => j =? k' | None => true end
                then map (fun p => (N.of_nat p, visible o loc p)) ps else []
    | None => []
    end.

  Section Walk.
    (* a Loc-RIB operation does to session j nothing but AddPath / RemovePath calls on its Adj-RIB-Out, End-of-RIB, and a note of
       what it now sees: a relation R these three satisfy (fed below; in PipelineSend, that Usess is kept) holds across the
       operation, indexed by the calls and the noted views *)
    Variable R : scfg P -> list (AdjRIBOut.op P) -> list (N * list path) -> sst -> sst -> Prop.
    Hypothesis R_refl : forall c s, R c [] [] s s.
    Hypothesis R_trans : forall c o1 h1 o2 h2 s s1 s2, R c o1 h1 s s1 -> R c o2 h2 s1 s2 -> R c (o1 ++ o2) (h1 ++ h2) s s2.
    Hypothesis R_call : forall c o s, aro_not_replace o -> R c [o] [] s (aro_call P apply tagf c o s).
    Hypothesis R_eor : forall c s, R c [] [] s (aro_eor P c s).
    Hypothesis R_hist : forall c h s, R c [] h s (set_hist P s (ss_hist P s ++ h)).

    Lemma loc_op_sess : forall st o loc' cbs ps only j c s',
      lstep (ps_loc P st) o = Ok loc' cbs -> op_prefixes loc' o = (ps, only) -> nth_error cfgs j = Some c ->
      nth_error (ps_sess P (loc_op st o)) j = Some s' ->
      exists s, nth_error (ps_sess P st) j = Some s /\ R c (ops_of j cbs) (noted loc' ps only j) s s'.
    Proof.
      intros st o loc' cbs ps only j c s' Hs Hp Hc H. unfold Pipeline.loc_op in H. rewrite Hs, Hp in H. cbn [ps_sess] in H.
      rewrite note_views_nth in H. revert H. generalize (ps_sess P st) as ss. clear Hs.
      induction cbs as [|b cbs IH]; intros ss H; cbn [fold_left] in H.
      - destruct (nth_error ss j) as [s|]; [|discriminate]. injection H as <-. exists s. split; [reflexivity|]. unfold noted.
        destruct (lookup j (clients loc')); [destruct (match only with Some k' => j =? k' | None => true end)|];
          first [apply R_hist|apply R_refl].
      - destruct (IH _ H) as [s1 [H1 F1]].
        enough (exists s, nth_error ss j = Some s /\ R c (op_of j b) [] s s1) as [s [H0 F0]]
          by (exists s; split; [exact H0|exact (R_trans _ _ _ _ _ _ _ _ F0 F1)]).
        clear IH H F1. destruct b as [k p e|k p e|k p e|k|k p es]; cbn [Pipeline.deliver op_of] in *;
          [rewrite (with_cfg_nth _ j _ ss c Hc) in H1..|];
          destruct (nth_error ss j) as [s|]; try discriminate; injection H1 as <-; exists s; (split; [reflexivity|]);
          try destruct (k =? j); first [apply R_refl|apply R_eor|now apply R_call].
    Qed.
  End Walk.

  Definition fed (c : scfg P) (ops : list (AdjRIBOut.op P)) (chs : list (N * list path)) (s s' : sst) : Prop :=
    ss_up P s' = ss_up P s /\
    ss_out P s' = fold_left (AdjRIBOut.step P apply (sc_sess P c)) ops (ss_out P s) /\
    ss_hist P s' = ss_hist P s ++ chs.

  Lemma fed_trans : forall c o1 h1 o2 h2 s s1 s2,
    fed c o1 h1 s s1 -> fed c o2 h2 s1 s2 -> fed c (o1 ++ o2) (h1 ++ h2) s s2.
  Proof.
    intros c o1 h1 o2 h2 s s1 s2 [U1 [O1 H1]] [U2 [O2 H2]]. unfold fed.
    now rewrite U2, U1, O2, O1, H2, H1, fold_left_app, app_assoc.
  Qed.

  Lemma loc_op_fed : forall st o loc' cbs ps only j c s',
    lstep (ps_loc P st) o = Ok loc' cbs -> op_prefixes loc' o = (ps, only) -> nth_error cfgs j = Some c ->
    nth_error (ps_sess P (loc_op st o)) j = Some s' ->
    exists s, nth_error (ps_sess P st) j = Some s /\ fed c (ops_of j cbs) (noted loc' ps only j) s s'.
  Proof.
    apply (loc_op_sess fed); [|exact fed_trans|..]; intros; unfold fed;
      cbn [aro_call aro_eor set_out set_hist ss_up ss_out ss_hist fold_left]; now rewrite ?app_nil_r.
  Qed.

  Lemma ops_of_app : forall j a b, ops_of j (a ++ b) = ops_of j a ++ ops_of j b.
  Proof. intros. unfold ops_of. apply flat_map_app. Qed.

  Lemma ops_of_map : forall j (mk : entry path -> cb path) (b : bool) (g : path -> AdjRIBOut.op P) l,
    (forall e, op_of j (mk e) = if b then [g (snd e)] else []) ->
    ops_of j (map mk l) = if b then map g (map snd l) else [].
  Proof.
    intros j mk b g l H. induction l as [|e l IH]; [now destruct b|].
    cbn [map ops_of flat_map]. fold (ops_of j (map mk l)). rewrite H, IH. now destruct b.
  Qed.

  Lemma ops_of_flat : forall j (A : Type) (g : A -> list (cb path)) (l : list A),
    ops_of j (flat_map g l) = flat_map (fun x => ops_of j (g x)) l.
  Proof.
    intros j A g l. induction l as [|x l IH]; [reflexivity|]. cbn [flat_map]. now rewrite ops_of_app, IH.
  Qed.

  Lemma ops_of_clients : forall j (mk : nat -> entry path -> cb path) (g : path -> AdjRIBOut.op P) (F : nat * opts -> list (entry path)) cl,
    NoDup (map fst cl) -> (forall k e, op_of j (mk k e) = if k =? j then [g (snd e)] else []) ->
    ops_of j (flat_map (fun co => map (mk (fst co)) (F co)) cl) =
    match lookup j cl with Some o => map g (map snd (F (j, o))) | None => [] end.
  Proof.
    intros j mk g F cl ND H. induction cl as [|[k o] cl IH]; [reflexivity|]. inversion ND as [|? ? Hn ND']; subst.
    cbn [flat_map fst snd lookup]. rewrite ops_of_app, (ops_of_map j (mk k) (k =? j) g), IH by (assumption || apply H).
    destruct (Nat.eqb_spec k j) as [->|]; [|reflexivity]. apply LocRIBClientsProofs.lookup_None_keys in Hn. rewrite Hn. apply app_nil_r.
  Qed.

  Lemma lv_diff_self : forall l, LocView.paths_diff l l = [].
  Proof.
    intros l. unfold LocView.paths_diff. apply filter_none. intros x Hx. unfold LocView.mem_path.
    destruct (in_dec LocView.path_eq_dec x l); [reflexivity|contradiction].
  Qed.

  (* U: a duplicate-free universe both lists live in: an object id determines the value and vice versa *)
  Lemma diff_values : forall (U A B : list (entry path)),
    NoDup (map fst U) -> NoDup (map snd U) -> incl A U -> incl B U ->
    map snd (paths_diff path A B) = LocView.paths_diff (map snd A) (map snd B).
  Proof.
    intros U A B NF NS HA HB. unfold paths_diff, LocView.paths_diff.
    induction A as [|e A IH]; [reflexivity|]. cbn [filter map]. apply incl_cons_inv in HA as [He HA].
    replace (has_oid path (fst e) B) with (LocView.mem_path (snd e) (map snd B));
      [destruct (LocView.mem_path (snd e) (map snd B)); cbn [negb map]; now rewrite IH|].
    apply eq_true_iff_eq. rewrite LocRIBClientsProofs.has_oid_In, ExportViewC.mem_path_iff. unfold LocRIBClientsProofs.oids. rewrite !in_map_iff.
    split; intros [y [Ey Hy]]; exists y; (split; [f_equal|exact Hy]);
      [apply (NoDup_map_inj_in snd U)|apply (NoDup_map_inj_in fst U)]; auto.
  Qed.

  (* LocRIB.propagateChanges, seen by client j; the hypotheses on U: object id and value determine each other *)
  Lemma propagate_change_ops : forall j cl p oldr newr U, NoDup (map fst cl) ->
    NoDup (map fst U) -> NoDup (map snd U) -> incl (paths oldr) U -> incl (paths newr) U ->
    ops_of j (propagate path cl p oldr newr) =
    match lookup j cl with
    | Some o => LocView.change_ops P (map snd (limit_slice path o oldr)) (map snd (limit_slice path o newr)) (N.of_nat p)
    | None => []
    end.
  Proof.
    intros j cl p oldr newr U ND UF US UO UN. unfold propagate, remove_from_clients, add_to_clients.
    rewrite ops_of_app, (ops_of_clients j (fun k => CbRemove k p) (AdjRIBOut.ORemove (N.of_nat p)) _ cl ND),
      (ops_of_clients j (fun k => CbAdd k p) (AdjRIBOut.OAdd (N.of_nat p)) _ cl ND) by reflexivity.
    destruct (lookup j cl) as [o|]; [|reflexivity]. cbn [snd].
    assert (IO : incl (limit_slice path o oldr) U) by (intros x Hx; apply UO; eapply limit_slice_incl; exact Hx).
    assert (IN : incl (limit_slice path o newr) U) by (intros x Hx; apply UN; eapply limit_slice_incl; exact Hx).
    now rewrite (diff_values U _ _ UF US IO IN), (diff_values U _ _ UF US IN IO).
  Qed.

  Lemma ops_of_dump : forall j k o (rs : list (pfx * route path)),
    ops_of j (flat_map (fun pr : pfx * route path => map (CbDump k (fst pr)) (LocRIBClientsSpec.want path o (snd pr))) rs ++ [CbEndOfRIB k]) =
    if k =? j then flat_map (fun pr : pfx * route path => map (AdjRIBOut.OAdd (N.of_nat (fst pr))) (map snd (limit_slice path o (snd pr)))) rs
    else [].
  Proof.
    intros j k o rs. rewrite ops_of_app, ops_of_flat. cbn [ops_of flat_map op_of]. rewrite app_nil_r.
    rewrite (flat_map_ext _ (fun pr : pfx * route path => if k =? j
               then map (AdjRIBOut.OAdd (N.of_nat (fst pr))) (map snd (limit_slice path o (snd pr))) else []))
      by (intros pr; rewrite LocRIBClientsProofs.limit_slice_want; now apply ops_of_map).
    destruct (k =? j); [reflexivity|]. now induction rs.
  Qed.

  Definition feedof (c : scfg P) (s : sst) : LocView.view * AdjRIBOut.aro P :=
    LocView.feed P apply (sc_sess P c) (sc_exp P c) (ss_hist P s).

  (* a registered session: its Adj-RIB-Out is what Model.LocView.feed computes from the recorded views, and the view
     is the first 1/N selected candidates of every prefix; an unregistered one is down, or fresh *)
  Definition Osess (loc : state path) (j : nat) (c : scfg P) (s : sst) : Prop :=
    match lookup j (clients loc) with
    | Some o =>
      o = sc_opts P c /\ ss_up P s = true /\ ss_out P s = snd (feedof c s) /\
      forall p : nat, LocView.view_get (N.of_nat p) (fst (feedof c s)) = visible o loc p
    | None => ss_up P s = false \/ (ss_out P s = AdjRIBOut.init P (sc_exp P c) /\ ss_hist P s = [])
    end.

  Lemma Osess_registered : forall loc j c s o, lookup j (clients loc) = Some o ->
    Osess loc j c s <->
    o = sc_opts P c /\ ss_up P s = true /\ ss_out P s = snd (feedof c s) /\
    forall p : nat, LocView.view_get (N.of_nat p) (fst (feedof c s)) = visible o loc p.
  Proof. intros loc j c s o H. unfold Osess. now rewrite H. Qed.

  Lemma Osess_unregistered : forall loc j c s, lookup j (clients loc) = None ->
    Osess loc j c s <-> ss_up P s = false \/ (ss_out P s = AdjRIBOut.init P (sc_exp P c) /\ ss_hist P s = []).
  Proof. intros loc j c s H. unfold Osess. now rewrite H. Qed.

  Lemma Osess_down : forall loc j c s, Osess loc j c s -> ss_up P s = false -> lookup j (clients loc) = None.
  Proof.
    intros loc j c s H Hd. destruct (lookup j (clients loc)) as [o|] eqn:E; [|reflexivity].
    apply (Osess_registered _ _ _ _ _ E) in H. destruct H as [_ [Hu _]]. congruence.
  Qed.

  Record Oinv (st : pst) : Prop := mkOinv {
    o_len : length (ps_sess P st) = length cfgs;
    o_rinv : exists tr, LocRIBClientsProofs.RInv path (ps_loc P st) /\ LocRIBClientsProofs.CInv path (ps_loc P st) tr;
    o_seen : forall p, vals (ps_loc P st) p = [] \/ In (vals (ps_loc P st) p) (ps_seen P st);
    o_sess : forall j c s, nth_error cfgs j = Some c -> nth_error (ps_sess P st) j = Some s -> Osess (ps_loc P st) j c s
  }.

  Lemma Oinv_RInv : forall st, Oinv st -> LocRIBClientsProofs.RInv path (ps_loc P st).
  Proof. intros st HI. now destruct (o_rinv st HI) as [tr [HR _]]. Qed.

  Lemma Oinv_lstep : forall st o loc' cbs, Oinv st -> lstep (ps_loc P st) o = Ok loc' cbs ->
    exists tr', LocRIBClientsProofs.RInv path loc' /\ LocRIBClientsProofs.CInv path loc' tr'.
  Proof.
    intros st o loc' cbs HI Hs. destruct (o_rinv st HI) as [tr [HR HC]].
    destruct (LocRIBClientsProofs.step_inv path AdjRIBOut.path_compare AdjRIBOut.path_equal sel Hsel _ tr o HR HC)
      as [l [b [Hs' [HR' HC']]]]. rewrite Hs in Hs'. injection Hs' as <- <-. eauto.
  Qed.

  Lemma lstep_register : forall (loc : state path) k o, LocRIBClientsProofs.RInv path loc ->
    lstep loc (ORegister k o) =
    Ok (mkState (routes loc) (put k o (clients loc)) (S (clock loc)))
       (flat_map (fun pr : pfx * route path => map (CbDump k (fst pr)) (LocRIBClientsSpec.want path o (snd pr))) (routes loc) ++ [CbEndOfRIB k]).
  Proof.
    intros loc k o HR. cbn [step]. rewrite (LocRIBClientsProofs.dump_routes_spec path (clock loc) k o (routes loc)); [reflexivity|].
    now apply LocRIBClientsProofs.RInv_routes_good.
  Qed.

  Lemma Osess_keep : forall loc loc' j c s s', fed c [] [] s s' ->
    lookup j (clients loc') = lookup j (clients loc) ->
    (forall o p, lookup j (clients loc) = Some o -> visible o loc' p = visible o loc p) ->
    Osess loc j c s -> Osess loc' j c s'.
  Proof.
    intros loc loc' j c s s' [Fu [Fo Fh]] EC EV H. cbn [fold_left] in Fo. rewrite app_nil_r in Fh.
    unfold Osess, feedof in *. rewrite EC, Fu, Fo, Fh. destruct (lookup j (clients loc)) as [o|]; [|exact H].
    destruct H as [H1 [H2 [H3 H4]]]. repeat split; try assumption. intros p. rewrite H4. symmetry. now apply EV.
  Qed.

  (* fourth premise: every prefix keeps its candidates, or its new path list is among those recorded *)
  Lemma Oinv_loc_op : forall st o loc' cbs ps only,
    Oinv st -> lstep (ps_loc P st) o = Ok loc' cbs -> op_prefixes loc' o = (ps, only) ->
    (forall p, vals loc' p = vals (ps_loc P st) p \/ only = None /\ In p ps) ->
    (forall j c s s', nth_error cfgs j = Some c -> nth_error (ps_sess P st) j = Some s -> Osess (ps_loc P st) j c s ->
       fed c (ops_of j cbs) (noted loc' ps only j) s s' -> Osess loc' j c s') ->
    Oinv (loc_op st o).
  Proof.
    intros st o loc' cbs ps only HI Hs Hp Hv H. pose proof (Oinv_lstep st o loc' cbs HI Hs) as HR'. destruct HI as [HL _ HS HO].
    constructor; rewrite ?(loc_op_ok P apply sel tagf cfgs st o loc' cbs Hs).
    - now rewrite (loc_op_length P apply sel tagf cfgs).
    - exact HR'.
    - intros p. unfold Pipeline.loc_op. rewrite Hs, Hp. cbn [ps_seen]. destruct (Hv p) as [E|[-> Hin]].
      + rewrite E. destruct (HS p) as [E0|Hi]; [now left|right; apply in_or_app; now left].
      + right. apply in_or_app. right. exact (in_map (vals loc') ps p Hin).
    - intros j c s' Hc Hs'. destruct (loc_op_fed st o loc' cbs ps only j c s' Hs Hp Hc Hs') as [s [H0 F]].
      exact (H j c s s' Hc H0 (HO j c s Hc H0) F).
  Qed.

  Lemma Oinv_upd : forall st k f, Oinv st ->
    (forall c s, nth_error cfgs k = Some c -> nth_error (ps_sess P st) k = Some s -> Osess (ps_loc P st) k c s ->
       Osess (ps_loc P st) k c (f s)) ->
    Oinv (with_sess P st (upd_nth k f (ps_sess P st))).
  Proof.
    intros st k f [HL HR HS HO] H. constructor; cbn [with_sess ps_sess ps_loc ps_seen]; try assumption.
    - now rewrite upd_nth_length.
    - intros j c s' Hc Hs'. destruct (Nat.eq_dec j k) as [->|NE].
      + rewrite nth_error_upd in Hs'. destruct (nth_error (ps_sess P st) k) as [s|] eqn:Hs; [|discriminate].
        injection Hs' as <-. eauto.
      + rewrite nth_error_upd_other in Hs' by assumption. now apply HO.
  Qed.

  Lemma visible_route : forall o loc p, visible o loc p = map snd (limit_slice path o (route_at loc p)).
  Proof. reflexivity. Qed.

  Lemma feed_snoc : forall c h ch,
    LocView.feed P apply (sc_sess P c) (sc_exp P c) (h ++ [ch]) =
    LocView.feed_step P apply (sc_sess P c) (LocView.feed P apply (sc_sess P c) (sc_exp P c) h) ch.
  Proof. intros. unfold LocView.feed. now rewrite fold_left_app. Qed.

  Lemma Osess_feed : forall loc loc' j c s s' o p,
    lookup j (clients loc) = Some o -> lookup j (clients loc') = Some o ->
    (forall p', p <> p' -> visible o loc' p' = visible o loc p') ->
    fed c (LocView.change_ops P (visible o loc p) (visible o loc' p) (N.of_nat p)) [(N.of_nat p, visible o loc' p)] s s' ->
    Osess loc j c s -> Osess loc' j c s'.
  Proof.
    intros loc loc' j c s s' o p EL EL' EV [Fu [Fo Fh]] H.
    apply (Osess_registered loc j c s o EL) in H. destruct H as [Eo [Hu [Hout Hview]]].
    apply (Osess_registered loc' j c s' o EL'). split; [exact Eo|]. split; [congruence|].
    unfold feedof in *. rewrite Fh, feed_snoc.
    destruct (LocView.feed P apply (sc_sess P c) (sc_exp P c) (ss_hist P s)) as [v a].
    cbn [fst snd LocView.feed_step] in *. rewrite Hview. split; [now rewrite Fo, Hout|].
    intros p'. destruct (Nat.eq_dec p p') as [<-|NE].
    - apply ExportViewC.view_get_set_same.
    - rewrite ExportViewC.view_get_set_other by (now rewrite Nat2N.inj_iff). rewrite Hview. symmetry. now apply EV.
  Qed.

  Notation reselect := (LocRIBClientsProofs.reselect path sel).

  (* LocRIB.AddPath / RemovePath.  No route seen so far, the new one included, had two equal paths: object id and value
     determine each other on the larger of the old and the new route *)
  Lemma Oinv_route : forall st o p pre, pre_of (ps_loc P st) o = Some (p, pre) ->
    Oinv st -> Forall (@NoDup path) (ps_seen P (loc_op st o)) -> Oinv (loc_op st o).
  Proof.
    intros st o p pre H HI HN.
    pose proof (Oinv_RInv st HI) as HR. pose proof (lstep_route sel (ps_loc P st) o p pre H) as Hs.
    set (loc := ps_loc P st) in *. set (oldr := route_at loc p) in *. set (newr := reselect (clock loc) pre) in *.
    destruct (Oinv_lstep st o _ _ HI Hs) as [tr' [HR' _]].
    assert (Hp : op_prefixes (change loc p newr) o = ([p], None)) by (destruct o; try discriminate; injection H as <- _; reflexivity).
    assert (HU : exists U, NoDup (map fst U) /\ NoDup (map snd U) /\ incl (paths oldr) U /\ incl (paths newr) U).
    { unfold Pipeline.loc_op in HN. fold loc in HN. rewrite Hs, Hp in HN. cbn [ps_seen map] in HN. apply Forall_app in HN. destruct HN as [HN HN'].
      inversion HN' as [|? ? NVn _]; subst. rewrite paths_change in NVn.
      assert (NVo : NoDup (map snd (paths oldr))).
      { destruct (o_seen st HI p) as [E|E]; fold loc in E; unfold vals in E; fold oldr in E; [rewrite E; constructor|].
        rewrite Forall_forall in HN. now apply HN. }
      pose proof (proj1 (LocRIBClientsProofs.old_route_facts path loc p HR)) as NFo.
      pose proof (proj1 (LocRIBClientsProofs.old_route_facts path _ p HR')) as NFn. rewrite paths_change in NFn.
      assert (HP : forall x, In x (paths newr) <-> In x pre).
      { intros x. split; apply Permutation_in; [|apply Permutation_sym]; apply (reselect_perm sel Hsel). }
      destruct o; try discriminate; injection H as <- <-; [exists (paths newr)|exists (paths oldr)];
        repeat split; auto using incl_refl; intros x Hx.
      - apply HP, in_or_app. now left.
      - apply HP in Hx. eapply LocRIBClientsProofs.remove_first_In. exact Hx. }
    destruct HU as [U [UF [US [UO UN]]]].
    apply (Oinv_loc_op st o _ _ [p] None HI Hs Hp).
    - intros p'. destruct (Nat.eq_dec p p') as [<-|NE]; [right; split; [reflexivity|now left]|left].
      rewrite vals_change. now destruct (Nat.eqb_spec p p').
    - intros j c s s' Hc Hs0 O0 F. unfold noted in F. change (clients (change loc p newr)) with (clients loc) in F.
      rewrite (propagate_change_ops j _ p oldr newr U (proj1 (proj2 HR)) UF US UO UN) in F.
      destruct (lookup j (clients loc)) as [oj|] eqn:EL.
      + apply (Osess_feed loc (change loc p newr) j c s s' oj p EL EL); [| |exact O0].
        * intros p' NE. rewrite !visible_route, route_at_change. now destruct (Nat.eqb_spec p p').
        * rewrite !visible_route, limit_slice_change. cbn [map] in F. now rewrite visible_route, limit_slice_change in F.
      + apply (Osess_keep loc (change loc p newr) j c s s' F); [reflexivity| |exact O0]. intros o' p' E'. congruence.
  Qed.

  Definition older (a b : pst) : Prop := locrib_paths_distinct P b -> locrib_paths_distinct P a.

  Lemma older_loc_op : forall st o, older st (loc_op st o).
  Proof.
    intros st o. unfold older, locrib_paths_distinct, Pipeline.loc_op. destruct (lstep (ps_loc P st) o) as [loc' cbs|]; [|auto].
    destruct (op_prefixes loc' o) as [ps only]. cbn [ps_seen]. intros H. now apply Forall_app in H.
  Qed.

  Lemma older_step : forall st ev, older st (pstep st ev).
  Proof.
    apply (step_moves P apply sel tagf cfgs older (fun _ H => H) (fun _ _ _ F G H => F (G H))); intros;
      try apply older_loc_op; try exact (fun H => H).
    unfold us_event. destruct (is_up P st k); exact (fun H => H).
  Qed.

  Lemma feed_dump : forall c (vis : route path -> list path) (rs : list (pfx * route path)) v a,
    NoDup (map fst rs) -> (forall p, In p (map fst rs) -> LocView.view_get (N.of_nat p) v = []) ->
    let r := fold_left (LocView.feed_step P apply (sc_sess P c))
                       (map (fun pr : pfx * route path => (N.of_nat (fst pr), vis (snd pr))) rs) (v, a) in
    snd r = fold_left (AdjRIBOut.step P apply (sc_sess P c))
                      (flat_map (fun pr : pfx * route path => map (AdjRIBOut.OAdd (N.of_nat (fst pr))) (vis (snd pr))) rs) a /\
    (forall p, LocView.view_get (N.of_nat p) (fst r) =
               match lookup p rs with Some x => vis x | None => LocView.view_get (N.of_nat p) v end).
  Proof.
    intros c vis rs. induction rs as [|[p0 r0] rs IH]; intros v a ND HV; cbn [map fold_left flat_map fst snd].
    - split; [reflexivity|]. intros p. reflexivity.
    - inversion ND as [|x l Hn ND']; subst.
      cbn [LocView.feed_step]. rewrite (HV p0) by (now left).
      rewrite ExportViewC.change_ops_nil.
      specialize (IH (LocView.view_set (N.of_nat p0) (vis r0) v)
                     (fold_left (AdjRIBOut.step P apply (sc_sess P c)) (map (AdjRIBOut.OAdd (N.of_nat p0)) (vis r0)) a) ND').
      destruct IH as [I1 I2].
      { intros p Hp. rewrite ExportViewC.view_get_set_other.
        - apply HV. now right.
        - intros ->%Nat2N.inj. contradiction. }
      cbv zeta in I1, I2. split.
      + rewrite I1. now rewrite fold_left_app.
      + intros p. rewrite I2. cbn [lookup]. destruct (p0 =? p) eqn:E.
        * apply Nat.eqb_eq in E. subst p.
          assert (HL : lookup p0 rs = None) by (apply LocRIBClientsProofs.lookup_None_keys; exact Hn).
          rewrite HL. apply ExportViewC.view_get_set_same.
        * destruct (lookup p rs); [reflexivity|]. apply ExportViewC.view_get_set_other.
          intros ->%Nat2N.inj. now rewrite Nat.eqb_refl in E.
  Qed.

  Definition ups (st : pst) : list bool := map (ss_up P) (ps_sess P st).

  Lemma ups_nth : forall st k s, nth_error (ps_sess P st) k = Some s -> nth_error (ups st) k = Some (ss_up P s).
  Proof. intros. unfold ups. now apply map_nth_error. Qed.

  Lemma Oinv_register : forall st k c,
    Oinv st -> nth_error cfgs k = Some c -> nth_error (ups st) k = Some true -> lookup k (clients (ps_loc P st)) = None ->
    Oinv (loc_op st (ORegister k (sc_opts P c))).
  Proof.
    intros st k c HI Hc Hu LK. set (o := sc_opts P c). pose proof (Oinv_RInv st HI) as HR.
    pose proof (lstep_register (ps_loc P st) k o HR) as Hs'. set (loc := ps_loc P st) in *.
    set (loc' := mkState (routes loc) (put k o (clients loc)) (S (clock loc))) in *.
    apply (Oinv_loc_op st _ _ _ _ _ HI Hs' eq_refl); [intros p; now left|].
    intros j cj s0 s' Hcj Hs0 O0 F.
    assert (ELK : lookup j (clients loc') = if k =? j then Some o else lookup j (clients loc)) by apply LocRIBClientsProofs.lookup_put.
    unfold noted in F. rewrite ELK, ops_of_dump in F. destruct (Nat.eqb_spec k j) as [<-|NE].
    - (* the registering session *)
      rewrite Hc in Hcj. injection Hcj as <-. rewrite Nat.eqb_refl in F.
      rewrite (ups_nth st k s0 Hs0) in Hu. apply (Osess_unregistered _ _ _ _ LK) in O0. destruct O0 as [E|[Hout Hh]]; [congruence|].
      destruct F as [Fu [Fo Fh]]. apply (Osess_registered loc' k c s' o); [exact ELK|].
      split; [reflexivity|]. split; [congruence|]. unfold feedof. rewrite Fh, Fo, Hh, Hout. cbn [app].
      assert (EM : map (fun p : nat => (N.of_nat p, visible o loc' p)) (map fst (routes loc')) =
                   map (fun pr : pfx * route path => (N.of_nat (fst pr), map snd (limit_slice path o (snd pr)))) (routes loc)).
      { unfold loc' at 2. cbn [routes]. rewrite map_map. apply map_ext_in. intros [p r] Hin. cbn [fst snd]. f_equal.
        rewrite visible_route. unfold route_at, loc'. cbn [routes].
        rewrite (LocRIBClientsProofs.In_lookup _ (routes loc) p r); [reflexivity| |exact Hin]. now destruct HR. }
      rewrite EM. unfold LocView.feed.
      destruct (feed_dump c (fun r => map snd (limit_slice path o r)) (routes loc) [] (AdjRIBOut.init P (sc_exp P c))) as [F1 F2].
      { now destruct HR. }
      { intros p _. reflexivity. }
      split; [symmetry; exact F1|].
      intros p. etransitivity; [exact (F2 p)|]. rewrite visible_route. unfold route_at, loc'. cbn [routes].
      destruct (lookup p (routes loc)); [reflexivity|]. cbn. now rewrite limit_slice_nil.
    - assert (EJ : (j =? k) = false) by (apply Nat.eqb_neq; congruence). rewrite EJ in F.
      apply (Osess_keep loc loc' j cj s0 s'); [revert F; now destruct (lookup j (clients loc))|exact ELK|reflexivity|exact O0].
  Qed.

  (* one lemma for the two moves: in between session k is unregistered and still up, which Osess excludes *)
  Lemma Oinv_unregister_down : forall st k,
    Oinv st ->
    Oinv (with_sess P (loc_op st (OUnregister k))
                    (upd_nth k (fun s0 => set_up P s0 false) (ps_sess P (loc_op st (OUnregister k))))).
  Proof.
    intros st k HI. set (loc := ps_loc P st). set (loc' := mkState (routes loc) (del k (clients loc)) (S (clock loc))).
    assert (Hs' : lstep loc (OUnregister k) = Ok loc' []) by reflexivity.
    pose proof (Oinv_lstep st _ _ _ HI Hs') as HR'. destruct HI as [HL _ HS HO].
    constructor; cbn [with_sess ps_sess ps_loc ps_seen]; rewrite ?(loc_op_ok P apply sel tagf cfgs st _ loc' [] Hs').
    - now rewrite upd_nth_length, (loc_op_length P apply sel tagf cfgs).
    - exact HR'.
    - intros p. change (ps_seen P (loc_op st (OUnregister k))) with (ps_seen P st ++ []). rewrite app_nil_r. apply HS.
    - intros j cj s' Hcj Hs''.
      assert (ELK : lookup j (clients loc') = if k =? j then None else lookup j (clients loc)) by apply LocRIBClientsProofs.lookup_del.
      destruct (Nat.eqb_spec k j) as [<-|NE].
      + apply (Osess_unregistered _ _ _ _ ELK). left.
        rewrite nth_error_upd in Hs''. destruct (nth_error (ps_sess P (loc_op st (OUnregister k))) k); now inversion Hs''.
      + rewrite nth_error_upd_other in Hs'' by congruence.
        destruct (loc_op_fed st _ loc' [] [] None j cj s' Hs' eq_refl Hcj Hs'') as [s0 [Hs0 F]].
        apply (Osess_keep loc loc' j cj s0 s'); [|exact ELK|reflexivity|now apply HO].
        unfold noted in F. now destruct (lookup j (clients loc')).
  Qed.

  Lemma clients_register : forall st k o, Oinv st ->
    clients (ps_loc P (loc_op st (ORegister k o))) = put k o (clients (ps_loc P st)).
  Proof.
    intros st k o HI. unfold Pipeline.loc_op. now rewrite (lstep_register _ k o (Oinv_RInv st HI)).
  Qed.

  Lemma clients_route_op : forall st o, plain_op o -> clients (ps_loc P (loc_op st o)) = clients (ps_loc P st).
  Proof.
    intros st o Ho. unfold Pipeline.loc_op. destruct o; try contradiction; now erewrite lstep_route by reflexivity.
  Qed.

  Lemma ups_loc_op : forall st o, ups (loc_op st o) = ups st.
  Proof.
    intros st o. unfold ups.
    assert (G : forall ss : list sst, map (ss_up P) ss = map (fun t : bool * AdjRIBIn.st * list AdjRIBIn.op => fst (fst t)) (map (inpart P) ss))
      by (intros; rewrite map_map; reflexivity).
    rewrite !G. now rewrite (loc_op_inpart P apply sel tagf cfgs).
  Qed.

  Lemma ups_upd : forall st k f, (forall s, ss_up P (f s) = ss_up P s) ->
    ups (with_sess P st (upd_nth k f (ps_sess P st))) = ups st.
  Proof. intros st k f H. unfold ups. cbn [with_sess ps_sess]. apply map_upd_nth, H. Qed.

  (* what the calls on the Adj-RIB-Ins leave of the sending side *)
  Definition calm (a b : pst) : Prop :=
    older a b /\ (locrib_paths_distinct P b -> Oinv a -> Oinv b) /\ ups b = ups a /\ clients (ps_loc P b) = clients (ps_loc P a).

  Lemma calm_refl : forall st, calm st st.
  Proof. intros st. unfold calm, older. auto. Qed.

  Lemma calm_trans : forall a b c, calm a b -> calm b c -> calm a c.
  Proof.
    intros a b c [N1 [O1 [U1 C1]]] [N2 [O2 [U2 C2]]]. split; [exact (fun H => N1 (N2 H))|]. split; [exact (fun H HI => O2 H (O1 (N2 H) HI))|split; congruence].
  Qed.

  Lemma calm_in_op : forall k st o, not_replace o -> calm st (in_op k st o).
  Proof.
    apply (in_op_moves P apply sel tagf cfgs calm calm_refl calm_trans).
    - intros st k i o. split; [exact (fun H => H)|]. split; [|split; [now apply ups_upd|reflexivity]].
      intros _ HI. apply Oinv_upd; [exact HI|]. intros c0 s0 _ _ O0. exact O0.   (* set_in leaves what Osess reads *)
    - intros st o Ho. split; [apply older_loc_op|]. split; [|split; [apply ups_loc_op|now apply clients_route_op]].
      intros HN HI. destruct o; try contradiction; now eapply Oinv_route.
  Qed.

  Lemma calm_broadcast : forall js ops st, Forall vrf_op ops -> calm st (vrf_broadcast P apply sel tagf cfgs js ops st).
  Proof.
    intros js ops st VO. apply (broadcast_rel P apply sel tagf cfgs calm); [exact calm_refl|exact calm_trans|exact VO|]. intros j a o Ho.
    apply calm_in_op. now destruct o.
  Qed.

  (* a session that is up is registered at the Loc-RIB (between events) *)
  Definition Reg (st : pst) : Prop :=
    forall j, nth_error (ups st) j = Some true -> lookup j (clients (ps_loc P st)) <> None.

  (* session k comes up and is registered (x = Some o), or goes down and is unregistered (x = None) *)
  Lemma Reg_change : forall st st' k x,
    ups st' = upd_nth k (fun _ => is_some x) (ups st) ->
    (forall j, lookup j (clients (ps_loc P st')) = if k =? j then x else lookup j (clients (ps_loc P st))) ->
    Reg st -> Reg st'.
  Proof.
    intros st st' k x Hu Hl HReg j Hj. rewrite Hu in Hj. rewrite Hl. destruct (Nat.eqb_spec k j) as [<-|NE].
    - rewrite nth_error_upd in Hj. destruct x; [discriminate|]. destruct (nth_error (ups st) k); discriminate.
    - rewrite nth_error_upd_other in Hj by congruence. now apply HReg.
  Qed.

  Lemma Oinv_up : forall st k, Oinv st -> Forall (@NoDup path) (ps_seen P (pstep st (EUp k))) ->
    Oinv (pstep st (EUp k)) /\ (Reg st -> Reg (pstep st (EUp k))).
  Proof.
    intros st k HI HN. cbn [Pipeline.step] in *.
    destruct (nth_error cfgs k) as [c|] eqn:Hc; [|now split]. destruct (is_up P st k) eqn:Hup; [now split|].
    destruct (sess_of_cfg P cfgs st k c (o_len st HI) Hc) as [s Hs].
    assert (Hdown : ss_up P s = false) by (unfold is_up in Hup; now rewrite Hs in Hup).
    set (st1 := with_sess P st _) in *. set (st2 := vrf_broadcast P apply sel tagf cfgs _ _ st1) in *. set (st3 := in_op k st2 _) in *.
    pose proof (Osess_down _ k c s (o_sess st HI k c s Hc Hs) Hdown) as LK.
    assert (O1 : Oinv st1).
    { apply Oinv_upd; [exact HI|]. intros c0 s0 Hc0 _ _. rewrite Hc in Hc0. injection Hc0 as <-.
      apply (Osess_unregistered _ _ _ _ LK). right. split; reflexivity. }
    destruct (calm_trans st1 st2 st3 (calm_broadcast _ _ st1 (vrf_add_ops P c)) (calm_in_op k st2 (AdjRIBIn.Register 0%N) I)) as [_ [O3 [UPS3 C3]]].
    specialize (O3 (older_loc_op st3 _ HN) O1). change (ps_loc P st1) with (ps_loc P st) in C3.
    replace (ups st1) with (upd_nth k (fun _ => true) (ups st)) in UPS3 by (symmetry; now apply map_upd_nth_comm).
    split.
    - apply (Oinv_register st3 k c O3 Hc); [|now rewrite C3].
      rewrite UPS3. apply nth_error_upd_same with (x := ss_up P s). now apply ups_nth.
    - apply (Reg_change st _ k (Some (sc_opts P c))); rewrite ?ups_loc_op, ?(clients_register st3 k (sc_opts P c) O3), ?C3;
        [exact UPS3|intros j; apply LocRIBClientsProofs.lookup_put].
  Qed.

  Lemma Oinv_down : forall st k, Oinv st -> Forall (@NoDup path) (ps_seen P (pstep st (EDown k))) ->
    Oinv (pstep st (EDown k)) /\ (Reg st -> Reg (pstep st (EDown k))).
  Proof.
    intros st k HI HN. cbn [Pipeline.step] in *.
    destruct (nth_error cfgs k) as [c|]; [|now split]. destruct (negb (is_up P st k)); [now split|].
    set (st1 := vrf_broadcast P apply sel tagf cfgs _ _ st) in *. set (st2 := in_op k st1 _) in *.
    destruct (calm_trans st st1 st2 (calm_broadcast _ _ st (vrf_del_ops P c)) (calm_in_op k st1 (AdjRIBIn.Unregister 0%N) I)) as [_ [O2 [UPS2 C2]]].
    specialize (O2 (older_loc_op st2 _ HN) HI).
    split; [now apply Oinv_unregister_down|].
    apply (Reg_change st _ k None).
    + unfold ups at 1. cbn [with_sess ps_sess].
      rewrite (map_upd_nth_comm _ _ (ss_up P) (fun s0 => set_up P s0 false) (fun _ => false)) by reflexivity.
      fold (ups (loc_op st2 (OUnregister k))). now rewrite ups_loc_op, UPS2.
    + intros j. cbn [with_sess ps_loc].
      change (clients (ps_loc P (loc_op st2 (OUnregister k)))) with (del k (clients (ps_loc P st2))).
      rewrite C2. apply LocRIBClientsProofs.lookup_del.
  Qed.

  Lemma Oinv_in_op : forall st k o, not_replace o -> Oinv st -> Forall (@NoDup path) (ps_seen P (in_op k st o)) ->
    Oinv (in_op k st o) /\ (Reg st -> Reg (in_op k st o)).
  Proof.
    intros st k o NR HI HN. destruct (calm_in_op k st o NR) as [_ [O [U C]]]. split; [exact (O HN HI)|]. unfold Reg. now rewrite U, C.
  Qed.

  Lemma Oinv_sender : forall st k l, Oinv st -> Oinv (us_event P cfgs k l st) /\ (Reg st -> Reg (us_event P cfgs k l st)).
  Proof.
    intros st k l HI. unfold us_event, with_cfg. destruct (is_up P st k); [|now split].
    destruct (nth_error cfgs k); [|now destruct st]. split.
    - apply Oinv_upd; [exact HI|]. intros c0 s0 _ _ O0. exact O0.   (* set_out leaves what Osess reads *)
    - unfold Reg. now rewrite ups_upd.
  Qed.

  Lemma Oinv_step : forall st ev, Oinv st -> Forall (@NoDup path) (ps_seen P (pstep st ev)) ->
    Oinv (pstep st ev) /\ (Reg st -> Reg (pstep st ev)).
  Proof.
    intros st ev HI HN. destruct ev as [k|k|k p q|k p i|k key|k].
    - now apply Oinv_up.
    - now apply Oinv_down.
    - cbn [Pipeline.step] in *. destruct (is_up P st k); [now apply Oinv_in_op|now split].
    - cbn [Pipeline.step] in *. destruct (is_up P st k); [now apply Oinv_in_op|now split].
    - now apply Oinv_sender.
    - now apply Oinv_sender.
  Qed.

  Lemma Oinv_init : Oinv (Pipeline.init P cfgs).
  Proof.
    constructor; unfold Pipeline.init; cbn [ps_sess ps_loc ps_seen].
    - apply map_length.
    - exists []. apply (LocRIBClientsProofs.init_inv path).
    - intros p. now left.
    - intros j c s Hc Hs. apply Osess_unregistered; [reflexivity|]. left.
      rewrite nth_error_map in Hs. destruct (nth_error cfgs j); [|discriminate]. inversion Hs. reflexivity.
  Qed.

  Lemma Reg_init : Reg (Pipeline.init P cfgs).
  Proof.
    intros j Hj. unfold ups, Pipeline.init in Hj. cbn [ps_sess] in Hj. rewrite map_map in Hj.
    rewrite nth_error_map in Hj. destruct (nth_error cfgs j); discriminate.
  Qed.

  Lemma Oinv_run : forall evs, locrib_paths_distinct P (prun evs) -> Oinv (prun evs) /\ Reg (prun evs).
  Proof.
    intros evs. unfold Pipeline.run, locrib_paths_distinct.
    apply (fold_left_invariant _ (fun st => Forall (@NoDup path) (ps_seen P st) -> Oinv st /\ Reg st)).
    - intros st ev _ H HN. destruct (H (older_step st ev HN)) as [HI HR].
      destruct (Oinv_step st ev HI HN) as [HI' HR']. auto.
    - intros _. split; [apply Oinv_init|apply Reg_init].
  Qed.

  (* C04 + C08 (+ C02 through sel), composed: in any state of the invariant, inside the guards of C08 on what the Loc-RIB
     let the session see, the Adj-RIB-Out of a session that is up is, per prefix, the export view of the first 1/N
     selected candidates *)
  Theorem Oinv_ribout : forall st j c s,
    Oinv st -> Reg st ->
    nth_error cfgs j = Some c -> nth_error (ps_sess P st) j = Some s -> ss_up P s = true ->
    ExportViewSpec.guards (apply (sc_exp P c)) (sc_sess P c) (ss_hist P s) ->
    AdjRIBOut.errs (ss_out P s) = 0%N ->
    lookup j (clients (ps_loc P st)) = Some (sc_opts P c) /\
    forall p : N,
      Permutation (map (ExportViewSpec.norm (sc_sess P c)) (AdjRIBOut.tbl_get p (AdjRIBOut.tbl (ss_out P s))))
                  (map (ExportViewSpec.norm (sc_sess P c))
                       (ExportViewSpec.export_view (apply (sc_exp P c)) (sc_sess P c) p
                          (visible (sc_opts P c) (ps_loc P st) (lpfx p)))).
  Proof.
    intros st j c s HI HReg Hc Hs Hu HG HE.
    assert (HL : lookup j (clients (ps_loc P st)) <> None).
    { apply HReg. rewrite <- Hu. now apply ups_nth. }
    destruct (lookup j (clients (ps_loc P st))) as [o|] eqn:EL; [|congruence].
    destruct (proj1 (Osess_registered _ j c s o EL) (o_sess _ HI j c s Hc Hs)) as [-> [_ [Hout Hview]]]. split; [reflexivity|]. intros p.
    unfold feedof in *. rewrite Hout in HE |- *.
    pose proof (ExportViewC.ribout_is_export_view_partial P apply (sc_sess P c) (sc_exp P c) (ss_hist P s) HG HE p) as HP.
    rewrite <- (N2Nat.id p) in HP at 3. rewrite Hview in HP. unfold lpfx. exact HP.
  Qed.

End Out.
