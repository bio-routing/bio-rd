(* C15 text proofs: printing an address and parsing the text gives what IPFromBytes makes of the
   address's bytes (ip_string_bytes, for every address); the bytes give the address back, except
   that an IPv6 address inside ::ffff:0:0/96 comes back as the IPv4 address (IPFromBytes_Bytes,
   v4mapped_bytes; parse_format6 puts the two together).  Then Prefix.String and PrefixFromString
   (parse_format_pfx). *)
From Coq Require Import ZArith Lia Bool List.
From BioVerif Require Import Lib.Word Lib.WordLemmas Model.NetArith Model.IPText Spec.NetSpec
  Proofs.NetProofs Proofs.IPTextBasics Proofs.IPTextParse.
Import ListNotations.

Lemma parse4_octet_dot o r i len prev pos fields :
  isbyte o -> 0 <= i -> i + Z.of_nat (length (fmt_dec o)) < len - 1 -> pos < 3 ->
  parse4_loop (fmt_dec o ++ c_dot :: r) i len prev 0 pos 0 fields =
  parse4_loop r (i + Z.of_nat (length (fmt_dec o)) + 1) len c_dot 0 (pos + 1) 0 (fields ++ [o]).
Proof.
  intros Ho Hi Hlen Hpos. destruct (octet_facts o Ho) as (Hd & Hl & Hlast & _).
  rewrite (parse4_digits _ _ _ _ _ _ _ _ _ _ _ Hd).
  cbn [parse4_loop]. change (is_digit c_dot) with false. change (c_dot =? c_dot) with true. cbv iota.
  rewrite (last_indep _ prev (-1)) by exact Hl. rewrite Hlast.
  destruct (Z.eqb_spec (i + Z.of_nat (length (fmt_dec o))) 0); [lia|].
  destruct (Z.eqb_spec (i + Z.of_nat (length (fmt_dec o))) (len - 1)); [lia|].
  destruct (Z.eqb_spec pos 3); [lia|]. cbn [orb].
  unfold wconv. rewrite wrap_small by (unfold isbyte in Ho; lia). reflexivity.
Qed.

Lemma parse4_octet_end o i len prev fields :
  isbyte o ->
  parse4_loop (fmt_dec o) i len prev 0 3 0 fields = Some (fields, o, 3).
Proof.
  intros Ho. destruct (octet_facts o Ho) as (Hd & _).
  rewrite <- (app_nil_r (fmt_dec o)). rewrite (parse4_digits _ _ _ _ _ _ _ _ _ _ _ Hd). reflexivity.
Qed.

Definition dotted (o1 o2 o3 o4 : Z) : str :=
  fmt_dec o1 ++ [c_dot] ++ fmt_dec o2 ++ [c_dot] ++ fmt_dec o3 ++ [c_dot] ++ fmt_dec o4.

Lemma ParseIP_dotted o1 o2 o3 o4 : isbyte o1 -> isbyte o2 -> isbyte o3 -> isbyte o4 ->
  ParseIP (dotted o1 o2 o3 o4) = Some ([0; 0; 0; 0; 0; 0; 0; 0; 0; 0; 255; 255] ++ [o1; o2; o3; o4]).
Proof.
  intros H1 H2 H3 H4.
  destruct (octet_facts o1 H1) as (_ & _ & _ & D1 & _). destruct (octet_facts o4 H4) as (_ & L4 & _).
  unfold ParseIP, dotted. cbn [app].
  rewrite (first_sep_class is_digit) by (try reflexivity; exact D1). cbn [first_sep].
  change (c_dot =? c_dot) with true. cbv iota.
  unfold parseIPv4.
  set (len := Z.of_nat (length (fmt_dec o1 ++ c_dot :: fmt_dec o2 ++ c_dot :: fmt_dec o3 ++ c_dot :: fmt_dec o4))).
  assert (Hlen : len = Z.of_nat (length (fmt_dec o1)) + 1 + Z.of_nat (length (fmt_dec o2)) + 1
                       + Z.of_nat (length (fmt_dec o3)) + 1 + Z.of_nat (length (fmt_dec o4))).
  { unfold len. rewrite !app_length. cbn [length]. rewrite !app_length. cbn [length]. rewrite !app_length.
    cbn [length]. lia. }
  rewrite parse4_octet_dot by (auto; lia).
  rewrite parse4_octet_dot by (auto; lia).
  rewrite parse4_octet_dot by (auto; lia).
  change (0 + 1 + 1 + 1) with 3. rewrite parse4_octet_end by assumption.
  cbn [Z.ltb Z.compare Pos.compare Pos.compare_cont app].
  unfold wconv. rewrite wrap_small by (unfold isbyte in H4; lia). reflexivity.
Qed.

Definition mapped_bytes (p : list Z) : bool :=
  forallb (fun x => x =? 0) (firstn 10 p) && (byte_nth p 10 =? 255) && (byte_nth p 11 =? 255).

Lemma To4_16 p : length p = 16%nat ->
  To4 p = if mapped_bytes p then Some (skipn 12 p) else None.
Proof. intros HL. unfold To4, mapped_bytes. rewrite HL. reflexivity. Qed.

Lemma IPFromString_bytes s p : length p = 16%nat -> ParseIP s = Some p -> IPFromString s = IPFromBytes p.
Proof.
  intros HL Hp. unfold IPFromString. rewrite Hp. pose proof (To4_16 p HL) as T.
  destruct (mapped_bytes p); rewrite T; [|reflexivity].
  unfold IPFromBytes at 2. rewrite T. unfold IPFromBytes, To4. rewrite skipn_length, HL. reflexivity.
Qed.

Lemma ip_string4 a : legacy a = true -> ip_string a = Some (stringIPv4 a).
Proof. intros F. unfold ip_string. rewrite F. reflexivity. Qed.

Theorem ip_string_bytes a : exists s, ip_string a = Some s /\ IPFromString s = IPFromBytes (Bytes a).
Proof.
  unfold Bytes. destruct (legacy a) eqn:F; cbn [negb].
  - exists (stringIPv4 a). split; [exact (ip_string4 a F)|].
    unfold stringIPv4, Bytes. rewrite F. cbn [negb].
    refine (IPFromString_bytes _ ([0; 0; 0; 0; 0; 0; 0; 0; 0; 0; 255; 255] ++ bytesIPv4 a) eq_refl _).
    apply ParseIP_dotted; apply isbyte_wconv8.
  - rewrite ip_string6 by exact F.
    destruct (string6_ParseIP (bytesIPv6 a) eq_refl (bytesIPv6_bytes a)) as (s & Hs & Hp).
    exists s. split; [exact Hs | exact (IPFromString_bytes s (bytesIPv6 a) eq_refl Hp)].
Qed.

Lemma IPv4FromOctets_spec o1 o2 o3 o4 : isbyte o1 -> isbyte o2 -> isbyte o3 -> isbyte o4 ->
  IPv4FromOctets o1 o2 o3 o4 = mkip 0 (o1 * 2 ^ 24 + o2 * 2 ^ 16 + o3 * 2 ^ 8 + o4) true.
Proof.
  unfold isbyte. intros H1 H2 H3 H4. unfold IPv4FromOctets, IPv4. rewrite !wshl_small by lia.
  rewrite (wadd_small 32 (o1 * _)), (wadd_small 32 (_ + _) (o3 * _)), wadd_small by lia.
  unfold wconv. rewrite wrap_small by lia. reflexivity.
Qed.

Lemma IPFromBytes_low x : 0 <= x < 2 ^ 64 ->
  IPFromBytes [byte_at x 24; byte_at x 16; byte_at x 8; wconv 8 (wand x 255)] = Some (mkip 0 (x mod 2 ^ 32) true).
Proof.
  intros Hx.
  change (IPFromBytes _) with (Some (IPv4FromOctets (byte_at x 24) (byte_at x 16) (byte_at x 8) (wconv 8 (wand x 255)))).
  rewrite IPv4FromOctets_spec by apply isbyte_wconv8.
  rewrite !byte_at_spec, low_byte_spec, <- word32_of_bytes by lia. reflexivity.
Qed.

(* an IPv6 value inside ::ffff:0:0/96 *)
Definition v4mapped (a : ip) : Prop := hi a = 0 /\ lo a / 2 ^ 32 = 65535.

Lemma word8_mapped b12 b13 b14 b15 : isbyte b12 -> isbyte b13 -> isbyte b14 -> isbyte b15 ->
  word8 0 0 255 255 b12 b13 b14 b15 / 2 ^ 32 = 65535.
Proof.
  unfold isbyte, word8. intros. symmetry.
  apply (Z.div_unique _ _ _ (b12 * 2 ^ 24 + b13 * 2 ^ 16 + b14 * 2 ^ 8 + b15)); lia.
Qed.

Lemma v4mapped_bytes a : wf_ip a -> legacy a = false ->
  (mapped_bytes (bytesIPv6 a) = true <-> v4mapped a).
Proof.
  intros W F. destruct (wf6 _ W F) as [Hh Hl]. unfold mapped_bytes.
  change (byte_nth (bytesIPv6 a) 10) with (byte_at (lo a) 40).
  change (byte_nth (bytesIPv6 a) 11) with (byte_at (lo a) 32).
  unfold bytesIPv6, v4mapped. cbn [firstn forallb]. split.
  - intros E. rewrite !andb_true_iff, !Z.eqb_eq in E.
    destruct E as [[(E0 & E1 & E2 & E3 & E4 & E5 & E6 & E7 & E8 & E9 & _) E10] E11].
    pose proof (word8_of (hi a) Hh) as Wh. pose proof (word8_of (lo a) Hl) as Wl.
    rewrite E0, E1, E2, E3, E4, E5, E6, E7 in Wh. rewrite E8, E9, E10, E11 in Wl.
    split; [rewrite <- Wh; reflexivity|].
    rewrite <- Wl. apply word8_mapped; apply isbyte_wconv8.
  - intros [E0 E1]. rewrite E0.
    assert (D : forall k, 0 <= k -> lo a / 2 ^ (32 + k) = 65535 / 2 ^ k).
    { intros k Hk. rewrite Z.pow_add_r by lia. rewrite <- Z.div_div by (try apply Z.pow_pos_nonneg; lia).
      rewrite E1. reflexivity. }
    rewrite !byte_at_spec by lia.
    change 56 with (32 + 24). change 48 with (32 + 16). change 40 with (32 + 8).
    rewrite !D by lia. change (2 ^ 32) with (2 ^ (32 + 0)). rewrite D by lia. reflexivity.
Qed.

(* the exception is net.IP.To4 in IPFromBytes *)
Theorem IPFromBytes_Bytes a : wf_ip a ->
  IPFromBytes (Bytes a) =
  Some (if negb (legacy a) && mapped_bytes (bytesIPv6 a) then mkip 0 (lo a mod 2 ^ 32) true else a).
Proof.
  intros W. unfold Bytes. destruct a as [h l [|]]; cbn [negb andb legacy].
  - destruct (wf4 _ W eq_refl) as [H0 R]. cbn [hi lo] in *. subst h.
    unfold bytesIPv4. rewrite ToUint32_small by exact R. cbn [lo].
    rewrite IPFromBytes_low, Z.mod_small by lia. reflexivity.
  - destruct (wf6 _ W eq_refl) as [Hh Hl]. unfold IPFromBytes. rewrite To4_16 by reflexivity.
    destruct (mapped_bytes _); [exact (IPFromBytes_low l Hl)|].
    change (Z.of_nat (length (bytesIPv6 (mkip h l false))) =? 16) with true. cbv iota.
    rewrite blocks_of_bytesIPv6 by assumption. reflexivity.
Qed.

Theorem parse_format6 a : wf_ip a -> legacy a = false ->
  exists s, ip_string a = Some s /\
            IPFromString s = Some (if mapped_bytes (bytesIPv6 a)
                                   then mkip 0 (lo a mod 2 ^ 32) true else a).
Proof.
  intros W F. destruct (ip_string_bytes a) as (s & Hs & Hp). rewrite IPFromBytes_Bytes, F in Hp by exact W.
  exists s. split; [exact Hs | exact Hp].
Qed.

Definition noslash (s : str) : Prop := forallb (fun c => negb (c =? c_slash)) s = true.

Lemma noslash_app a b : noslash a -> noslash b -> noslash (a ++ b).
Proof. unfold noslash. intros Ha Hb. rewrite forallb_app, Ha, Hb. reflexivity. Qed.

Lemma noslash_class (P : Z -> bool) ds :
  P c_slash = false -> forallb P ds = true -> noslash ds.
Proof.
  intros HP. unfold noslash. induction ds as [|c ds IH]; intros H; [reflexivity|].
  cbn [forallb] in *. apply andb_true_iff in H. destruct H as [Hc H]. rewrite (IH H), andb_true_r.
  destruct (Z.eqb_spec c c_slash) as [-> | ]; [congruence | reflexivity].
Qed.

Lemma noslash_group g : inr16 g -> noslash (appendHex g).
Proof.
  intros Hg. apply (noslash_class is_hex); [reflexivity | apply appendHex_is_hex, Hg].
Qed.

Lemma noslash_tailj vs : Forall inr16 vs -> noslash (tailj (map appendHex vs)).
Proof.
  induction vs as [|g r IH]; intros H; [reflexivity|]. inversion H; subst.
  cbn [map tailj]. change (c_colon :: appendHex g ++ tailj (map appendHex r))
    with ([c_colon] ++ appendHex g ++ tailj (map appendHex r)).
  apply noslash_app; [reflexivity|]. apply noslash_app; [apply noslash_group; assumption | apply IH; assumption].
Qed.

Lemma noslash_joinv vs : Forall inr16 vs -> noslash (joinv vs).
Proof.
  destruct vs as [|g r]; intros H; [reflexivity|]. inversion H; subst. rewrite joinv_cons.
  apply noslash_app; [apply noslash_group; assumption | apply noslash_tailj; assumption].
Qed.

Lemma string6_noslash p s : Forall isbyte p -> string6_of p = Some s -> noslash s.
Proof.
  intros HB Hs. pose proof (hs_of_range p HB) as HR.
  destruct (string6_shape p) as (s' & Hs' & Sh). rewrite Hs in Hs'. injection Hs' as <-.
  destruct Sh as [-> | (A & B & _ & E & ->)]; [apply noslash_joinv, HR|].
  rewrite E, !Forall_app in HR.
  apply noslash_app; [apply noslash_joinv, HR|].
  apply (noslash_app [c_colon; c_colon]); [reflexivity | apply noslash_joinv, HR].
Qed.

Lemma noslash_dec o : isbyte o -> noslash (fmt_dec o).
Proof. intros Ho. apply (noslash_class is_digit); [reflexivity | apply (octet_facts o Ho)]. Qed.

Lemma ip_string_noslash a s : ip_string a = Some s -> noslash s.
Proof.
  destruct (legacy a) eqn:F.
  - unfold ip_string. rewrite F. intros E. injection E as <-.
    unfold stringIPv4, Bytes. rewrite F. cbn [negb].
    repeat (apply noslash_app; [first [reflexivity | apply noslash_dec, isbyte_wconv8]|]).
    apply noslash_dec, isbyte_wconv8.
  - rewrite ip_string6 by exact F. apply string6_noslash, bytesIPv6_bytes.
Qed.

Lemma split_slash_app s t cur : noslash s -> split_slash (s ++ t) cur = split_slash t (cur ++ s).
Proof.
  unfold noslash. revert cur. induction s as [|c s IH]; intros cur H; [rewrite app_nil_r; reflexivity|].
  cbn [forallb] in H. apply andb_true_iff in H. destruct H as [Hc H].
  cbn [app split_slash]. apply negb_true_iff in Hc. rewrite Hc, IH, <- app_assoc by exact H. reflexivity.
Qed.

Lemma split_slash_one s t cur : noslash s -> noslash t ->
  split_slash (s ++ c_slash :: t) cur = [cur ++ s; t].
Proof.
  intros Hs Ht. rewrite split_slash_app by exact Hs. cbn [split_slash].
  change (c_slash =? c_slash) with true. cbv iota.
  pose proof (split_slash_app t [] [] Ht) as E. rewrite app_nil_r in E. rewrite E. reflexivity.
Qed.

Lemma Atoi_dec o : isbyte o -> Atoi (fmt_dec o) = Some o.
Proof. intros Ho. apply (octet_facts o Ho). Qed.

Theorem parse_format_pfx p s a' :
  0 <= plen p < 256 ->
  ip_string (addr p) = Some s -> IPFromString s = Some a' ->
  pfx_string p = Some (s ++ [c_slash] ++ fmt_dec (plen p)) /\
  PrefixFromString (s ++ [c_slash] ++ fmt_dec (plen p)) = Some (mkpfx a' (plen p)).
Proof.
  intros L Hs Hp. unfold pfx_string. rewrite Hs. split; [reflexivity|].
  unfold PrefixFromString. cbn [app].
  rewrite split_slash_one by (first [apply (ip_string_noslash (addr p)); assumption | apply noslash_dec; exact L]).
  rewrite app_nil_l. rewrite Hp. rewrite Atoi_dec by exact L.
  unfold wconv. rewrite wrap_small by lia. reflexivity.
Qed.
