(* C29 proofs. [Inv t a] ties the table to the set of current advertisements. An operation on (s, r) touches the
   entry of r only, in the specification ([spec_step_at]) as in the table: [Add] and [Remove] are [store] of a new
   source list at r, which keeps [Inv] ([store_inv]); [Drop s] is a run of [Remove s k] over the keys
   ([drop_as_removes]), and the set may be replaced by one with the same elements ([Inv_ext]). That presence is per
   route is a fact about the specification alone ([spec_run_about]). *)
From Coq Require Import List NArith Bool Permutation.
Import ListNotations.
From BioVerif Require Import Lib.ListFacts Lib.KeyedTable Model.Merged Spec.MergedSpec.

(* [lookup], [set], [del] are Lib/KeyedTable's [get], [put], [del] on [N.eqb], by conversion *)
Lemma lookup_set r v m r' : lookup r' (set r v m) = if N.eqb r r' then Some v else lookup r' m.
Proof. exact (get_put N.eqb_eq r' r v m). Qed.

Lemma lookup_del r m r' : lookup r' (del r m) = if N.eqb r r' then None else lookup r' m.
Proof. exact (get_del N.eqb_eq r' r m). Qed.

Lemma mem_In s l : mem s l = true <-> In s l.
Proof.
  induction l as [|x l IH]; cbn; [split; [discriminate|tauto]|].
  rewrite orb_true_iff, N.eqb_eq, IH. tauto.
Qed.

Lemma swap_remove_notin s l : ~ In s l -> swap_remove s l = l.
Proof.
  induction l as [|x l IH]; cbn; auto. intros H.
  destruct (N.eqb x s) eqn:E.
  - apply N.eqb_eq in E. tauto.
  - f_equal. apply IH. tauto.
Qed.

Lemma swap_remove_perm s l : In s l -> Permutation l (s :: swap_remove s l).
Proof.
  induction l as [|x l IH]; cbn; [tauto|]. intros H.
  destruct (N.eqb x s) eqn:E.
  - apply N.eqb_eq in E. subst x. constructor. apply perm_trans with (rev l); [apply Permutation_rev|].
    destruct (rev l) as [|last rinit]; [constructor|apply perm_skip, Permutation_rev].
  - destruct H as [->|H]; [rewrite N.eqb_refl in E; discriminate|].
    eapply perm_trans; [apply perm_skip, IH, H | apply perm_swap].
Qed.

Lemma rib_remove_drop r l : rib_remove r l = drop_first (fun x => N.eqb x r) l.
Proof. induction l as [|y l IH]; simpl; [reflexivity|]. now rewrite IH. Qed.

Lemma one_less_spec s (l l' : list N) : NoDup l ->
  (In s l -> Permutation l (s :: l')) -> (~ In s l -> l' = l) ->
  NoDup l' /\ forall x, In x l' <-> In x l /\ x <> s.
Proof.
  intros ND HP HN. destruct (in_dec N.eq_dec s l) as [Hin|Hnot].
  - specialize (HP Hin). rewrite HP in ND. inversion ND as [|? ? Hs ND']; subst.
    split; [exact ND'|]. intros x. rewrite HP. cbn [In]. clear - Hs. intuition congruence.
  - rewrite (HN Hnot). split; [exact ND|]. clear - Hnot. intuition congruence.
Qed.

Lemma swap_remove_spec s l : NoDup l ->
  NoDup (swap_remove s l) /\ forall x, In x (swap_remove s l) <-> In x l /\ x <> s.
Proof. intros ND. apply one_less_spec; auto using swap_remove_perm, swap_remove_notin. Qed.

Lemma rib_remove_spec r l : NoDup l ->
  NoDup (rib_remove r l) /\ forall x, In x (rib_remove r l) <-> In x l /\ x <> r.
Proof.
  intros ND. rewrite rib_remove_drop. apply one_less_spec; [assumption| |].
  - intros H. apply drop_first_perm_eq; [exact H|]. intros y. apply N.eqb_eq.
  - intros H. apply drop_first_none. intros x Hx. apply N.eqb_neq. intros ->. contradiction.
Qed.

Definition sources_of (t : st) (r : rid) : list src :=
  match lookup r (routes t) with Some l => l | None => [] end.

Record Inv (t : st) (a : adv) : Prop := {
  inv_src : forall s r, In s (sources_of t r) <-> In (s, r) a;
  inv_wf  : forall r l, lookup r (routes t) = Some l -> l <> [] /\ NoDup l;
  inv_rib : forall r, In r (rib t) <-> lookup r (routes t) <> None;
  inv_nd  : NoDup (rib t)
}.

Lemma Inv_ext t a a' : (forall x, In x a <-> In x a') -> Inv t a -> Inv t a'.
Proof.
  intros E [A B C D]. split; auto. intros s r. rewrite A. apply E.
Qed.

Lemma inv_empty : Inv empty [].
Proof.
  split.
  - intros s r. cbn. tauto.
  - intros r l. cbn. discriminate.
  - intros r. cbn. split; [tauto|]. intros H; now apply H.
  - constructor.
Qed.

Lemma adv_mem_In s r a : adv_mem s r a = true <-> In (s, r) a.
Proof.
  unfold adv_mem. rewrite existsb_exists. split.
  - intros [[s' r'] [Hin H]]. cbn in H. apply andb_true_iff in H as [H1 H2].
    apply N.eqb_eq in H1, H2. now subst.
  - intros H. exists (s, r). cbn. now rewrite !N.eqb_refl.
Qed.

Lemma spec_step_at a o s r : In (s, r) (spec_step a o) <->
  if about r o
  then match o with Add s0 _ => s = s0 \/ In (s, r) a | Remove s0 _ | Drop s0 => In (s, r) a /\ s <> s0 end
  else In (s, r) a.
Proof.
  destruct o as [s0 r0|s0 r0|s0]; cbn.
  - destruct (adv_mem s0 r0 a) eqn:E; [apply adv_mem_In in E|cbn];
      destruct (N.eqb_spec r0 r) as [->|Hn]; intuition congruence.
  - rewrite filter_In. cbn. rewrite negb_true_iff, andb_false_iff, !N.eqb_neq.
    destruct (N.eqb_spec r0 r) as [->|Hn]; intuition congruence.
  - rewrite filter_In, negb_true_iff, N.eqb_neq. reflexivity.
Qed.

Lemma add_source_In s l x : In x (add_source s l) <-> x = s \/ In x l.
Proof.
  unfold add_source. destruct (mem s l) eqn:M.
  - apply mem_In in M. split; [auto|]. now intros [->|H].
  - rewrite in_app_iff. cbn. intuition.
Qed.

Lemma add_source_NoDup s l : NoDup l -> NoDup (add_source s l).
Proof.
  intros ND. unfold add_source. destruct (mem s l) eqn:M; [assumption|].
  apply NoDup_snoc; [assumption|rewrite <- mem_In; congruence].
Qed.

Definition store (r : rid) (l : list src) (t : st) : st :=
  match l, lookup r (routes t) with
  | [], None => t
  | [], Some _ => mk (del r (routes t)) (rib_remove r (rib t))   (* last source gone: withdraw from the Loc-RIB *)
  | _, None => mk (set r l (routes t)) (r :: rib t)              (* new route: install in the Loc-RIB *)
  | _, Some _ => mk (set r l (routes t)) (rib t)
  end.

Lemma add_as_store t s r : step t (Add s r) = store r (add_source s (sources_of t r)) t.
Proof.
  unfold store, sources_of. cbn [step]. destruct (lookup r (routes t)) as [l|]; [|reflexivity].
  destruct (add_source s l) eqn:E; [|reflexivity].
  unfold add_source in E. destruct (mem s l) eqn:M; [subst; discriminate|destruct l; discriminate].
Qed.

Lemma remove_as_store t s r : step t (Remove s r) = store r (swap_remove s (sources_of t r)) t.
Proof.
  unfold store, sources_of. cbn [step]. destruct (lookup r (routes t)) as [l|]; [|reflexivity].
  unfold del_route. destruct (swap_remove s l); reflexivity.
Qed.

Lemma store_inv t a r l a' :
  Inv t a -> NoDup l ->
  (forall s' r', In (s', r') a' <-> if N.eqb r r' then In s' l else In (s', r') a) ->
  Inv (store r l t) a'.
Proof.
  intros [A B C D] ND Ha.
  assert (Hm : forall r', lookup r' (routes (store r l t)) =
                 if N.eqb r r' then match l with [] => None | _ => Some l end else lookup r' (routes t)).
  { intros r'. unfold store.
    destruct l, (lookup r (routes t)) eqn:L; cbn [routes]; auto using lookup_set, lookup_del.
    destruct (N.eqb_spec r r') as [<-|Hn]; auto. }
  destruct (rib_remove_spec r (rib t) D) as [RND RIN].
  split.
  - intros s' r'. unfold sources_of. rewrite Hm, Ha. destruct (N.eqb r r'); [destruct l; reflexivity|apply A].
  - intros r' l0. rewrite Hm. destruct (N.eqb r r'); [|apply B].
    destruct l; intros [= <-]. split; [discriminate|assumption].
  - intros r'. rewrite Hm. unfold store.
    destruct l, (lookup r (routes t)) eqn:L; cbn [rib In]; rewrite ?RIN, C;
      destruct (N.eqb_spec r r') as [<-|Hn]; rewrite ?L; intuition congruence.
  - unfold store. destruct l, (lookup r (routes t)) eqn:L; cbn [rib]; auto.
    constructor; [rewrite C, L; tauto|exact D].
Qed.

Lemma sources_NoDup t a r : Inv t a -> NoDup (sources_of t r).
Proof.
  intros H. unfold sources_of. destruct (lookup r (routes t)) eqn:L; [apply (inv_wf _ _ H r), L|constructor].
Qed.

Lemma step_add_inv t a s r : Inv t a -> Inv (step t (Add s r)) (spec_step a (Add s r)).
Proof.
  intros H. rewrite add_as_store. apply (store_inv t a); [exact H|eapply add_source_NoDup, sources_NoDup, H|].
  intros s' r'. rewrite spec_step_at. cbn [about].
  destruct (N.eqb_spec r r') as [<-|Hn]; [|reflexivity]. now rewrite add_source_In, (inv_src _ _ H).
Qed.

Lemma step_remove_inv t a s r : Inv t a -> Inv (step t (Remove s r)) (spec_step a (Remove s r)).
Proof.
  intros H. destruct (swap_remove_spec s _ (sources_NoDup t a r H)) as [ND' IN'].
  rewrite remove_as_store. apply (store_inv t a); [exact H|exact ND'|].
  intros s' r'. rewrite spec_step_at. cbn [about].
  destruct (N.eqb_spec r r') as [<-|Hn]; [|reflexivity]. now rewrite IN', (inv_src _ _ H).
Qed.

(* Drop s = one Remove s k per key k present at loop entry *)
Lemma drop_as_removes t s :
  step t (Drop s) = fold_left step (map (Remove s) (map fst (routes t))) t.
Proof. symmetry. apply fold_left_map. Qed.

Lemma removes_inv s ks : forall t a, Inv t a ->
  Inv (fold_left step (map (Remove s) ks) t) (fold_left spec_step (map (Remove s) ks) a).
Proof.
  induction ks as [|k ks IH]; intros t a H; cbn [fold_left map]; auto.
  apply IH, step_remove_inv, H.
Qed.

Lemma spec_removes_at s ks : forall a s' r',
  In (s', r') (fold_left spec_step (map (Remove s) ks) a) <-> In (s', r') a /\ ~ (s' = s /\ In r' ks).
Proof.
  induction ks as [|k ks IH]; intros a s' r'; cbn [fold_left map In]; [tauto|].
  rewrite IH, spec_step_at. cbn [about]. destruct (N.eqb_spec k r') as [->|Hn]; tauto.
Qed.

Lemma step_drop_inv t a s : Inv t a -> Inv (step t (Drop s)) (spec_step a (Drop s)).
Proof.
  intros H. rewrite drop_as_removes.
  eapply Inv_ext; [|apply removes_inv, H].
  intros [s' r']. rewrite spec_removes_at, spec_step_at. cbn [about].
  assert (K : In (s', r') a -> In r' (map fst (routes t))); [|tauto].
  intros Hin. apply (inv_src _ _ H) in Hin. unfold sources_of in Hin.
  destruct (lookup r' (routes t)) as [l|] eqn:L; [|destruct Hin].
  apply (get_in_keys N.eqb_eq). eauto.
Qed.

Lemma step_inv t a o : Inv t a -> Inv (step t o) (spec_step a o).
Proof.
  destruct o; [apply step_add_inv|apply step_remove_inv|apply step_drop_inv].
Qed.

Lemma run_inv_gen ops : forall t a, Inv t a -> Inv (fold_left step ops t) (fold_left spec_step ops a).
Proof. apply fold_left_sim. intros t a o _. apply step_inv. Qed.

Lemma run_inv ops : Inv (run ops) (spec_run ops).
Proof. apply run_inv_gen, inv_empty. Qed.

Lemma Inv_present t a r : Inv t a -> (In r (rib t) <-> advertised a r).
Proof.
  intros [A B C D]. rewrite C. unfold advertised. split.
  - intros H. destruct (lookup r (routes t)) as [l|] eqn:L; [|congruence].
    destruct (B r l L) as [Hne _]. destruct l as [|s l]; [congruence|].
    exists s. apply A. unfold sources_of. rewrite L. now left.
  - intros [s H]. apply A in H. unfold sources_of in H.
    destruct (lookup r (routes t)); [discriminate|destruct H].
Qed.

Lemma client_run_glue evs : forall a, fold_left client_step evs a = fold_left spec_step (map glue evs) a.
Proof.
  induction evs as [|e evs IH]; intros a; cbn [fold_left map]; [reflexivity|].
  rewrite IH. destruct e; reflexivity.
Qed.

Lemma spec_run_about r ops : forall a a',
  (forall s, In (s, r) a <-> In (s, r) a') ->
  forall s, In (s, r) (fold_left spec_step ops a) <-> In (s, r) (fold_left spec_step (filter (about r) ops) a').
Proof.
  induction ops as [|o ops IH]; intros a a' H; cbn [fold_left filter]; [exact H|].
  destruct (about r o) eqn:Ab; cbn [fold_left]; apply IH; intros s.
  - rewrite !spec_step_at, Ab. destruct o; rewrite H; reflexivity.
  - rewrite spec_step_at, Ab. apply H.
Qed.
