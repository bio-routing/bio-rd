(* C04 proofs. [does] lists what one operation of the Loc-RIB model does: the route of one prefix is selected
   anew and the difference propagated, or the routes stay ([step_does]). The state invariant [RInv] is kept
   and rules out the panics ([step_RInv]). A route change sends each client the difference of its old and new
   [want] lists, which moves an account that is a permutation of the old list to one of the new
   ([diff_update]); a registration restarts the account with the dump; nothing else reaches it
   ([does_acct]). [CInv] says every account of the trace is right, [step_inv] folds [does_acct] over it. *)
From Coq Require Import List Arith Bool Permutation Lia.
Import ListNotations.
From BioVerif Require Import Lib.ListFacts Lib.KeyedTable Model.LocRIBClients Spec.LocRIBClientsSpec.

Definition keys {A : Type} (m : list (nat * A)) : list nat := map fst m.

(* [lookup] is Lib/KeyedTable's [get] on [Nat.eqb] (the type is an argument of the model's fixpoint, hence the
   induction); [del] is its [del] by conversion *)
Lemma lookup_get : forall A k (m : list (nat * A)), lookup k m = KeyedTable.get Nat.eqb k m.
Proof. induction m as [|[k' v'] m IH]; simpl; [|rewrite IH]; reflexivity. Qed.

Lemma lookup_In : forall A (m : list (nat * A)) k v,
  lookup k m = Some v -> In (k, v) m.
Proof. intros A m k v. rewrite lookup_get. apply (get_in Nat.eqb_eq). Qed.

Lemma lookup_None_keys : forall A (m : list (nat * A)) k,
  lookup k m = None <-> ~ In k (keys m).
Proof.
  intros A m k. rewrite lookup_get. split; [apply (get_none_notin Nat.eqb_eq)|apply (notin_get_none Nat.eqb_eq)].
Qed.

Lemma In_lookup : forall A (m : list (nat * A)) k v,
  NoDup (keys m) -> In (k, v) m -> lookup k m = Some v.
Proof. intros A m k v. rewrite lookup_get. apply (in_get Nat.eqb_eq). Qed.

Lemma NoDup_keys_del : forall A (m : list (nat * A)) k,
  NoDup (keys m) -> NoDup (keys (del k m)).
Proof. intros A m k. exact (del_nodup Nat.eqb k m). Qed.

Lemma lookup_del : forall A (m : list (nat * A)) k k',
  lookup k' (del k m) = if k =? k' then None else lookup k' m.
Proof. intros. rewrite !lookup_get. exact (get_del Nat.eqb_eq k' k m). Qed.

Lemma In_del : forall A (m : list (nat * A)) k x,
  In x (del k m) -> In x m /\ fst x <> k.
Proof. intros A m k x. apply (del_in Nat.eqb_eq). Qed.

Lemma insert_perm : forall A (m : list (nat * A)) k v, Permutation ((k, v) :: m) (insert k v m).
Proof.
  induction m as [|[k0 v0] m IH]; simpl; intros k v; [reflexivity|].
  destruct (k <? k0); [reflexivity|].
  eapply perm_trans; [apply perm_swap|apply perm_skip, IH].
Qed.

Lemma lookup_insert : forall A (m : list (nat * A)) k v k',
  lookup k m = None ->
  lookup k' (insert k v m) = if k =? k' then Some v else lookup k' m.
Proof.
  induction m as [|[k0 v0] m IH]; simpl; intros k v k' Hn; [reflexivity|].
  destruct (k0 =? k) eqn:E0; [discriminate|].
  destruct (k <? k0); simpl; [reflexivity|]. rewrite IH by assumption.
  destruct (Nat.eqb_spec k0 k') as [E1|E1]; [|reflexivity].
  subst. now rewrite Nat.eqb_sym, E0.
Qed.

Lemma lookup_put : forall A (m : list (nat * A)) k v k',
  lookup k' (put k v m) = if k =? k' then Some v else lookup k' m.
Proof.
  intros. unfold put. rewrite lookup_insert, lookup_del.
  - now destruct (k =? k').
  - now rewrite lookup_del, Nat.eqb_refl.
Qed.

Lemma NoDup_keys_put : forall A (m : list (nat * A)) k v,
  NoDup (keys m) -> NoDup (keys (put k v m)).
Proof.
  intros A m k v ND. unfold put, keys.
  eapply Permutation_NoDup; [apply Permutation_map, insert_perm|]. simpl. constructor.
  - apply lookup_None_keys. now rewrite lookup_del, Nat.eqb_refl.
  - now apply NoDup_keys_del.
Qed.

Lemma In_put : forall A (m : list (nat * A)) k v x,
  In x (put k v m) -> x = (k, v) \/ (In x m /\ fst x <> k).
Proof.
  intros A m k v x H. apply (Permutation_in _ (Permutation_sym (insert_perm _ _ _ _))) in H.
  destruct H as [H|H]; [now left|right; now apply In_del].
Qed.

Lemma filter_map_const : forall A B (g : B -> bool) (k : A -> B) b (l : list A),
  (forall x, g (k x) = b) -> filter g (map k l) = if b then map k l else [].
Proof.
  intros A B g k b l H. induction l as [|x l IH]; simpl; [now destruct b|].
  rewrite H, IH. now destruct b.
Qed.

(* [C k] marks what comes from the entry of key k *)
Lemma filter_keyed : forall A B E (g : B -> bool) (C : nat -> E -> B) (F : nat * A -> list E) (m : list (nat * A)) k0 b,
  NoDup (keys m) -> (forall k e, g (C k e) = (k =? k0) && b) ->
  filter g (flat_map (fun kv => map (C (fst kv)) (F kv)) m) =
  if b then match lookup k0 m with Some v => map (C k0) (F (k0, v)) | None => [] end else [].
Proof.
  induction m as [|[k v] m IH]; simpl; intros k0 b ND H; [now destruct b|].
  inversion ND as [|x l Hn ND']; subst.
  rewrite filter_app, (IH k0 b ND' H), (filter_map_const _ _ _ (C k) ((k =? k0) && b)) by (intros; apply H).
  destruct (Nat.eqb_spec k k0) as [->|]; [|reflexivity].
  apply lookup_None_keys in Hn. rewrite Hn. destruct b; [apply app_nil_r|reflexivity].
Qed.

Section Proofs.

Variable val : Type.
Notation entry := (entry val).

Definition oids (l : list entry) : list oid := map fst l.

Lemma has_oid_In : forall o (l : list entry), has_oid val o l = true <-> In o (oids l).
Proof.
  intros o l. unfold has_oid, oids. rewrite existsb_exists, in_map_iff. split.
  - intros [x [Hin E]]. apply Nat.eqb_eq in E. now exists x.
  - intros [x [E Hin]]. exists x. split; [assumption|]. now apply Nat.eqb_eq.
Qed.

Lemma NoDup_oids_firstn : forall (l : list entry) n, NoDup (oids l) -> NoDup (oids (firstn n l)).
Proof. intros l n H. unfold oids. rewrite <- firstn_map. now apply NoDup_firstn. Qed.

Lemma Permutation_NoDup_oids : forall l l' : list entry,
  Permutation l l' -> NoDup (oids l') -> NoDup (oids l).
Proof.
  intros l l' P ND. eapply Permutation_NoDup; [|exact ND].
  apply Permutation_sym. unfold oids. now apply Permutation_map.
Qed.

Lemma take_out_perm : forall (l : list entry) x,
  NoDup (oids l) -> In x l -> exists l', take_out val (fst x) l = Some l' /\ Permutation l (x :: l').
Proof.
  induction l as [|z l IH]; simpl; intros x ND Hin; [contradiction|].
  destruct (Nat.eqb_spec (fst z) (fst x)) as [E|E].
  - exists l. rewrite (NoDup_map_inj_in fst (z :: l) z x ND) by (simpl; auto). now split.
  - destruct Hin as [Hin|Hin]; [now subst|]. inversion ND as [|w l0 Hn ND']; subst.
    destruct (IH x ND' Hin) as [l' [-> P]]. exists (z :: l'). split; [reflexivity|].
    eapply perm_trans; [apply perm_skip, P|apply perm_swap].
Qed.

Lemma remove_all : forall c p (D H K : list entry),
  NoDup (oids H) -> Permutation H (D ++ K) ->
  exists H', fold_left (apply1 val) (map (CbRemove c p) D) (Some H) = Some H' /\ Permutation H' K.
Proof.
  intros c p. induction D as [|x D IH]; simpl; intros H K ND P; [now exists H|].
  destruct (take_out_perm H x ND) as [H1 [-> P1]].
  { eapply Permutation_in; [apply Permutation_sym, P|now left]. }
  apply IH.
  - apply (Permutation_NoDup_oids _ _ (Permutation_sym P1)) in ND. now inversion ND.
  - apply Permutation_cons_inv with x. now rewrite <- P1.
Qed.

(* additions and the initial dump both put the path on the account *)
Lemma cons_all : forall (k : entry -> cb val),
  (forall e l, apply1 val (Some l) (k e) = Some (e :: l)) ->
  forall A H, fold_left (apply1 val) (map k A) (Some H) = Some (rev A ++ H).
Proof.
  intros k Hk. induction A as [|x A IH]; intros H; [reflexivity|].
  cbn [map fold_left rev]. now rewrite Hk, IH, <- app_assoc.
Qed.

(* two lists of path objects agree on the value of every object they share *)
Definition compat (O N : list entry) : Prop :=
  forall x y, In x O -> In y N -> fst x = fst y -> x = y.

Lemma shared_perm : forall O N : list entry,
  NoDup (oids O) -> NoDup (oids N) -> compat O N ->
  Permutation (filter (fun e => has_oid val (fst e) N) O) (filter (fun e => has_oid val (fst e) O) N).
Proof.
  intros O N NDO NDN Hc.
  apply NoDup_Permutation; try (apply NoDup_filter; eapply NoDup_map_inv; eassumption).
  intros x. rewrite !filter_In, !has_oid_In. unfold oids. rewrite !in_map_iff. split.
  - intros [Hx [y [E Hy]]]. rewrite (Hc x y Hx Hy (eq_sym E)). split; [assumption|]. now exists x.
  - intros [Hx [y [E Hy]]]. rewrite <- (Hc y x Hy Hx E). split; [assumption|]. now exists x.
Qed.

(* the multiset identity (old \ (old\new)) + (new\old) = new, on the client's account *)
Lemma diff_update : forall c p (O N H : list entry),
  NoDup (oids O) -> NoDup (oids N) -> compat O N -> Permutation H O ->
  exists H', fold_left (apply1 val)
               (map (CbRemove c p) (paths_diff val O N) ++ map (CbAdd c p) (paths_diff val N O))
               (Some H) = Some H' /\
             Permutation H' N.
Proof.
  intros c p O N H NDO NDN Hc HP.
  destruct (remove_all c p (paths_diff val O N) H (filter (fun e => has_oid val (fst e) N) O))
    as [H1 [E1 P1]].
  - eapply Permutation_NoDup_oids; eauto.
  - rewrite HP. apply filter_split.
  - rewrite fold_left_app, E1, (cons_all (CbAdd c p)) by reflexivity.
    eexists. split; [reflexivity|].
    rewrite <- Permutation_rev, P1, (shared_perm O N) by assumption.
    apply Permutation_sym, filter_split.
Qed.

Variable cmp eqv : val -> val -> bool.
Variable sel : nat -> list entry -> list entry * nat.

Lemma limit_slice_want : forall o (r : route val), limit_slice val o r = want val o r.
Proof. intros. unfold limit_slice, want. now rewrite <- firstn_firstn, firstn_all. Qed.

Lemma held_snoc : forall c p (tr : trace val) it,
  held val c p (tr ++ [it]) = held_step val c p (held val c p tr) it.
Proof. intros. unfold held. now rewrite fold_left_app. Qed.

(* of everything propagateChanges sends, client c's account for prefix p sees its own diff *)
Lemma filter_propagate : forall c p cl p' (oldr newr : route val),
  NoDup (keys cl) ->
  filter (for_me val c p) (propagate val cl p' oldr newr) =
  if p' =? p then
    match lookup c cl with
    | Some o => map (CbRemove c p') (paths_diff val (limit_slice val o oldr) (limit_slice val o newr)) ++
                map (CbAdd c p') (paths_diff val (limit_slice val o newr) (limit_slice val o oldr))
    | None => []
    end
  else [].
Proof.
  intros c p cl p' oldr newr ND. unfold propagate, remove_from_clients, add_to_clients.
  rewrite filter_app, (filter_keyed _ _ _ _ (fun k => CbRemove k p') _ cl c (p' =? p) ND),
          (filter_keyed _ _ _ _ (fun k => CbAdd k p') _ cl c (p' =? p) ND) by reflexivity.
  now destruct (p' =? p), (lookup c cl).
Qed.

(* fst e < t: object ids are operation numbers, so the object the next operation brings is new *)
Definition good_route (t : nat) (r : route val) : Prop :=
  paths r <> [] /\ NoDup (oids (paths r)) /\
  (forall e, In e (paths r) -> fst e < t) /\ ecmp r <= length (paths r).

Definition RInv (st : state val) : Prop :=
  NoDup (keys (routes st)) /\ NoDup (keys (clients st)) /\
  forall p r, lookup p (routes st) = Some r -> good_route (clock st) r.

Definition CInv (st : state val) (tr : trace val) : Prop :=
  forall c o p, lookup c (clients st) = Some o ->
    exists h, held val c p tr = Some h /\ Permutation h (want val o (route_at st p)).

(* [CInv st tr] is [acct_ok st c p (held val c p tr)] for all c, p *)
Definition acct_ok (st : state val) (c : cid) (p : pfx) (h : option (list entry)) : Prop :=
  forall o, lookup c (clients st) = Some o -> exists l, h = Some l /\ Permutation l (want val o (route_at st p)).

Lemma good_route_mono : forall t t' r, t <= t' -> good_route t r -> good_route t' r.
Proof.
  intros t t' r Hle [H1 [H2 [H3 H4]]]. repeat split; try assumption.
  intros e He. specialize (H3 e He). lia.
Qed.

Lemma old_route_facts : forall st p, RInv st ->
  NoDup (oids (paths (route_at st p))) /\
  (forall e, In e (paths (route_at st p)) -> fst e < clock st).
Proof.
  intros st p [_ [_ HR]]. unfold route_at. destruct (lookup p (routes st)) as [r|] eqn:E.
  - destruct (HR p r E) as [_ [H2 [H3 _]]]. now split.
  - simpl. split; [constructor|contradiction].
Qed.

Lemma RInv_routes_good : forall st, RInv st ->
  forall p r, In (p, r) (routes st) -> good_route (clock st) r.
Proof.
  intros st [R1 [_ R3]] p r Hin. apply (R3 p). now apply In_lookup.
Qed.

Lemma RInv_clients : forall st cl, RInv st -> NoDup (keys cl) ->
  RInv (mkState (routes st) cl (S (clock st))).
Proof.
  intros st cl [R1 [_ R3]] ND. split; [|split]; simpl; try assumption.
  intros p r Hl. apply good_route_mono with (clock st); [lia|]. now apply (R3 p).
Qed.

Lemma lookup_store : forall (rs : list (pfx * route val)) p newr p',
  lookup p' (store val p newr rs) =
  if p =? p' then match paths newr with [] => None | _ :: _ => Some newr end else lookup p' rs.
Proof.
  intros. unfold store. destruct (paths newr).
  - rewrite lookup_del. reflexivity.
  - rewrite lookup_put. reflexivity.
Qed.

Lemma NoDup_keys_store : forall (rs : list (pfx * route val)) p newr,
  NoDup (keys rs) -> NoDup (keys (store val p newr rs)).
Proof.
  intros. unfold store. destruct (paths newr).
  - now apply NoDup_keys_del.
  - now apply NoDup_keys_put.
Qed.

Lemma want_nil_paths : forall o (r : route val), paths r = [] -> want val o r = [].
Proof. intros o r H. unfold want. rewrite H. apply firstn_nil. Qed.

Lemma compat_firstn : forall (O N : list entry) n m,
  compat O N -> compat (firstn n O) (firstn m N).
Proof.
  intros O N n m H x y Hx Hy. apply H; eapply In_firstn; eauto.
Qed.

(* the new route as RemovePath computes it: when no path is left the node is a dummy and Get returns nil *)
Definition reselect (t : nat) (pre : list entry) : route val :=
  match pre with [] => nil_route | _ :: _ => selected val sel t pre end.

(* [step_does], [step_quiet] and [run_trace] do not need it *)
Hypothesis Hsel : sel_ok val sel.

Lemma selected_or_nil : forall t (pre : list entry), reselect t pre = selected val sel t pre.
Proof.
  intros t [|x pre]; [|reflexivity]. unfold reselect, selected.
  destruct (Hsel t []) as [HP Hle]. destruct (sel t []) as [srt e]. simpl in *.
  apply Permutation_sym, Permutation_nil in HP. subst. now replace e with 0 by lia.
Qed.

Lemma remove_first_sub : forall f (l : list entry), exists rest, Permutation l (remove_first val f l ++ rest).
Proof.
  induction l as [|x l [rest IH]]; simpl; [now exists []|].
  destruct (f x); [exists [x]; apply Permutation_cons_append|exists rest; now constructor].
Qed.

Lemma remove_first_drop : forall f (l : list entry), remove_first val f l = drop_first f l.
Proof. induction l as [|x l IH]; simpl; [reflexivity|]. now rewrite IH. Qed.

Lemma remove_first_In : forall f (l : list entry) y, In y (remove_first val f l) -> In y l.
Proof. intros f l y. rewrite remove_first_drop. apply drop_first_In. Qed.

Lemma replace_first_sub : forall f n (l pre : list entry),
  replace_first val f n l = Some pre -> In n pre /\ exists x, Permutation (n :: l) (pre ++ [x]).
Proof.
  induction l as [|x l IH]; simpl; intros pre H; [discriminate|]. destruct (f x).
  - injection H as <-. split; [now left|]. exists x. simpl. constructor. apply Permutation_cons_append.
  - destruct (replace_first val f n l) as [r|]; [|discriminate]. injection H as <-.
    destruct (IH r eq_refl) as [I [y P]]. split; [now right|]. exists y. rewrite perm_swap. simpl. now constructor.
Qed.

Definition fits (o : opts) (r : route val) : bool := dump_count val o r <=? length (paths r).

(* for any route: the invariant is needed for the bound ([good_fits]) alone *)
Lemma slice_want : forall o (r : route val),
  slice_to val (dump_count val o r) (paths r) = if fits o r then Some (want val o r) else None.
Proof.
  intros o r. unfold slice_to, fits, dump_count, want, limit.
  destruct (bestOnly o), (ecmpOnly o); try reflexivity.
  now rewrite <- firstn_firstn, firstn_all.
Qed.

Lemma good_fits : forall t o (rs : list (pfx * route val)),
  (forall p r, In (p, r) rs -> good_route t r) -> forallb (fun pr => fits o (snd pr)) rs = true.
Proof.
  intros t o rs H. apply forallb_forall. intros [p r] Hin. destruct (H p r Hin) as [H1 [_ [_ H4]]].
  apply Nat.leb_le. unfold dump_count. cbn [snd].
  destruct (bestOnly o); [destruct (paths r); [congruence|simpl; lia]|].
  destruct (ecmpOnly o); [assumption|apply Nat.le_min_r].
Qed.

Lemma dump_routes_eq : forall c o (rs : list (pfx * route val)),
  dump_routes val c o rs =
  if forallb (fun pr => fits o (snd pr)) rs then Some (flat_map (fun pr => map (CbDump c (fst pr)) (want val o (snd pr))) rs) else None.
Proof.
  induction rs as [|[p r] rs IH]; simpl; [reflexivity|].
  rewrite slice_want, IH. now destruct (fits o r), (forallb _ rs).
Qed.

Lemma refresh_routes_eq : forall c o (rs : list (pfx * route val)),
  refresh_routes val c o rs =
  if forallb (fun pr => fits o (snd pr)) rs then Some (map (fun pr => CbRefresh c (fst pr) (want val o (snd pr))) rs) else None.
Proof.
  induction rs as [|[p r] rs IH]; simpl; [reflexivity|].
  rewrite slice_want, IH. now destruct (fits o r), (forallb _ rs).
Qed.

Lemma dump_routes_spec : forall t c o (rs : list (pfx * route val)),
  (forall p r, In (p, r) rs -> good_route t r) ->
  dump_routes val c o rs =
  Some (flat_map (fun pr => map (CbDump c (fst pr)) (want val o (snd pr))) rs).
Proof. intros t c o rs H. now rewrite dump_routes_eq, (good_fits t). Qed.

Notation step := (step val cmp eqv sel).
Notation run := (run val cmp eqv sel).

Lemma fresh_not_in : forall t (l : list entry),
  (forall e, In e l -> fst e < t) -> ~ In t (oids l).
Proof.
  intros t l H Hi. unfold oids in Hi. apply in_map_iff in Hi. destruct Hi as [e [Ee He]].
  specialize (H e He). lia.
Qed.

Definition route_op (o : op val) : Prop :=
  match o with OAdd _ _ | ORemove _ _ | OReplace _ _ _ => True | _ => False end.

(* [does_route]: [pre] is drawn from the old paths and one object with the fresh id; a removal leaves that object in [rest] *)
Inductive does (st : state val) : op val -> state val -> list (cb val) -> Prop :=
| does_route o p pre v rest :
    route_op o -> Permutation ((clock st, v) :: paths (route_at st p)) (pre ++ rest) ->
    does st o (mkState (store val p (reselect (clock st) pre) (routes st)) (clients st) (S (clock st)))
         (propagate val (clients st) p (route_at st p) (reselect (clock st) pre))
| does_miss o : route_op o -> does st o (tick val st) []
| does_register c oc cbs : dump_routes val c oc (routes st) = Some cbs ->
    does st (ORegister c oc) (mkState (routes st) (put c oc (clients st)) (S (clock st))) (cbs ++ [CbEndOfRIB c])
| does_unregister c : does st (OUnregister c) (mkState (routes st) (del c (clients st)) (S (clock st))) []
| does_refresh c cbs :
    refresh_routes val c (match lookup c (clients st) with Some o => o | None => zero_opts end) (routes st) = Some cbs ->
    does st (ORefresh c) (tick val st) cbs.

Lemma lookup_route_at : forall (st : state val) p r, lookup p (routes st) = Some r -> route_at st p = r.
Proof. intros st p r E. unfold route_at. now rewrite E. Qed.

Lemma step_does : forall st o st' cbs, step st o = Ok st' cbs -> does st o st' cbs.
Proof.
  intros st o st' cbs H. destruct o as [p v|p v|p vo vn|c oc|c|c]; simpl in H.
  - injection H as <- <-.
    replace (selected val sel (clock st) _) with (reselect (clock st) (paths (route_at st p) ++ [(clock st, v)]))
      by (now destruct (paths (route_at st p))).
    apply (does_route st _ p _ v []); [exact I|]. rewrite app_nil_r. apply Permutation_cons_append.
  - destruct (lookup p (routes st)) as [oldr|] eqn:E; injection H as <- <-; [|now constructor].
    rewrite <- (lookup_route_at st p oldr E).
    destruct (remove_first_sub (fun e => cmp (snd e) v) (paths (route_at st p))) as [rest P].
    apply (does_route st _ p _ v (rest ++ [(clock st, v)])); [exact I|].
    rewrite app_assoc, <- P. apply Permutation_cons_append.
  - destruct (lookup p (routes st)) as [oldr|] eqn:E; [|injection H as <- <-; now constructor].
    rewrite <- (lookup_route_at st p oldr E) in H.
    destruct (replace_first val _ _ (paths (route_at st p))) as [pre|] eqn:Ep; injection H as <- <-; [|now constructor].
    destruct (replace_first_sub _ _ _ _ Ep) as [Hin [x P]].
    replace (selected val sel (clock st) pre) with (reselect (clock st) pre) by (destruct pre; [destruct Hin|reflexivity]).
    now apply (does_route st _ p pre vn [x]).
  - destruct (dump_routes val c oc (routes st)) as [d|] eqn:E; [|discriminate]. injection H as <- <-. now constructor.
  - injection H as <- <-. constructor.
  - destruct (refresh_routes val c _ (routes st)) as [d|] eqn:E; [|discriminate]. injection H as <- <-. now constructor.
Qed.

Lemma held_step_route : forall c p h (o : op val) cbs,
  route_op o -> held_step val c p h (o, cbs) = deliver val c p h cbs.
Proof. now destruct o. Qed.

(* what is needed of the route that replaces the old one at prefix p *)
Lemma next_ok_drawn : forall st p pre v rest, RInv st ->
  Permutation ((clock st, v) :: paths (route_at st p)) (pre ++ rest) ->
  let newr := reselect (clock st) pre in
  NoDup (oids (paths newr)) /\
  (forall e, In e (paths newr) -> fst e < S (clock st)) /\
  ecmp newr <= length (paths newr) /\
  compat (paths (route_at st p)) (paths newr).
Proof.
  intros st p pre v rest HR P. destruct (old_route_facts st p HR) as [O1 O2].
  assert (ND : NoDup (oids ((clock st, v) :: paths (route_at st p))))
    by (constructor; [now apply fresh_not_in|assumption]).
  rewrite selected_or_nil. unfold selected.
  destruct (Hsel (clock st) pre) as [HP Hle]. destruct (sel (clock st) pre) as [srt e]. cbn [paths ecmp fst snd] in *.
  assert (Hsrt : incl srt ((clock st, v) :: paths (route_at st p))).
  { intros y Hy. apply (Permutation_in _ (Permutation_sym P)), in_or_app. left. now apply (Permutation_in _ HP). }
  split; [|split; [|split]].
  - apply (Permutation_NoDup_oids _ _ HP). rewrite <- (firstn_app_length pre rest).
    apply NoDup_oids_firstn. exact (Permutation_NoDup_oids _ _ (Permutation_sym P) ND).
  - intros y Hy. destruct (Hsrt y Hy) as [<-|Hy']; [simpl; lia|]. specialize (O2 y Hy'). lia.
  - now rewrite (Permutation_length HP).
  - intros x y Hx Hy. apply (NoDup_map_inj_in fst _ x y ND); [now right|now apply Hsrt].
Qed.

Lemma step_RInv : forall st o, RInv st -> exists st' cbs, step st o = Ok st' cbs /\ RInv st'.
Proof.
  intros st o HR. pose proof (RInv_routes_good st HR) as G. pose proof HR as [R1 [R2 R3]].
  assert (T : exists st' cbs, step st o = Ok st' cbs).
  { destruct o as [p v|p v|p vo vn|c oc|c|c]; simpl;
      rewrite ?dump_routes_eq, ?refresh_routes_eq, ?(good_fits (clock st) _ _ G); eauto.
    - destruct (lookup p (routes st)); eauto.
    - destruct (lookup p (routes st)); eauto. destruct (replace_first val _ _ _); eauto. }
  destruct T as [st' [cbs E]]. exists st', cbs. split; [assumption|].
  destruct (step_does _ _ _ _ E) as [o p pre v rest _ P|o _|c oc d _|c|c d _];
    try (apply RInv_clients; auto using NoDup_keys_put, NoDup_keys_del).
  destruct (next_ok_drawn st p pre v rest HR P) as [N1 [N2 [N3 _]]].
  split; [|split]; simpl; [now apply NoDup_keys_store|assumption|].
  intros p' r Hl. rewrite lookup_store in Hl. destruct (p =? p').
  - destruct (paths _) eqn:Ep in Hl; [discriminate|]. injection Hl as <-. repeat split; try assumption. now rewrite Ep.
  - apply good_route_mono with (clock st); [lia|]. now apply (R3 p').
Qed.

Lemma does_acct : forall st o st' cbs c p h, RInv st -> does st o st' cbs ->
  acct_ok st c p h -> acct_ok st' c p (held_step val c p h (o, cbs)).
Proof.
  intros st o st' cbs c p h HR D HA oc Hl. pose proof HR as [R1 [R2 _]].
  destruct D as [o p0 pre v rest Ho P|o Ho|c0 o0 d E|c0|c0 d E]; simpl in Hl.
  - rewrite held_step_route by assumption.
    destruct (HA oc Hl) as [l [-> HP]]. unfold deliver, route_at at 2. simpl.
    rewrite filter_propagate, Hl, lookup_store by assumption.
    destruct (Nat.eqb_spec p0 p) as [->|]; [|now exists l].
    destruct (next_ok_drawn st p pre v rest HR P) as [N1 [_ [_ N4]]].
    destruct (old_route_facts st p HR) as [O1 _]. rewrite !limit_slice_want.
    destruct (diff_update c p (want val oc (route_at st p)) (want val oc (reselect (clock st) pre)) l
                (NoDup_oids_firstn _ _ O1) (NoDup_oids_firstn _ _ N1) (compat_firstn _ _ _ _ N4) HP) as [l' [Hf HP']].
    exists l'. split; [assumption|]. destruct (paths (reselect _ _)) eqn:Ep; [|assumption].
    rewrite (want_nil_paths oc _ Ep) in HP'. now rewrite (want_nil_paths oc nil_route).
  - rewrite held_step_route by assumption. exact (HA oc Hl).
  - rewrite (dump_routes_spec (clock st) c0 o0 (routes st) (RInv_routes_good st HR)) in E. injection E as <-.
    rewrite lookup_put in Hl. unfold held_step, deliver. simpl. rewrite filter_app, app_nil_r.
    rewrite (filter_keyed _ _ _ _ (CbDump c0) _ (routes st) p (c0 =? c) R1) by (intros; apply andb_comm).
    destruct (Nat.eqb_spec c0 c) as [->|]; [|exact (HA oc Hl)].
    injection Hl as <-. unfold route_at. simpl. destruct (lookup p (routes st)) as [r|]; simpl.
    + rewrite (cons_all (CbDump c p)) by reflexivity.
      eexists; split; [reflexivity|]. rewrite app_nil_r. apply Permutation_sym, Permutation_rev.
    + exists []. split; [reflexivity|]. now rewrite want_nil_paths.
  - rewrite lookup_del in Hl. destruct (c0 =? c); [discriminate|]. exact (HA oc Hl).
  - rewrite refresh_routes_eq, (good_fits (clock st) _ _ (RInv_routes_good st HR)) in E. injection E as <-.
    unfold held_step, deliver. simpl. rewrite (filter_map_const _ _ _ _ false) by reflexivity. exact (HA oc Hl).
Qed.

Lemma step_inv : forall st tr o, RInv st -> CInv st tr ->
  exists st' cbs, step st o = Ok st' cbs /\ RInv st' /\ CInv st' (tr ++ [(o, cbs)]).
Proof.
  intros st tr o HR HC. destruct (step_RInv st o HR) as [st' [cbs [E HR']]]. exists st', cbs.
  split; [assumption|]. split; [assumption|]. intros c oc p. rewrite held_snoc.
  apply (does_acct st o st' cbs c p); auto using step_does. intros o0. apply HC.
Qed.

Lemma run_inv : forall ops st tr, RInv st -> CInv st tr ->
  exists st' tr', run st tr ops = Some (st', tr') /\ RInv st' /\ CInv st' tr'.
Proof.
  induction ops as [|o ops IH]; simpl; intros st tr HR HC.
  - exists st, tr. auto.
  - destruct (step_inv st tr o HR HC) as [st' [cbs [Hs [HR' HC']]]]. rewrite Hs. now apply IH.
Qed.

Lemma init_inv : RInv init /\ CInv init [].
Proof.
  split.
  - split; [constructor|split; [constructor|]]. intros p r H. discriminate.
  - intros c o p H. discriminate.
Qed.

Lemma run_init_inv : forall ops st tr, run init [] ops = Some (st, tr) -> RInv st /\ CInv st tr.
Proof.
  intros ops st tr Hr. destruct init_inv as [HR HC].
  destruct (run_inv ops init [] HR HC) as [st' [tr' [Hr' H]]].
  rewrite Hr in Hr'. now injection Hr' as <- <-.
Qed.

Lemma refresh_spec : forall st c o, RInv st -> lookup c (clients st) = Some o ->
  step st (ORefresh c) =
  Ok (tick val st) (map (fun pr => CbRefresh c (fst pr) (want val o (snd pr))) (routes st)).
Proof.
  intros st c o HR Hl. simpl. rewrite Hl.
  now rewrite refresh_routes_eq, (good_fits (clock st) _ _ (RInv_routes_good st HR)).
Qed.

Lemma propagate_cid : forall cl p (oldr newr : route val) b,
  In b (propagate val cl p oldr newr) -> In (cb_cid val b) (keys cl).
Proof.
  intros cl p oldr newr b H. unfold propagate in H. apply in_app_or in H.
  destruct H as [H|H]; apply in_flat_map in H; destruct H as [co [Hco H]];
    apply in_map_iff in H; destruct H as [e [He _]]; subst b; simpl; now apply in_map.
Qed.

Lemma step_quiet : forall st o st' cbs c,
  step st o = Ok st' cbs -> lookup c (clients st) = None -> (forall oc, o <> ORegister c oc) ->
  lookup c (clients st') = None /\ quiet_for val c (o, cbs).
Proof.
  intros st o st' cbs c Hs Hl Hn.
  destruct (step_does _ _ _ _ Hs) as [o p pre v rest _ _|o _|c' oc d E|c'|c' d E]; simpl.
  - split; [assumption|]. intros b Hb <-. apply propagate_cid in Hb. now apply lookup_None_keys in Hl.
  - split; [assumption|]. intros b [].
  - assert (c' <> c) by (intros ->; now apply (Hn oc)). rewrite lookup_put, (proj2 (Nat.eqb_neq _ _)) by assumption.
    split; [assumption|]. intros b Hb Eb. exfalso. apply in_app_or in Hb.
    rewrite dump_routes_eq in E. destruct (forallb _ _); [injection E as <-|discriminate].
    destruct Hb as [Hb|[<-|[]]]; [|simpl in Eb; congruence].
    apply in_flat_map in Hb. destruct Hb as [pr [_ Hb]]. apply in_map_iff in Hb. destruct Hb as [e [<- _]]. simpl in Eb. congruence.
  - rewrite lookup_del. split; [now destruct (c' =? c)|]. intros b [].
  - split; [assumption|]. intros b Hb Eb.
    rewrite refresh_routes_eq in E. destruct (forallb _ _); [injection E as <-|discriminate].
    apply in_map_iff in Hb. destruct Hb as [[p r] [<- _]]. simpl in Eb. subst c'.
    rewrite Hl. split; [reflexivity|]. now exists p.
Qed.

Lemma run_app : forall ops1 ops2 st tr,
  run st tr (ops1 ++ ops2) =
  match run st tr ops1 with Some (s1, t1) => run s1 t1 ops2 | None => None end.
Proof.
  induction ops1 as [|o ops1 IH]; simpl; intros ops2 st tr; [reflexivity|].
  destruct (step st o) as [st' cbs|]; [apply IH|reflexivity].
Qed.

Lemma run_trace : forall ops st tr st' tr',
  run st tr ops = Some (st', tr') ->
  exists ext, tr' = tr ++ ext /\ map fst ext = ops /\
    forall c, lookup c (clients st) = None -> (forall oc, ~ In (ORegister c oc) ops) ->
      Forall (quiet_for val c) ext.
Proof.
  induction ops as [|o ops IH]; simpl; intros st tr st' tr' H.
  - inversion H; subst. exists []. rewrite app_nil_r. auto.
  - destruct (step st o) as [s1 cbs|] eqn:Hs; [|discriminate].
    destruct (IH _ _ _ _ H) as [ext [E1 [E2 E3]]]. exists ((o, cbs) :: ext). split; [|split].
    + rewrite E1, <- app_assoc. reflexivity.
    + simpl. now rewrite E2.
    + intros c Hl Hn. destruct (step_quiet _ _ _ _ c Hs Hl) as [Hl1 Hq]; [intros oc E; apply (Hn oc); now left|].
      constructor; [assumption|]. apply E3; [assumption|]. intros oc Hi. apply (Hn oc). now right.
Qed.

End Proofs.

Lemma sort_desc_perm : forall l, Permutation (sort_desc l) l.
Proof. exact (insert_sort_perm (fun x y => lp_of y <? lp_of x)). Qed.

Lemma leading_le : forall k l, leading k l <= length l.
Proof. induction l as [|y l IH]; simpl; [lia|]. destruct (lp_of y =? k); lia. Qed.

Lemma ref_sel_ok : sel_ok (nat * nat) ref_sel.
Proof.
  intros t l. unfold ref_sel. split; [apply sort_desc_perm|].
  pose proof (Permutation_length (sort_desc_perm l)) as E. cbn [snd]. unfold entry in *.
  destruct (sort_desc l) as [|x s]; [lia|].
  rewrite <- E. apply leading_le.
Qed.
