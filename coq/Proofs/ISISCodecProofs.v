(* C30 proofs. On every input a decoder's result has [settled] at any fuel above the input length:
   that is the absence of panics and the sufficiency of the fuel at once. On encodings: the round
   trip, shown up to fuel ([lef]), running out being excluded already. Then NewCSNPs/NewPSNPs chunk
   by chunk, and the uint8 lengths of the TLV constructors ([fold_shape], [u8_sum]). *)
From Coq Require Import List NArith ZArith Bool Lia ZifyBool ZifyN Permutation.
Import ListNotations.
From BioVerif Require Import Lib.ListFacts Model.ISISCodec Spec.ISISCodecSpec.

Definition yields {A : Type} (P : A -> Prop) (r : res A) : Prop :=
  match r with Ok a => P a | Err => True | Panic | OutOfFuel => False end.

Lemma yields_ok : forall (A : Type) (P : A -> Prop) (a : A), P a -> yields P (Ok a).
Proof. intros A P a H. exact H. Qed.

Definition lef {A : Type} (r1 r2 : res A) : Prop := r1 = OutOfFuel \/ r1 = r2.

Lemma lef_refl : forall (A : Type) (r : res A), lef r r. Proof. intros; right; reflexivity. Qed.
Lemma lef_out : forall (A : Type) (r : res A), lef OutOfFuel r. Proof. intros; left; reflexivity. Qed.

Lemma lef_bind_ok : forall (A B : Type) (r : res A) (a : A) (k : A -> res B) (r' : res B),
  lef r (Ok a) -> lef (k a) r' -> lef (bind r k) r'.
Proof. intros A B r a k r' [-> | ->] H; [apply lef_out | exact H]. Qed.

Lemma lef_done : forall (A : Type) (r r' : res A), lef r r' -> r <> OutOfFuel -> r = r'.
Proof. intros A r r' [H | H] N; [contradiction | exact H]. Qed.

Definition settled {A : Type} (g : nat -> res A) (n : nat) (P : A -> Prop) : Prop :=
  yields P (g n) /\ forall f, lef (g f) (g n).

Lemma settled_const : forall (A : Type) (P : A -> Prop) (r : res A) n, yields P r -> settled (fun _ => r) n P.
Proof. intros A P r n H. split; [exact H | intros _; apply lef_refl]. Qed.

Lemma settled_bind : forall (A B : Type) (P : A -> Prop) (Q : B -> Prop) (g : nat -> res A) (k : nat -> A -> res B) n,
  settled g n P -> (forall a, P a -> settled (fun f => k f a) n Q) -> settled (fun f => bind (g f) (k f)) n Q.
Proof.
  intros A B P Q g k n [Hy Hl] Hk. split.
  - destruct (g n) as [a| | |]; try exact Hy. apply (Hk a Hy).
  - intros f. destruct (Hl f) as [-> | ->]; [apply lef_out |].
    destruct (g n) as [a| | |]; cbn in *; try apply lef_refl. apply (Hk a Hy).
Qed.

Lemma settled_S : forall (A : Type) (P : A -> Prop) (g : nat -> res A) n,
  g O = OutOfFuel -> settled (fun f => g (S f)) n P -> settled g (S n) P.
Proof. intros A P g n H0 [Hy Hl]. split; [exact Hy |]. intros [|f]; [left; exact H0 | apply Hl]. Qed.

Lemma settled_spec : forall (A : Type) (P : A -> Prop) (g : nat -> res A) m,
  (forall n, (m < n)%nat -> settled g n P) ->
  (forall f, g f <> Panic) /\ (forall f, (m < f)%nat -> g f = g (S m) /\ g (S m) <> OutOfFuel).
Proof.
  intros A P g m H. destruct (H (S m) (Nat.lt_succ_diag_r m)) as [Hy Hl]. split.
  - intros f. destruct (Hl f) as [-> | ->]; [discriminate |]. destruct (g (S m)); (discriminate || contradiction).
  - intros f Hf. split; [| destruct (g (S m)); (discriminate || contradiction)].
    destruct (H f Hf) as [Hy' _]. destruct (Hl f) as [E | E]; [| exact E]. rewrite E in Hy'. contradiction.
Qed.

(* The bind rules for a reader, whose result is a value and the unread rest: stated for the pair,
   so that they can be used without taking the pair apart by hand. *)
Lemma yields_read : forall (A B : Type) (P : A * buf -> Prop) (Q : B -> Prop) (r : res (A * buf)) (k : A * buf -> res B),
  yields P r -> (forall a b, P (a, b) -> yields Q (k (a, b))) -> yields Q (bind r k).
Proof. intros A B P Q [[a b]| | |] k Hr Hk; cbn in *; auto. Qed.

Lemma settled_read : forall (A B : Type) (P : A * buf -> Prop) (Q : B -> Prop) (g : nat -> res (A * buf))
    (k : nat -> A * buf -> res B) n,
  settled g n P -> (forall a b, P (a, b) -> settled (fun f => k f (a, b)) n Q) -> settled (fun f => bind (g f) (k f)) n Q.
Proof. intros A B P Q g k n Hg Hk. apply (settled_bind _ _ P Q g k n Hg). intros [a b]. apply Hk. Qed.

Definition any {A : Type} (a : A) : Prop := True.

Lemma yields_any : forall (A : Type) (a : A), yields any (Ok a). Proof. intros. exact I. Qed.

Lemma settled_last : forall (A B : Type) (P : A -> Prop) (g : nat -> res A) (k : A -> B) n,
  settled g n P -> settled (fun f => bind (g f) (fun a => Ok (k a))) n any.
Proof. intros A B P g k n H. eapply settled_bind; [exact H |]. intros a _. apply settled_const, yields_any. Qed.

(* In the decoders [n] is the fuel: every buffer on the way stays below it, so no side condition needs
   arithmetic, only the hypothesis about the buffer before. *)
Definition below {A : Type} (n : nat) (p : A * buf) : Prop := (length (snd p) < n)%nat.

Lemma below_S : forall (A : Type) n (p : A * buf), below n p -> below (S n) p.
Proof. intros A n p H. unfold below in *. lia. Qed.

(* a reader that takes a byte makes room for one unit of fuel less: what the loops live on *)
Lemma rd_u8_strict : forall n b, (length b < S n)%nat -> yields (below n) (rd_u8 b).
Proof. intros n [|? ?] H; unfold below; cbn in *; lia. Qed.
Lemma rd_u16_strict : forall n b, (length b < S n)%nat -> yields (below n) (rd_u16 b).
Proof. intros n [|? [|? ?]] H; unfold below; cbn in *; lia. Qed.

Lemma rd_u8_reads : forall n b, (length b < n)%nat -> yields (below n) (rd_u8 b).
Proof. intros n b H. apply rd_u8_strict, Nat.lt_lt_succ_r, H. Qed.
Lemma rd_u16_reads : forall n b, (length b < n)%nat -> yields (below n) (rd_u16 b).
Proof. intros n b H. apply rd_u16_strict, Nat.lt_lt_succ_r, H. Qed.
Lemma rd_u32_reads : forall n b, (length b < n)%nat -> yields (below n) (rd_u32 b).
Proof. intros n [|? [|? [|? [|? ?]]]] H; unfold below; cbn in *; lia. Qed.
Lemma rd_bytes_reads : forall k n b, (length b < n)%nat -> yields (below n) (rd_bytes k b).
Proof.
  intros k n b H. unfold rd_bytes. destruct (k <=? length b)%nat; [| exact I].
  unfold yields, below. cbn [snd]. rewrite skipn_length. lia.
Qed.
Lemma buf_read_reads : forall k n b, (length b < n)%nat -> yields (below n) (buf_read k b).
Proof.
  intros k n [|x b] H; cbn [buf_read]; [destruct (k =? 0)%nat; [exact H | exact I] |].
  unfold yields, below. cbn [snd]. rewrite skipn_length. lia.
Qed.
Lemma decode_header_reads : forall n b, (length b < n)%nat -> yields (below n) (decode_header b).
Proof. intros n [|? [|? [|? [|? [|? [|? [|? [|? [|? [|? [|? ?]]]]]]]]]]] H; unfold below; cbn in *; lia. Qed.

(* The rules above and one lemma per reader: a decoder that is a chain of binds is safe by them alone.
   A bind takes three steps (its rule, [settled_const] for a reader without fuel, the reader's lemma);
   the longest chain, DecodeL2Hello, has eight binds: depth 24 everywhere, which is exactly what it needs. *)
Create HintDb reads.
#[local] Hint Resolve yields_ok yields_any yields_read settled_const settled_read settled_last
  rd_u8_reads rd_u16_reads rd_u32_reads rd_bytes_reads buf_read_reads decode_header_reads : reads.

Lemma rd_entry_strict : forall n b, (length b < S n)%nat -> yields (below n) (rd_entry b).
Proof. intros n b H. unfold rd_entry. eapply yields_read; [apply rd_u16_strict, H |]. eauto 24 with reads nocore. Qed.

(* each round reads at least the length byte, so the rest fits the fuel that is left *)
Lemma area_loop_settled : forall n read tlen b, (length b < n)%nat ->
  settled (fun f => area_loop f read tlen b) n (below n).
Proof.
  induction n as [|n IH]; intros read tlen b H; [lia |]. apply settled_S; [reflexivity |]. cbn [area_loop].
  destruct (read <? tlen); [| apply settled_const, H].
  eapply settled_read; [apply settled_const, rd_u8_strict, H |]. intros alen b1 H1.
  eapply settled_bind; [apply settled_const, buf_read_reads, H1 |]. intros [[area k] b2] H2.
  eapply settled_read; [apply IH, H2 |]. intros rest b3 H3. apply settled_const, below_S, H3.
Qed.

Lemma entries_loop_settled : forall n toread b, (length b < n)%nat ->
  settled (fun f => entries_loop f toread b) n (below n).
Proof.
  induction n as [|n IH]; intros toread b H; [lia |]. apply settled_S; [reflexivity |]. cbn [entries_loop].
  destruct (0 <? toread); [| apply settled_const, H].
  eapply settled_read; [apply settled_const, rd_entry_strict, H |]. intros e b1 H1.
  eapply settled_read; [apply IH, H1 |]. intros rest b2 H2. apply settled_const, below_S, H2.
Qed.

Lemma upd_in_range : forall l i v, (i < length l)%nat -> exists l', upd l i v = Some l' /\ length l' = length l.
Proof.
  induction l as [|x l IH]; intros i v H; [cbn in H; lia |]. destruct i; cbn [upd]; [eexists; split; reflexivity |].
  destruct (IH i v) as (l' & -> & L); [cbn [length] in H; lia |]. eexists. split; [reflexivity |]. cbn [length]. rewrite L. reflexivity.
Qed.

(* the index of ids[i] = protoID stays inside make([]uint8, tlvLength) *)
Lemma proto_loop_reads : forall k i arr n b, length arr = (i + k)%nat -> (length b < n)%nat ->
  yields (below n) (proto_loop k i arr b).
Proof.
  induction k as [|k IH]; intros i arr n b H Hb; cbn [proto_loop]; [exact Hb |].
  eapply yields_read; [apply rd_u8_reads, Hb |]. intros x b1 H1.
  destruct (upd_in_range arr i x) as (arr' & -> & L); [lia |]. apply IH; [lia | exact H1].
Qed.

Lemma rd_u32s_reads : forall k n b, (length b < n)%nat -> yields (below n) (rd_u32s k b).
Proof. induction k as [|k IH]; intros n b H; cbn [rd_u32s]; eauto 24 with reads nocore. Qed.

Lemma read_p2padj_reads : forall ty len n b, (length b < n)%nat -> yields (below n) (read_p2padj ty len b).
Proof. intros. unfold read_p2padj. destruct (len =? 5); [| destruct (len =? 15)]; eauto 24 with reads nocore. Qed.

Lemma read_unknown_reads : forall ty len n b, (length b < n)%nat -> yields (below n) (read_unknown ty len b).
Proof.
  intros ty len n b H. unfold read_unknown.
  eapply yields_read; [apply buf_read_reads, H |]. intros [v k] b1 H1.
  destruct (k =? N.to_nat len)%nat; [exact H1 | exact I].
Qed.

#[local] Hint Resolve rd_u32s_reads read_p2padj_reads read_unknown_reads area_loop_settled entries_loop_settled : reads.

(* the type byte is what lets [read_tlvs] go on with one unit of fuel less *)
Lemma read_tlv_settled : forall n b, (length b < S n)%nat -> settled (fun f => read_tlv f b) n (below n).
Proof.
  intros n b H. unfold read_tlv.
  eapply settled_read; [apply settled_const, rd_u8_strict, H |]. intros ty b1 H1.
  eapply settled_read; [apply settled_const, rd_u8_reads, H1 |]. intros len b2 H2.
  destruct (kind_of ty).
  3: { (* KProto, the one reader that could panic: the array it stores into was made with [len] cells *)
    apply settled_const. eapply yields_read; [apply proto_loop_reads; [rewrite repeat_length; reflexivity | exact H2] |].
    eauto 24 with reads nocore. }
  all: eauto 24 with reads nocore.
Qed.

Lemma read_tlvs_settled : forall n b, (length b < n)%nat -> settled (fun f => read_tlvs f b) n any.
Proof.
  induction n as [|n IH]; intros b H; [lia |]. apply settled_S; [reflexivity |]. cbn [read_tlvs].
  destruct b as [|x b]; [apply settled_const, yields_any |].
  eapply settled_read; [apply read_tlv_settled, H |]. intros t b1 H1. apply settled_last with (P := any), IH, H1.
Qed.
#[local] Hint Resolve read_tlvs_settled : reads.

Lemma decode_p2p_hello_settled : forall n b, (length b < n)%nat -> settled (fun f => decode_p2p_hello f b) n any.
Proof. intros n b H. unfold decode_p2p_hello. eauto 24 with reads nocore. Qed.

Lemma decode_l2_hello_settled : forall n b, (length b < n)%nat -> settled (fun f => decode_l2_hello f b) n any.
Proof. intros n b H. unfold decode_l2_hello. eauto 24 with reads nocore. Qed.

Lemma decode_lsp_settled : forall n b, (length b < n)%nat -> settled (fun f => decode_lsp f b) n any.
Proof. intros n b H. unfold decode_lsp. eauto 24 with reads nocore. Qed.

Lemma decode_csnp_settled : forall n b, (length b < n)%nat -> settled (fun f => decode_csnp f b) n any.
Proof. intros n b H. unfold decode_csnp. eauto 24 with reads nocore. Qed.

Lemma decode_psnp_settled : forall n b, (length b < n)%nat -> settled (fun f => decode_psnp f b) n any.
Proof. intros n b H. unfold decode_psnp. eauto 24 with reads nocore. Qed.
#[local] Hint Resolve decode_p2p_hello_settled decode_lsp_settled decode_csnp_settled decode_psnp_settled : reads.

Lemma decode_fuel_settled : forall n b, (length b < n)%nat -> settled (fun f => decode_fuel f b) n any.
Proof.
  intros n b H. unfold decode_fuel.
  eapply settled_read; [apply settled_const, decode_header_reads, H |]. intros h b1 H1.
  destruct (pdukind_of (h_type h)); eauto 24 with reads nocore.
Qed.

Theorem fuel_suffices : forall b f, (length b < f)%nat ->
  decode_fuel f b = decode b /\ decode b <> OutOfFuel.
Proof.
  intros b. exact (proj2 (settled_spec _ _ _ _ (fun n => decode_fuel_settled n b))).
Qed.

Lemma decode_fuel_no_panic : forall f b, decode_fuel f b <> Panic.
Proof.
  intros f b. exact (proj1 (settled_spec _ _ _ _ (fun n => decode_fuel_settled n b)) f).
Qed.

Theorem no_panic : forall b, decode b <> Panic.
Proof. intros b. exact (decode_fuel_no_panic _ b). Qed.

Theorem fuel_suffices_l2 : forall b f, (length b < f)%nat ->
  decode_l2_hello f b = decode_l2 b /\ decode_l2 b <> OutOfFuel.
Proof.
  intros b. exact (proj2 (settled_spec _ _ _ _ (fun n => decode_l2_hello_settled n b))).
Qed.

Lemma decode_l2_hello_no_panic : forall f b, decode_l2_hello f b <> Panic.
Proof.
  intros f b. exact (proj1 (settled_spec _ _ _ _ (fun n => decode_l2_hello_settled n b)) f).
Qed.

Lemma div_mod_256 : forall y, y / 256 * 256 + y mod 256 = y.
Proof. intros y. rewrite N.mul_comm. symmetry. apply N.div_mod'. Qed.

Lemma rd_u16_be16 : forall x r, u16 x -> rd_u16 (be16 x ++ r) = Ok (x, r).
Proof.
  intros x r H. unfold be16, rd_u16. cbn [app]. do 2 f_equal.
  rewrite (N.mod_small (x / 256)) by (apply N.div_lt_upper_bound; [discriminate | exact H]).
  apply div_mod_256.
Qed.

Lemma rd_u32_be32 : forall x r, u32 x -> rd_u32 (be32 x ++ r) = Ok (x, r).
Proof.
  intros x r H. unfold be32, rd_u32. cbn [app]. do 2 f_equal.
  rewrite (N.mod_small (x / 16777216)) by (apply N.div_lt_upper_bound; [discriminate | exact H]).
  change 16777216 with (256 * 256 * 256). change 65536 with (256 * 256).
  rewrite <- !N.div_div by discriminate. rewrite !div_mod_256. reflexivity.
Qed.

Lemma rd_bytes_app : forall n l r, len_is l n -> rd_bytes n (l ++ r) = Ok (l, r).
Proof.
  intros n l r <-. unfold rd_bytes. rewrite app_length.
  replace (length l <=? length l + length r)%nat with true by (symmetry; apply Nat.leb_le; lia).
  rewrite firstn_app_length, skipn_app_length. reflexivity.
Qed.

Lemma buf_read_app : forall l r, buf_read (length l) (l ++ r) = Ok (l, length l, r).
Proof.
  intros l r. unfold buf_read. destruct (l ++ r) eqn:E.
  - apply app_eq_nil in E. destruct E; subst. reflexivity.
  - rewrite <- E. rewrite app_length.
    replace (Nat.min (length l) (length l + length r)) with (length l) by lia.
    rewrite firstn_app_length, skipn_app_length, Nat.sub_diag. cbn [repeat]. rewrite app_nil_r. reflexivity.
Qed.

Lemma be16_length : forall x, length (be16 x) = 2%nat. Proof. reflexivity. Qed.
Lemma be32_length : forall x, length (be32 x) = 4%nat. Proof. reflexivity. Qed.

Lemma enc_area_length : forall a, length (enc_area a) = S (length a).
Proof. reflexivity. Qed.

Lemma rd_entry_rt : forall e r, wf_entry e -> rd_entry (enc_entry e ++ r) = Ok (e, r).
Proof.
  intros e r (H1 & H2 & H3 & H4). unfold rd_entry, enc_entry. rewrite <- !app_assoc.
  rewrite rd_u16_be16 by assumption. cbn [bind].
  rewrite rd_bytes_app by assumption. cbn [bind].
  rewrite rd_u32_be32 by assumption. cbn [bind].
  rewrite rd_u16_be16 by assumption. destruct e. reflexivity.
Qed.

Lemma enc_entry_length : forall e, len_is (le_id e) 8 -> length (enc_entry e) = 16%nat.
Proof. intros e H. unfold enc_entry. rewrite !app_length, H. reflexivity. Qed.

Lemma upd_app : forall pre x rest v, upd (pre ++ x :: rest) (length pre) v = Some (pre ++ v :: rest).
Proof.
  induction pre as [|p pre IH]; intros; cbn [app length upd]; [reflexivity|]. rewrite IH. reflexivity.
Qed.

Lemma proto_loop_rt : forall ids pre r,
  proto_loop (length ids) (length pre) (pre ++ repeat 0 (length ids)) (ids ++ r) = Ok (pre ++ ids, r).
Proof.
  induction ids as [|x ids IH]; intros pre r.
  - cbn. rewrite !app_nil_r. reflexivity.
  - cbn [length proto_loop repeat app rd_u8 bind]. rewrite upd_app.
    replace (pre ++ x :: repeat 0 (length ids)) with ((pre ++ [x]) ++ repeat 0 (length ids))
      by (rewrite <- app_assoc; reflexivity).
    replace (S (length pre)) with (length (pre ++ [x])) by (rewrite app_length; cbn; lia).
    rewrite IH. rewrite <- app_assoc. reflexivity.
Qed.

Lemma rd_u32s_rt : forall addrs r, Forall u32 addrs ->
  rd_u32s (length addrs) (concat (map be32 addrs) ++ r) = Ok (addrs, r).
Proof.
  induction addrs as [|a addrs IH]; intros r H; [reflexivity|].
  inversion H; subst. cbn [length rd_u32s map concat]. rewrite <- app_assoc.
  rewrite rd_u32_be32 by assumption. cbn [bind]. rewrite IH by assumption. reflexivity.
Qed.

Lemma read_unknown_rt : forall ty len v r, len = N.of_nat (length v) ->
  read_unknown ty len (v ++ r) = Ok (TUnknown ty len v, r).
Proof.
  intros ty len v r H. unfold read_unknown. subst len. rewrite Nat2N.id, buf_read_app. cbn [bind].
  rewrite Nat.eqb_refl. reflexivity.
Qed.

Lemma decode_header_rt : forall llc h r, length llc = 3%nat ->
  decode_header (llc ++ enc_header h ++ r) = Ok (h, r).
Proof.
  intros llc h r H. destruct llc as [|a [|b [|c [|d l]]]]; try discriminate H.
  destruct h. reflexivity.
Qed.

(* stated up to fuel ([lef]): that a reader does not run out is [fuel_suffices], so nothing here counts bytes *)
Lemma area_loop_rt : forall areas f read tlen r,
  tlen < 256 ->
  read + N.of_nat (length (concat (map enc_area areas))) = tlen ->
  lef (area_loop f read tlen (concat (map enc_area areas) ++ r)) (Ok (areas, r)).
Proof.
  induction areas as [|a areas IH]; intros [|f] read tlen r Ht Hs; try apply lef_out;
    cbn [map concat length app area_loop] in *.
  - replace (read <? tlen) with false by lia. apply lef_refl.
  - rewrite app_length, enc_area_length in Hs. replace (read <? tlen) with true by lia.
    unfold enc_area at 1. rewrite <- app_assoc. cbn [app rd_u8 bind].
    assert (Ha : N.of_nat (length a) mod 256 = N.of_nat (length a)) by (apply N.mod_small; lia).
    rewrite Ha, Nat2N.id, buf_read_app. cbn [bind].
    eapply lef_bind_ok; [apply IH; [assumption | rewrite N.mod_small by lia; lia] | apply lef_refl].
Qed.

Lemma entries_loop_rt : forall es f r,
  Forall wf_entry es -> 16 * N.of_nat (length es) < 256 ->
  lef (entries_loop f (16 * N.of_nat (length es)) (concat (map enc_entry es) ++ r)) (Ok (es, r)).
Proof.
  induction es as [|e es IH]; intros [|f] r Hw Hl; try apply lef_out; [apply lef_refl |].
  inversion Hw as [|? ? He Hes]; subst.
  cbn [length] in *. cbn [entries_loop map concat].
  replace (0 <? 16 * N.of_nat (S (length es))) with true by lia.
  rewrite <- app_assoc, rd_entry_rt by assumption. cbn [bind].
  replace ((16 * N.of_nat (S (length es)) + 256 - 16) mod 256) with (16 * N.of_nat (length es)) by lia.
  eapply lef_bind_ok; [apply IH; [assumption | lia] | apply lef_refl].
Qed.

Lemma read_tlv_rt : forall t f r, wf_tlv t -> lef (read_tlv f (enc_tlv t ++ r)) (Ok (norm_tlv t, r)).
Proof.
  intros t f r [Hlen Hw].
  unfold read_tlv, enc_tlv. cbn [app rd_u8 bind].
  destruct t; unfold wf_raw in Hw; cbn [tlv_type tlv_len tlv_value norm_tlv] in *;
    try (destruct Hw as [-> Hl]; rewrite read_unknown_rt by exact Hl; apply lef_refl);
    destruct Hw as [-> Hw]; cbn [kind_of].
  - (* area *) eapply lef_bind_ok; [apply area_loop_rt; [assumption | lia] | apply lef_refl].
  - (* checksum *) rewrite rd_u16_be16 by exact Hw. apply lef_refl.
  - (* hostname *) rewrite rd_bytes_app by (subst len; symmetry; apply Nat2N.id). apply lef_refl.
  - (* protocols *) subst len. rewrite Nat2N.id. rewrite (proto_loop_rt ids [] r : proto_loop _ 0 (repeat 0 _) _ = _). apply lef_refl.
  - (* ip interface addresses *) destruct Hw as [Hl Ha].
    replace (N.to_nat (len / 4)) with (length addrs) by lia.
    rewrite rd_u32s_rt by assumption. apply lef_refl.
  - (* p2p adjacency *) unfold read_p2padj.
    destruct Hw as (He & [(-> & -> & ->) | (-> & Hn & Hc)]); cbn [N.eqb Pos.eqb app rd_u8 bind].
    + rewrite app_nil_r. rewrite rd_u32_be32 by assumption. apply lef_refl.
    + rewrite <- !app_assoc. rewrite rd_u32_be32 by assumption. cbn [bind].
      rewrite rd_bytes_app by assumption. cbn [bind].
      rewrite rd_u32_be32 by assumption. apply lef_refl.
  - (* is neighbors *) rewrite rd_bytes_app by exact Hw. apply lef_refl.
  - (* lsp entries *) destruct Hw as [-> He].
    eapply lef_bind_ok; [apply entries_loop_rt; assumption | apply lef_refl].
Qed.

Lemma read_tlvs_rt : forall ts f, Forall wf_tlv ts -> lef (read_tlvs f (enc_tlvs ts)) (Ok (map norm_tlv ts)).
Proof.
  induction ts as [|t ts IH]; intros [|f] Hw; try apply lef_out; [apply lef_refl |].
  inversion Hw as [|? ? Ht Hts]; subst. cbn [read_tlvs map].
  (* the first two bytes are there, so the loop goes on *)
  change (enc_tlvs (t :: ts)) with (tlv_type t :: (tlv_len t :: tlv_value t) ++ enc_tlvs ts).
  eapply lef_bind_ok; [exact (read_tlv_rt t f _ Ht) |].
  eapply lef_bind_ok; [apply IH, Hts | apply lef_refl].
Qed.

Lemma hello_rt : forall x f, wf_hello x -> lef (decode_p2p_hello f (enc_hello x)) (Ok (norm_hello x)).
Proof.
  intros x f (Hs & Hh & Ht). unfold decode_p2p_hello, enc_hello, hello_set_len.
  cbn [hl_ct hl_sys hl_hold hl_len hl_lcid hl_tlvs rd_u8 bind].
  rewrite rd_bytes_app by assumption. cbn [bind].
  rewrite rd_u16_be16 by assumption. cbn [bind].
  rewrite rd_u16_be16 by (apply N.mod_lt; discriminate). cbn [bind app rd_u8].
  eapply lef_bind_ok; [apply read_tlvs_rt, Ht | apply lef_refl].
Qed.

Lemma lsp_rt : forall x f, wf_lsp x -> lef (decode_lsp f (enc_lsp x)) (Ok (norm_lsp x)).
Proof.
  intros x f (H1 & H2 & H3 & H4 & H5 & Ht). unfold decode_lsp, enc_lsp, enc_lsp_cs. rewrite <- ?app_assoc.
  rewrite rd_u16_be16 by assumption. cbn [bind].
  rewrite rd_u16_be16 by assumption. cbn [bind].
  rewrite rd_bytes_app by assumption. cbn [bind].
  rewrite rd_u32_be32 by assumption. cbn [bind].
  rewrite rd_u16_be16 by assumption. cbn [bind rd_u8].
  eapply lef_bind_ok; [apply read_tlvs_rt, Ht | apply lef_refl].
Qed.

Lemma csnp_rt : forall x f, wf_csnp x -> lef (decode_csnp f (enc_csnp x)) (Ok (norm_csnp x)).
Proof.
  intros x f (H1 & H2 & H3 & H4 & Ht). unfold decode_csnp, enc_csnp.
  rewrite rd_u16_be16 by assumption. cbn [bind].
  rewrite rd_bytes_app by assumption. cbn [bind].
  rewrite rd_bytes_app by assumption. cbn [bind].
  rewrite rd_bytes_app by assumption. cbn [bind].
  eapply lef_bind_ok; [apply read_tlvs_rt, Ht | apply lef_refl].
Qed.

Lemma psnp_rt : forall x f, wf_psnp x -> lef (decode_psnp f (enc_psnp x)) (Ok (norm_psnp x)).
Proof.
  intros x f (H1 & H2 & Ht). unfold decode_psnp, enc_psnp.
  rewrite rd_u16_be16 by assumption. cbn [bind].
  rewrite rd_bytes_app by assumption. cbn [bind].
  eapply lef_bind_ok; [apply read_tlvs_rt, Ht | apply lef_refl].
Qed.

Definition wf_body (b : body) : Prop :=
  match b with
  | BNone => True | BHello x => wf_hello x | BLsp x => wf_lsp x | BCsnp x => wf_csnp x | BPsnp x => wf_psnp x
  end.

Definition norm_body (b : body) : body :=
  match b with
  | BNone => BNone | BHello x => BHello (norm_hello x) | BLsp x => BLsp (norm_lsp x)
  | BCsnp x => BCsnp (norm_csnp x) | BPsnp x => BPsnp (norm_psnp x)
  end.

Definition body_kind (b : body) : pdukind :=
  match b with BNone => PKOther | BHello _ => PKHello | BLsp _ => PKLsp | BCsnp _ => PKCsnp | BPsnp _ => PKPsnp end.

Theorem roundtrip : forall llc h b,
  length llc = 3%nat -> pdukind_of (h_type h) = body_kind b -> wf_body b ->
  decode (enc_packet llc (mkPacket h b)) = Ok (mkPacket h (norm_body b)).
Proof.
  intros llc h b Hl Hk Hw. apply lef_done; [| apply (fuel_suffices _ _ (Nat.lt_succ_diag_r _))].
  unfold decode, decode_fuel, enc_packet. cbn [p_hdr p_body].
  rewrite decode_header_rt by assumption. cbn [bind]. rewrite Hk.
  destruct b; cbn [body_kind enc_body norm_body wf_body] in *; [apply lef_refl | | | |];
    (eapply lef_bind_ok; [| apply lef_refl]).
  - apply hello_rt, Hw.
  - apply lsp_rt, Hw.
  - apply csnp_rt, Hw.
  - apply psnp_rt, Hw.
Qed.

Definition entries_tlv (t : tlv) : Prop := match t with TEntries _ _ _ => True | _ => False end.

Lemma new_entries_wf : forall es, Forall wf_entry es -> 16 * N.of_nat (length es) < 256 -> wf_tlv (new_entries_tlv es).
Proof.
  intros es Hw H. unfold new_entries_tlv, wf_tlv. cbn [tlv_len]. unfold u8.
  rewrite (N.mod_small (N.of_nat (length es))) by lia. rewrite N.mod_small by lia.
  repeat split; try lia. assumption.
Qed.

Lemma new_entries_tlvs_ok : forall fuel es, (length es < fuel)%nat -> Forall wf_entry es ->
  exists ts, new_entries_tlvs fuel es = Ok ts /\ Forall wf_tlv ts /\ map norm_tlv ts = ts /\
             concat (map tlv_entries ts) = es.
Proof.
  induction fuel as [|f IH]; intros es H Hw; [lia|]. cbn [new_entries_tlvs].
  pose proof (Forall_firstn 15 Hw) as Hw1. pose proof (Forall_skipn 15 Hw) as Hw2.
  destruct (15 <? length es)%nat eqn:E.
  - apply Nat.ltb_lt in E.
    destruct (IH (skipn 15 es)) as (ts & -> & W & Nm & C); [rewrite skipn_length; lia | assumption |].
    eexists; split; [reflexivity|]. cbn [map concat]. rewrite Nm, C. repeat split.
    + constructor; [|assumption]. apply new_entries_wf; [assumption | rewrite firstn_length; lia].
    + apply firstn_skipn.
  - apply Nat.ltb_ge in E. eexists; split; [reflexivity|]. repeat split.
    + constructor; [|constructor]. apply new_entries_wf; [assumption | lia].
    + apply app_nil_r.
Qed.

Lemma sort_entries_perm : forall l, Permutation (sort_entries l) l.
Proof.
  intros l. unfold sort_entries. rewrite <- fold_left_rev_right.
  eapply perm_trans; [apply (insert_sort_perm entry_lt) | apply Permutation_sym, Permutation_rev].
Qed.

Lemma sort_entries_length : forall l, length (sort_entries l) = length l.
Proof. intros. apply Permutation_length, sort_entries_perm. Qed.

Lemma sort_entries_wf : forall l, Forall wf_entry l -> Forall wf_entry (sort_entries l).
Proof.
  intros l H. exact (Permutation_Forall (Permutation_sym (sort_entries_perm l)) H).
Qed.

Definition good_csnp (c : csnp) : Prop := wf_csnp c /\ norm_csnp c = c.
Definition good_psnp (p : psnp) : Prop := wf_psnp p /\ norm_psnp p = p.

Lemma ceil_div_bounds : forall n per, (1 <= per)%nat ->
  (n <= ceil_div n per * per)%nat /\ forall j, (j < ceil_div n per -> j * per < n)%nat.
Proof.
  intros n per H. unfold ceil_div.
  pose proof (Nat.div_mod (n + per - 1) per ltac:(lia)) as D.
  pose proof (Nat.mod_upper_bound (n + per - 1) per ltac:(lia)) as U.
  set (q := ((n + per - 1) / per)%nat) in *. set (r := ((n + per - 1) mod per)%nat) in *.
  split; [| intros j Hj]; nia.
Qed.

Lemma chunk_step : forall (A : Type) (P : A -> Prop) (es : list A) start per,
  (1 <= per)%nat -> (start < length es)%nat -> Forall P es ->
  (length es <? start)%nat = false /\
  exists first rest,
    slice es start (start + Nat.min per (length es - start)) = Ok (first :: rest) /\
    Forall P (first :: rest) /\ (first :: rest) ++ skipn (per + start) es = skipn start es.
Proof.
  intros A P es start per Hp Hst Hw.
  split; [apply Nat.ltb_ge; lia |]. unfold slice.
  replace (_ && _) with true by (symmetry; apply andb_true_iff; split; apply Nat.leb_le; lia).
  rewrite Nat.add_comm, Nat.add_sub, <- (skipn_length start es), <- firstn_firstn, firstn_all.
  assert (Hnext : firstn per (skipn start es) ++ skipn (per + start) es = skipn start es)
    by (rewrite <- skipn_skipn; apply firstn_skipn).
  assert (Hcw : Forall P (firstn per (skipn start es))) by apply Forall_firstn, Forall_skipn, Hw.
  destruct (firstn per (skipn start es)) as [| first rest] eqn:E; [| exists first, rest; auto].
  apply (f_equal (@length A)) in E. rewrite firstn_length, skipn_length in E. cbn [length] in E. lia.
Qed.

Lemma Forall_last : forall (A : Type) (P : A -> Prop) l d, Forall P l -> P d -> P (last l d).
Proof.
  induction l as [|x l IH]; intros d H Hd; [assumption|]. inversion H; subst.
  cbn [last]. destruct l; [assumption|]. apply IH; assumption.
Qed.

Lemma csnp_loop_ok : forall per src es,
  (1 <= per)%nat -> len_is src 7 -> Forall wf_entry es ->
  forall cnt i, (i + cnt = ceil_div (length es) per)%nat ->
  exists cs, csnp_loop cnt i per src es = Ok cs /\ length cs = cnt /\ Forall good_csnp cs /\
             concat (map csnp_entries cs) = skipn (i * per) es.
Proof.
  intros per src es Hp Hs Hw. destruct (ceil_div_bounds (length es) per Hp) as [Hall Hin].
  induction cnt as [|cnt IH]; intros i Hn.
  - exists []. repeat split; [constructor |]. rewrite Nat.add_0_r in Hn. subst i. symmetry. apply skipn_all2, Hall.
  - cbn [csnp_loop]. destruct (chunk_step _ _ es _ per Hp (Hin i ltac:(lia)) Hw) as (-> & first & rest & -> & Hcw & Hnext).
    cbn [bind].
    destruct (new_entries_tlvs_ok _ (first :: rest) (Nat.lt_succ_diag_r _) Hcw) as (ts & -> & W & Nm & C).
    destruct (IH (S i)) as (cs & -> & L & G & C2); [lia |].
    cbn [bind]. eexists; split; [reflexivity|]. repeat split.
    + cbn [length]. lia.
    + constructor; [|assumption]. inversion Hcw as [|? ? Hf _]; subst. split.
      * repeat split; try assumption; cbn [new_csnp cs_len cs_start cs_end].
        -- apply N.mod_lt. discriminate.
        -- apply Hf.
        -- apply (Forall_last _ wf_entry (first :: rest) first Hcw Hf).
      * unfold norm_csnp, new_csnp. cbn [cs_len cs_src cs_start cs_end cs_tlvs]. rewrite Nm. reflexivity.
    + cbn [map concat]. unfold csnp_entries at 1. cbn [new_csnp cs_tlvs]. rewrite C, C2. exact Hnext.
Qed.

Lemma good_csnp_range : forall c st en, good_csnp c -> len_is st 8 -> len_is en 8 ->
  good_csnp (mkCsnp (cs_len c) (cs_src c) st en (cs_tlvs c)).
Proof.
  intros [len src st0 en0 ts] st en [(W1 & W2 & _ & _ & W5) Nm] Hst Hen.
  injection Nm as Nm.
  split; [repeat split; assumption | unfold norm_csnp; cbn [cs_tlvs]; rewrite Nm; reflexivity].
Qed.

Lemma set_first_start_ok : forall cs, cs <> [] -> Forall good_csnp cs ->
  exists cs', set_first_start cs = Ok cs' /\ cs' <> [] /\ Forall good_csnp cs' /\
              concat (map csnp_entries cs') = concat (map csnp_entries cs).
Proof.
  intros [|c r] H G; [contradiction|]. inversion G as [|? ? Gc Gr]; subst.
  eexists; split; [reflexivity|]. split; [discriminate |]. split; [| reflexivity].
  constructor; [| assumption]. apply good_csnp_range; [assumption | reflexivity | apply Gc].
Qed.

Lemma set_last_end_ok : forall cs, cs <> [] -> Forall good_csnp cs ->
  exists cs', set_last_end cs = Ok cs' /\ Forall good_csnp cs' /\
              concat (map csnp_entries cs') = concat (map csnp_entries cs).
Proof.
  induction cs as [|c r IH]; intros H G; [contradiction|]. inversion G as [|? ? Gc Gr]; subst.
  destruct r as [|c2 r].
  - eexists; split; [reflexivity|]. split; [| reflexivity].
    constructor; [| constructor]. apply good_csnp_range; [assumption | apply Gc | reflexivity].
  - destruct (IH ltac:(discriminate) Gr) as (r' & E & G' & C).
    cbn [set_last_end] in *. rewrite E. eexists; split; [reflexivity|]. split.
    + constructor; assumption.
    + cbn [map concat]. rewrite C. reflexivity.
Qed.

Theorem new_csnps_ok : forall src es maxlen,
  len_is src 7 -> Forall wf_entry es ->
  exists cs, new_csnps src es maxlen = Ok cs /\ Forall good_csnp cs /\
    ((1 <= entries_per_pdu (maxlen - 33))%Z -> concat (map csnp_entries cs) = sort_entries es).
Proof.
  intros src es maxlen Hs Hw. unfold new_csnps.
  destruct (entries_per_pdu (maxlen - 33) <? 1)%Z eqn:Ep.
  { exists []. split; [reflexivity|]. split; [constructor|]. lia. }
  set (per := Z.to_nat (entries_per_pdu (maxlen - 33))).
  assert (Hp : (1 <= per)%nat) by (unfold per; lia).
  destruct (ceil_div (length es) per =? 0)%nat eqn:En.
  { apply Nat.eqb_eq in En. exists []. split; [reflexivity|]. split; [constructor|]. intros _.
    destruct (ceil_div_bounds (length es) per Hp) as [B _].
    rewrite En in B. destruct es; [reflexivity | inversion B]. }
  apply Nat.eqb_neq in En.
  destruct (csnp_loop_ok per src (sort_entries es) Hp Hs (sort_entries_wf _ Hw) (ceil_div (length es) per) 0%nat)
    as (cs & -> & L & G & C); [rewrite sort_entries_length; reflexivity |]. cbn [bind].
  assert (Hne : cs <> []) by (intros ->; apply En; symmetry; exact L).
  destruct (set_first_start_ok cs Hne G) as (cs1 & -> & Hne1 & G1 & C1). cbn [bind].
  destruct (set_last_end_ok cs1 Hne1 G1) as (cs2 & E2 & G2 & C2).
  exists cs2. split; [exact E2|]. split; [assumption|]. intros _. rewrite C2, C1, C. reflexivity.
Qed.

Lemma psnp_loop_ok : forall per src es,
  (1 <= per)%nat -> len_is src 7 -> Forall wf_entry es ->
  forall cnt i, (i + cnt = ceil_div (length es) per)%nat ->
  exists ps, psnp_loop cnt i per src es = Ok ps /\ Forall good_psnp ps /\
             concat (map psnp_entries ps) = skipn (i * per) es.
Proof.
  intros per src es Hp Hs Hw. destruct (ceil_div_bounds (length es) per Hp) as [Hall Hin].
  induction cnt as [|cnt IH]; intros i Hn.
  - exists []. repeat split; [constructor |]. rewrite Nat.add_0_r in Hn. subst i. symmetry. apply skipn_all2, Hall.
  - cbn [psnp_loop]. destruct (chunk_step _ _ es _ per Hp (Hin i ltac:(lia)) Hw) as (-> & first & rest & -> & Hcw & Hnext).
    cbn [bind]. unfold new_psnp.
    destruct (new_entries_tlvs_ok _ (first :: rest) (Nat.lt_succ_diag_r _) Hcw) as (ts & -> & W & Nm & C).
    destruct (IH (S i)) as (ps & -> & G & C2); [lia |].
    cbn [bind]. eexists; split; [reflexivity|]. split.
    + constructor; [|assumption]. split.
      * repeat split; try assumption. cbn [ps_len].
        (* the length is reduced mod 2^16 at every TLV, and there is at least one *)
        destruct ts as [|t ts _] using rev_ind; [discriminate C |].
        rewrite fold_left_app. apply N.mod_lt. discriminate.
      * unfold norm_psnp. cbn [ps_len ps_src ps_tlvs]. rewrite Nm. reflexivity.
    + cbn [map concat]. unfold psnp_entries at 1. cbn [ps_tlvs]. rewrite C, C2. exact Hnext.
Qed.

Theorem new_psnps_ok : forall src es maxlen,
  len_is src 7 -> Forall wf_entry es ->
  exists ps, new_psnps src es maxlen = Ok ps /\ Forall good_psnp ps /\
    ((1 <= entries_per_pdu (maxlen - 17))%Z -> concat (map psnp_entries ps) = es).
Proof.
  intros src es maxlen Hs Hw. unfold new_psnps.
  destruct (entries_per_pdu (maxlen - 17) <? 1)%Z eqn:Ep.
  { exists []. split; [reflexivity|]. split; [constructor|]. lia. }
  set (per := Z.to_nat (entries_per_pdu (maxlen - 17))).
  assert (Hp : (1 <= per)%nat) by (unfold per; lia).
  destruct (psnp_loop_ok per src es Hp Hs Hw (ceil_div (length es) per) 0%nat eq_refl) as (ps & E & G & C).
  exists ps. split; [exact E|]. split; [assumption|]. intros _. exact C.
Qed.

Theorem new_csnps_roundtrip : forall src es maxlen llc h,
  len_is src 7 -> Forall wf_entry es -> length llc = 3%nat -> h_type h = 25 ->
  exists cs, new_csnps src es maxlen = Ok cs /\
    Forall (fun c => decode (enc_packet llc (mkPacket h (BCsnp c))) = Ok (mkPacket h (BCsnp c))) cs /\
    ((1 <= entries_per_pdu (maxlen - 33))%Z ->
       concat (map csnp_entries cs) = sort_entries es /\ Permutation (sort_entries es) es).
Proof.
  intros src es maxlen llc h Hs Hw Hl Ht.
  destruct (new_csnps_ok src es maxlen Hs Hw) as (cs & E & G & C).
  exists cs. split; [exact E|]. split.
  - eapply Forall_impl; [|exact G]. intros c [W Nm]. rewrite (roundtrip llc h (BCsnp c) Hl (f_equal pdukind_of Ht) W). cbn [norm_body]. rewrite Nm. reflexivity.
  - intros Hp. split; [apply C; exact Hp|apply sort_entries_perm].
Qed.

Theorem new_psnps_roundtrip : forall src es maxlen llc h,
  len_is src 7 -> Forall wf_entry es -> length llc = 3%nat -> h_type h = 27 ->
  exists ps, new_psnps src es maxlen = Ok ps /\
    Forall (fun p => decode (enc_packet llc (mkPacket h (BPsnp p))) = Ok (mkPacket h (BPsnp p))) ps /\
    ((1 <= entries_per_pdu (maxlen - 17))%Z -> concat (map psnp_entries ps) = es).
Proof.
  intros src es maxlen llc h Hs Hw Hl Ht.
  destruct (new_psnps_ok src es maxlen Hs Hw) as (ps & E & G & C).
  exists ps. split; [exact E|]. split.
  - eapply Forall_impl; [|exact G]. intros c [W Nm]. rewrite (roundtrip llc h (BPsnp c) Hl (f_equal pdukind_of Ht) W). cbn [norm_body]. rewrite Nm. reflexivity.
  - exact C.
Qed.

(* [step] is the Add method of a structure [mk len items] *)
Lemma fold_shape : forall (A S : Type) (mk : N -> list A -> S) (step : S -> A -> S) (f : N -> A -> N),
  (forall n l a, step (mk n l) a = mk (f n a) (l ++ [a])) ->
  forall l n l0, fold_left step l (mk n l0) = mk (fold_left f l n) (l0 ++ l).
Proof.
  intros A S mk step f H. induction l as [|a l IH]; intros n l0; cbn [fold_left].
  - rewrite app_nil_r. reflexivity.
  - rewrite H, IH, <- app_assoc. reflexivity.
Qed.

Lemma u8_sum : forall (A : Type) (f : N -> A -> N) (enc : A -> list N) (ok : A -> Prop),
  (forall n a, ok a -> f n a = (n + N.of_nat (length (enc a))) mod 256) ->
  forall l n, Forall ok l -> n + N.of_nat (length (concat (map enc l))) < 256 ->
  fold_left f l n = n + N.of_nat (length (concat (map enc l))).
Proof.
  intros A f enc ok H. induction l as [|a l IH]; intros n Hok Hb; cbn [fold_left map concat length] in *.
  - lia.
  - inversion Hok; subst. rewrite app_length in Hb. rewrite H, N.mod_small, IH by (assumption || lia).
    rewrite app_length. lia.
Qed.

Lemma new_area_wf : forall areas, N.of_nat (length (concat (map enc_area areas))) < 256 -> wf_tlv (new_area_tlv areas).
Proof.
  intros areas H. unfold new_area_tlv.
  rewrite (u8_sum _ _ enc_area (fun _ => True)); [| | apply Forall_forall; trivial | exact H].
  - unfold wf_tlv, u8. cbn [tlv_len]. repeat split; lia.
  - intros n a _. f_equal. rewrite enc_area_length. lia.
Qed.

Lemma new_dynhost_wf : forall nm, N.of_nat (length nm) < 256 -> wf_tlv (new_dynhost_tlv nm).
Proof. intros nm H. unfold new_dynhost_tlv, wf_tlv, u8. cbn [tlv_len]. rewrite N.mod_small by lia. repeat split; lia. Qed.

Lemma new_proto_wf : forall ids, N.of_nat (length ids) < 256 -> wf_tlv (new_proto_tlv ids).
Proof. intros ids H. unfold new_proto_tlv, wf_tlv, u8. cbn [tlv_len]. rewrite N.mod_small by lia. repeat split; lia. Qed.

Lemma new_ipif_wf : forall addrs, Forall u32 addrs -> 4 * N.of_nat (length addrs) < 256 -> wf_tlv (new_ipif_tlv addrs).
Proof.
  intros addrs Ha H. unfold new_ipif_tlv, wf_tlv, u8. cbn [tlv_len]. rewrite N.mod_small by lia.
  repeat split; try lia. assumption.
Qed.

Lemma new_p2padj_wf : forall st ecid, u32 ecid -> wf_tlv (new_p2padj_tlv st ecid).
Proof. intros st ecid H. unfold new_p2padj_tlv, wf_tlv, u8. cbn [tlv_len]. repeat split; try lia; try assumption. left. repeat split. Qed.

Lemma new_padding_wf : forall len, len < 256 -> wf_tlv (new_padding_tlv len).
Proof.
  intros len H. unfold new_padding_tlv, wf_tlv, wf_raw, u8. cbn [tlv_len tlv_type tlv_value kind_of].
  rewrite repeat_length. repeat split; lia.
Qed.

Lemma new_terid_wf : forall a, wf_tlv (new_terid_tlv a).
Proof. intros a. unfold new_terid_tlv, wf_tlv, wf_raw, u8. cbn. repeat split; lia. Qed.

(* a sub-TLV whose length byte says what its Serialize writes (the guard on sub-TLVs in C30_constructors_wf) *)
Definition sub_ok (s : subtlv) : Prop :=
  match s with
  | SLinkLR _ l _ _ => l = 8
  | SIPv4 _ l _ => l = 4
  | SRaw _ l v => l = N.of_nat (length v)
  end.

Lemma enc_sub_length : forall s, sub_ok s -> N.of_nat (length (enc_sub s)) = sub_len s + 2.
Proof. intros [ty l a b|ty l a|ty l v] H; cbn in *; subst; cbn; lia. Qed.

Definition nbr_ok (n : extisnbr) : Prop :=
  len_is (xn_id n) 7 /\ xn_sublen n = N.of_nat (length (concat (map enc_sub (xn_subs n)))).

Lemma new_extis_nbr_eq : forall id m subs,
  new_extis_nbr id m subs = mkExtIsNbr id m (fold_left (fun n s => (n + sub_len s + 2) mod 256) subs 0) subs.
Proof. intros. apply (fold_shape _ _ (mkExtIsNbr id m) extis_nbr_add_sub). reflexivity. Qed.

Lemma new_extis_nbr_id : forall id m subs, xn_id (new_extis_nbr id m subs) = id.
Proof. intros. rewrite new_extis_nbr_eq. reflexivity. Qed.

Lemma new_extis_nbr_ok : forall id m subs, len_is id 7 -> Forall sub_ok subs ->
  N.of_nat (length (concat (map enc_sub subs))) < 256 -> nbr_ok (new_extis_nbr id m subs).
Proof.
  intros id m subs Hi Hs Hl. rewrite new_extis_nbr_eq. split; [exact Hi |].
  apply (u8_sum _ _ enc_sub sub_ok); [| assumption | exact Hl].
  intros n s Hok. rewrite <- N.add_assoc, <- (enc_sub_length s Hok). reflexivity.
Qed.

Lemma enc_extisnbr_length : forall n, nbr_ok n -> N.of_nat (length (enc_extisnbr n)) = 11 + xn_sublen n.
Proof.
  intros n [Hi Hs]. unfold enc_extisnbr, len_is in *. rewrite !app_length. cbn [length tl be32]. rewrite Hi, Hs. lia.
Qed.

Lemma new_extis_tlv_eq : forall ns,
  new_extis_tlv ns = TExtIS 22 (fold_left (fun n x => (n + 11 + xn_sublen x) mod 256) ns 0) ns.
Proof. intros. apply (fold_shape _ _ (TExtIS 22) extis_add). reflexivity. Qed.

Lemma new_extis_wf : forall ns, Forall nbr_ok ns ->
  N.of_nat (length (concat (map enc_extisnbr ns))) < 256 -> wf_tlv (new_extis_tlv ns).
Proof.
  intros ns Hn Hb. rewrite new_extis_tlv_eq.
  rewrite (u8_sum _ _ enc_extisnbr nbr_ok); [| | assumption | exact Hb].
  - unfold wf_tlv, wf_raw, u8. cbn [tlv_len tlv_type tlv_value kind_of]. repeat split; lia.
  - intros len n Hok. rewrite <- N.add_assoc, <- (enc_extisnbr_length n Hok). reflexivity.
Qed.

Lemma enc_extip_length : forall m p a, N.of_nat (length (enc_extip (mkExtIp m p a []))) = 5 + bytes_in_addr p.
Proof.
  intros. unfold enc_extip. cbn [xp_metric xp_udpfx xp_addr xp_subs map concat]. rewrite app_nil_r.
  rewrite app_length. cbn [length be32]. rewrite firstn_length.
  replace (length (be32 a ++ [0; 0; 0; 0])) with 8%nat by reflexivity.
  assert (bytes_in_addr p <= 8) by (unfold bytes_in_addr; lia). lia.
Qed.

Lemma new_extip_tlv_eq : forall rs,
  fold_left extip_add rs (TExtIP 135 0 []) =
  TExtIP 135 (fold_left (fun n r => (n + 5 + bytes_in_addr (xp_udpfx r)) mod 256) rs 0) rs.
Proof. intros. apply (fold_shape _ _ (TExtIP 135) extip_add). reflexivity. Qed.

Lemma new_extip_wf : forall rs,
  N.of_nat (length (concat (map enc_extip (map (fun r => match r with (m, p, a) => mkExtIp m p a [] end) rs)))) < 256 ->
  wf_tlv (new_extip_tlv rs).
Proof.
  intros rs Hb. unfold new_extip_tlv. rewrite new_extip_tlv_eq.
  rewrite (u8_sum _ _ enc_extip (fun r => xp_subs r = [])); [| | | exact Hb].
  - unfold wf_tlv, wf_raw, u8. cbn [tlv_len tlv_type tlv_value kind_of]. repeat split; lia.
  - intros len [m p a subs] Hok. cbn in Hok. subst subs. cbn [xp_udpfx].
    rewrite <- N.add_assoc, <- (enc_extip_length m p a). reflexivity.
  - apply Forall_forall. intros r Hr. apply in_map_iff in Hr. destruct Hr as ([[m p] a] & <- & _). reflexivity.
Qed.

(* new_extis_wf in the form C30_constructors_wf states *)
Lemma new_extis_specs_wf : forall specs : list (list N * N * list subtlv),
  Forall (fun s => match s with (id, _, subs) =>
    len_is id 7 /\ Forall sub_ok subs /\ N.of_nat (length (concat (map enc_sub subs))) < 256 end) specs ->
  let ns := map (fun s => match s with (id, m, subs) => new_extis_nbr id m subs end) specs in
  N.of_nat (length (concat (map enc_extisnbr ns))) < 256 -> wf_tlv (new_extis_tlv ns).
Proof.
  intros specs Hs ns Hb. apply new_extis_wf; [|exact Hb]. subst ns.
  apply Forall_forall. intros n Hn. apply in_map_iff in Hn. destruct Hn as ([[id m] subs] & <- & Hin).
  eapply Forall_forall in Hs; [|exact Hin]. cbn in Hs. destruct Hs as (H1 & H2 & H3).
  apply new_extis_nbr_ok; assumption.
Qed.

Lemma csum_u16 : forall l, csum l < 65536.
Proof.
  assert (H : forall x y, Z.to_N (x mod 256 * 256 + y mod 256) < 65536).
  { intros x y. pose proof (Z.mod_pos_bound x 256 eq_refl). pose proof (Z.mod_pos_bound y 256 eq_refl). lia. }
  intros l. apply H.
Qed.

Lemma sealed_lsp_wf : forall x, u16 (ls_life x) -> len_is (ls_id x) 8 -> u32 (ls_seq x) -> Forall wf_tlv (ls_tlvs x) ->
  wf_lsp (lsp_set_checksum (lsp_update_length x)).
Proof.
  intros x Hl Hi Hs Ht. repeat split; try assumption; [| apply csum_u16].
  apply (fold_left_invariant _ (fun k => k < 65536)); [| reflexivity]. intros a t _ _. apply N.mod_lt. discriminate.
Qed.
