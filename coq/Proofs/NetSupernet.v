(* C15 proofs: GetSupernet.  Each family's function is an equation (supernetIPvN_clear): the result is pfx's
   address with its last bits cleared (ip_clear), as many as the loop leaves; supernetIPv6 never fewer than one,
   which is what goes wrong for two equal /128. *)
From Coq Require Import ZArith Lia Bool List.
From BioVerif Require Import Lib.Word Lib.WordLemmas Model.NetArith Spec.NetSpec
  Proofs.NetBits Proofs.NetProofs.

Lemma lcp_sym (l l' : list bool) : lcp l l' = lcp l' l.
Proof.
  revert l'. induction l as [|a l IH]; intros [|b l']; cbn; try reflexivity.
  destruct a, b; cbn; try reflexivity; f_equal; apply IH.
Qed.

Lemma pbits_length6 p : legacy (addr p) = false -> length (pbits p) = 128%nat.
Proof. intros F. unfold pbits. rewrite length_ip_bits. unfold width. rewrite F. reflexivity. Qed.

Lemma pbits_length_eq p x : same_family (addr p) (addr x) -> length (pbits p) = length (pbits x).
Proof. intros F. unfold pbits. rewrite !length_ip_bits. unfold width. rewrite F. reflexivity. Qed.

Lemma BitAtPosition_lcp a b n : wf_ip a -> wf_ip b -> same_family a b ->
  0 <= n < width a -> n <= Z.of_nat (lcp (ip_bits a) (ip_bits b)) ->
  (BitAtPosition a (n + 1) = BitAtPosition b (n + 1) <-> n < Z.of_nat (lcp (ip_bits a) (ip_bits b))).
Proof.
  intros Wa Wb F Hn HL. assert (Hw : width a = width b) by (unfold width; rewrite F; reflexivity).
  assert (width a <= 128) by (unfold width; destruct (legacy a); lia).
  rewrite !BitAtPosition_correct, !bit_spec_nth by (auto; lia).
  replace (Z.to_nat (n + 1 - 1)) with (Z.to_nat n) by lia.
  rewrite lcp_lt_iff by (rewrite ?length_ip_bits; lia). lia.
Qed.

(* the prefix of the first k bits of pfx.addr: what both supernet functions return *)
Lemma clear_pfx p (k : nat) : wf_ip (addr p) -> Z.of_nat k <= width (addr p) ->
  let s := mkpfx (ip_clear (addr p) (width (addr p) - Z.of_nat k)) (Z.of_nat k) in
  plen s = Z.of_nat k /\ wf_pfx s /\ legacy (addr s) = legacy (addr p) /\ pbits s = supernet_bits k p.
Proof.
  intros W Hk. destruct (ip_clear_keeps (addr p) (Z.of_nat k) W ltac:(lia)) as (Wc & Fc & Bc).
  rewrite Nat2Z.id in Bc. cbv zeta. unfold wf_pfx, pbits at 1. unfold width in *. cbn [addr plen]. rewrite Fc.
  repeat split; try assumption; lia.
Qed.

Lemma shr1 a : wshr 32 a 1 = a / 2.
Proof. apply Z.div2_div. Qed.

Lemma shr1_div V d : 0 <= d -> wshr 32 (V / 2 ^ d) 1 = V / 2 ^ (d + 1).
Proof.
  intros Hd. rewrite shr1, Z.div_div, (Z.mul_comm (2 ^ d)), <- Z.pow_succ_r by (try apply Z.pow_pos_nonneg; lia).
  reflexivity.
Qed.

(* The two loop lemmas take the length L up to which the addresses agree as a variable: no bit list and no nat in
   the induction (lia is many times dearer on goals that mix nat and Z); supernetIPvN_clear puts lcp in
   (div_agree_lcp, BitAtPosition_lcp). *)
Lemma supernet4_loop_spec A B L : 0 <= L ->
  (forall j, 0 <= j <= 32 -> A / 2 ^ (32 - j) = B / 2 ^ (32 - j) <-> j <= L) ->
  forall fuel k, 0 <= k <= 32 -> k < Z.of_nat fuel ->
  supernet4_loop fuel (A / 2 ^ (32 - k)) (B / 2 ^ (32 - k)) k = Some (A / 2 ^ (32 - Z.min k L), Z.min k L).
Proof.
  intros L0 HL. induction fuel as [|f IH]; intros k Hk Hf; [lia|].
  cbn [supernet4_loop].
  destruct (Z.eqb_spec (A / 2 ^ (32 - k)) (B / 2 ^ (32 - k))) as [C | C]; rewrite (HL k Hk) in C.
  - rewrite Z.min_l by exact C. reflexivity.
  - rewrite !shr1_div, wsub_small by lia. replace (32 - k + 1) with (32 - (k - 1)) by lia.
    rewrite IH, !Z.min_r by lia. reflexivity.
Qed.

Theorem supernetIPv4_clear p x :
  wf_pfx p -> wf_pfx x -> legacy (addr p) = true -> legacy (addr x) = true ->
  1 <= Z.min (plen p) (plen x) ->
  let k := Z.min (Z.min (plen p) (plen x) - 1) (Z.of_nat (lcp (pbits p) (pbits x))) in
  supernetIPv4 p x = Some (mkpfx (ip_clear (addr p) (32 - k)) k).
Proof.
  intros [Wp Lp] [Wx Lx] Fp Fx Hmin. unfold width in Lp, Lx. rewrite Fp in Lp. rewrite Fx in Lx.
  destruct (wf4 _ Wp Fp) as [H0 RA]. destruct (wf4 _ Wx Fx) as [_ RB].
  unfold supernetIPv4, pbits, ip_bits. rewrite Fp, Fx, wminu_min.
  set (m := Z.min (plen p) (plen x)) in *. assert (Hm : m <= 32) by lia. clearbody m. clear Lp Lx.
  set (L := Z.of_nat (lcp _ _)). assert (HL : 0 <= L) by apply Nat2Z.is_nonneg.
  rewrite (wsub_small 8 m 1), !ToUint32_small, (wsub_small 8 32), !wshr_spec by lia.
  rewrite (supernet4_loop_spec _ _ L HL) by (lia || intros j Hj; rewrite (div_agree_lcp 32 _ _ j RA RB Hj); lia).
  set (k := Z.min (m - 1) L). assert (Hk : 0 <= k <= 31) by lia. clearbody k.
  (* the shifted word put back is the address with its last 32 - k bits cleared *)
  pose proof (div_mul_pow2_range 32 (32 - k) _ ltac:(lia) RA).
  rewrite ip_clear4 by lia. unfold IPv4, wconv.
  rewrite wsub_small, wshl_small, wrap_small, Fp, H0 by (try apply Z.div_pos; lia). reflexivity.
Qed.

(* outside the precondition: one of the lengths is 0.  min(..)-1 wraps to 255, both shifted
   words are 0, the loop does not run: the result has length 255 (not a prefix at all). *)
Theorem supernetIPv4_len0_wraps p x :
  0 <= lo (addr p) < 2 ^ 32 -> 0 <= lo (addr x) < 2 ^ 32 ->
  Z.min (plen p) (plen x) = 0 ->
  supernetIPv4 p x = Some (mkpfx (IPv4 0) 255).
Proof.
  intros RA RB Hmin. unfold supernetIPv4.
  rewrite wminu_min, Hmin. replace (wsub 8 0 1) with 255 by reflexivity.
  replace (wsub 8 32 255) with 33 by reflexivity.
  rewrite !ToUint32_small by lia.
  unfold wshr at 1 2. cbn [Z.leb Z.compare Pos.compare Pos.compare_cont].
  cbn [supernet4_loop Z.eqb]. reflexivity.
Qed.

Lemma supernet4_loop_total fuel : forall a b k,
  a / 2 ^ Z.of_nat fuel = 0 -> b / 2 ^ Z.of_nat fuel = 0 -> supernet4_loop (S fuel) a b k <> None.
Proof.
  induction fuel as [|f IH]; intros a b k Ha Hb; cbn [supernet4_loop].
  - rewrite Z.div_1_r in Ha, Hb. subst. discriminate.
  - destruct (a =? b); [discriminate|].
    apply IH; rewrite shr1, Z.div_div, <- Z.pow_succ_r, <- Nat2Z.inj_succ by lia; assumption.
Qed.

Theorem supernetIPv4_total p x : supernetIPv4 p x <> None.
Proof.
  unfold supernetIPv4.
  set (M := wsub 8 (wminu (plen p) (plen x)) 1).
  set (n := wsub 8 32 M).
  assert (Hn : 0 <= n) by (unfold n, wsub; apply wrap_range; lia).
  assert (RS : forall a, wshr 32 (ToUint32 a) n / 2 ^ Z.of_nat 33 = 0).
  { intros a. pose proof (Z.mod_pos_bound (lo a) (2 ^ 32) ltac:(lia)) as RU. rewrite <- ToUint32_spec in RU.
    pose proof (pow2_pos n Hn). rewrite wshr_spec, Z.div_div by lia. apply Z.div_small. nia. }
  destruct (supernet4_loop 34 _ _ M) as [[a' k']|] eqn:E; [discriminate|].
  exfalso. revert E. apply supernet4_loop_total; apply RS.
Qed.

(* the mask accumulated by the loop after n iterations.  The 128th iteration adds 1 << (64 - 0),
   which is 0 on uint64, so bit 0 is never set *)
Definition maskfn (n : Z) : Z :=
  if n <? 64 then 2 ^ 64 - 2 ^ (64 - n) else 2 ^ 64 - 2 ^ Z.max 1 (128 - n).

(* one mask update of supernet6_loop adds bit e = 64 - m below the bits already set ... *)
Lemma mask_add e m : 0 < e < 64 -> e + m = 64 ->
  wadd 64 (2 ^ 64 - 2 ^ (e + 1)) (wshl 64 1 (wsub 8 64 m)) = 2 ^ 64 - 2 ^ e.
Proof.
  intros He Hm. rewrite wsub_small, wshl_one by lia. destruct (Z.ltb_spec (64 - m) 64); [|lia].
  replace (64 - m) with e by lia.
  pose proof (pow2_pos e ltac:(lia)). pose proof (Z.pow_le_mono_r 2 (e + 1) 64 ltac:(lia) ltac:(lia)).
  rewrite Z.pow_add_r, Z.pow_1_r in * by lia. rewrite wadd_small; lia.
Qed.

(* ... except where m = 0 and 1 << 64 is 0: at 64, after the reset, and at 128 *)
Lemma mask_step_ok n : 0 <= n < 128 ->
  wadd 64 (if wadd 8 n 1 =? 64 then 0 else maskfn n) (wshl 64 1 (wsub 8 64 (wadd 8 n 1 mod 64)))
  = maskfn (n + 1).
Proof.
  intros Hn. rewrite (wadd_small 8 n 1) by lia. unfold maskfn.
  destruct (Z.eqb_spec (n + 1) 64) as [E | E]; [replace n with 63 by lia; reflexivity|].
  destruct (Z.ltb_spec n 64), (Z.ltb_spec (n + 1) 64); try lia.
  - rewrite Z.mod_small by lia. replace (64 - n) with (64 - (n + 1) + 1) by lia. apply mask_add; lia.
  - destruct (Z.eq_dec n 127) as [-> | N]; [reflexivity|]. rewrite !Z.max_r by lia.
    replace ((n + 1) mod 64) with (n + 1 - 64) by (apply (Z.mod_unique_pos _ _ 1); lia).
    replace (128 - n) with (128 - (n + 1) + 1) by lia. apply mask_add; lia.
Qed.

Lemma supernet6_loop_spec pa xa M L : M <= 128 ->
  (forall n, 0 <= n < 128 -> n <= L -> BitAtPosition pa (n + 1) = BitAtPosition xa (n + 1) <-> n < L) ->
  forall fuel n, 0 <= n <= M -> n <= L -> M - n < Z.of_nat fuel ->
  supernet6_loop fuel pa xa M (BitAtPosition pa (n + 1)) (BitAtPosition xa (n + 1)) n (maskfn n)
  = Some (Z.min M L, maskfn (Z.min M L)).
Proof.
  intros HM HL. induction fuel as [|f IH]; intros n Hn HnL Hf; [lia|].
  cbn [supernet6_loop].
  destruct (Z.ltb_spec n M) as [C2 | C2]; [|rewrite andb_false_r; replace (Z.min M L) with n by lia; reflexivity].
  pose proof (HL n ltac:(lia) HnL) as Hbit.
  destruct (Bool.eqb _ _) eqn:C1; cbn [andb].
  - apply eqb_prop, Hbit in C1.
    rewrite (wadd_small 8 n 2), mask_step_ok, (wadd_small 8 n 1) by lia.
    replace (n + 2) with (n + 1 + 1) by lia. apply IH; lia.
  - apply eqb_false_iff in C1. rewrite Hbit in C1. replace (Z.min M L) with n by lia. reflexivity.
Qed.

Lemma supernet6_loop_total pa xa M fuel : forall n a b mask,
  0 <= n -> M < 256 -> (Z.to_nat (M - n) < fuel)%nat ->
  supernet6_loop fuel pa xa M a b n mask <> None.
Proof.
  induction fuel as [|f IH]; intros n a b mask Hn HM Hf; [lia|].
  cbn [supernet6_loop].
  destruct (Bool.eqb a b && (n <? M)) eqn:C; [|discriminate].
  apply andb_true_iff in C. destruct C as [_ C]. apply Z.ltb_lt in C.
  rewrite (wadd_small 8 n 1) by lia.
  apply IH; lia.
Qed.

Theorem supernetIPv6_total p x :
  0 <= plen p < 256 -> 0 <= plen x < 256 -> supernetIPv6 p x <> None.
Proof.
  intros Lp Lx. unfold supernetIPv6.
  rewrite wminu_min. set (M := Z.min (plen p) (plen x)).
  destruct (supernet6_loop 257 _ _ M _ _ 0 0) as [[n mask]|] eqn:E.
  - destruct (n =? 0); [discriminate|]. destruct (64 <=? n); discriminate.
  - exfalso. revert E. apply supernet6_loop_total; lia.
Qed.

Theorem supernetIPv6_clear p x :
  wf_pfx p -> wf_pfx x -> legacy (addr p) = false -> legacy (addr x) = false ->
  let k := Z.min (Z.min (plen p) (plen x)) (Z.of_nat (lcp (pbits p) (pbits x))) in
  supernetIPv6 p x = Some (mkpfx (ip_clear (addr p) (Z.max 1 (128 - k))) k).
Proof.
  intros [Wp Lp] [Wx Lx] Fp Fx. unfold width in Lp. rewrite Fp in Lp.
  pose proof (fun n => BitAtPosition_lcp _ _ n Wp Wx (eq_trans Fp (eq_sym Fx))) as Hbit.
  unfold width in Hbit. rewrite Fp in Hbit.
  unfold supernetIPv6, pbits. rewrite wminu_min. set (M := Z.min (plen p) (plen x)). set (L := Z.of_nat (lcp _ _)) in *.
  (* the run starts at position 0 + 1 with mask maskfn 0, written 1 and 0 in supernetIPv6 *)
  rewrite (supernet6_loop_spec _ _ M L ltac:(lia) Hbit 257%nat 0 ltac:(lia) ltac:(lia) ltac:(lia)
           : supernet6_loop _ _ _ _ (_ _ 1) (_ _ 1) 0 0 = _).
  set (k := Z.min M _). assert (Hk : 0 <= k <= 128) by lia. clearbody k. clear - Wp Fp Hk.
  destruct (wf6 _ Wp Fp) as [Rh Rl].
  unfold NewPfx, IPv6, wand, maskfn, ip_clear. rewrite Fp, Z.leb_antisym.
  destruct (Z.ltb_spec k 64) as [K | K]; cbn [negb].
  - destruct (Z.ltb_spec (Z.max 1 (128 - k)) 64); [lia|].
    rewrite land_high_mask by lia. replace (Z.max 1 (128 - k) - 64) with (64 - k) by lia.
    destruct (Z.eqb_spec k 0) as [-> | _]; [rewrite (Z.div_small (hi (addr p))) by exact Rh|]; reflexivity.
  - destruct (Z.eqb_spec k 0); [lia|]. rewrite land_high_mask by lia.
    destruct (Z.ltb_spec (Z.max 1 (128 - k)) 64); [reflexivity|].
    (* k = 64: the whole lower word goes *)
    replace k with 64 by lia. rewrite (Z.div_small (lo (addr p))) by exact Rl. change (Z.max 1 (128 - 64) - 64) with 0.
    rewrite Z.div_1_r, Z.mul_1_r. reflexivity.
Qed.

(* outside the precondition: 128 common bits (both prefixes are the same /128): the result is NOT
   the prefix itself. *)
Theorem supernetIPv6_at128 p :
  wf_pfx p -> legacy (addr p) = false -> plen p = 128 ->
  supernetIPv6 p p = Some (mkpfx (mkip (hi (addr p)) (lo (addr p) / 2 * 2) false) 128).
Proof.
  intros Wp Fp L. rewrite (supernetIPv6_clear p p Wp Wp Fp Fp), L, Z.min_l.
  - unfold ip_clear. rewrite Fp. reflexivity.
  - apply (Nat2Z.inj_le 128), lcp_ge_iff. rewrite (pbits_length6 p Fp). auto.
Qed.

Lemma supernet_consequences p x s :
  wf_pfx p -> wf_pfx x -> wf_pfx s -> same_family (addr p) (addr x) -> same_family (addr s) (addr p) ->
  let k := lcp (pbits p) (pbits x) in
  Z.of_nat k < Z.min (plen p) (plen x) ->
  plen s = Z.of_nat k -> pbits s = supernet_bits k p ->
  Contains s p = true /\ Contains s x = true /\ Valid s = true /\
  BitAtPosition (addr p) (plen s + 1) <> BitAtPosition (addr x) (plen s + 1).
Proof.
  intros Wp Wx Ws F Fs k Hk Ls Bs.
  assert (Hkl : (k <= length (pbits p))%nat) by apply lcp_le_length.
  assert (Hag : firstn k (pbits p) = firstn k (pbits x)) by (apply (lcp_ge_iff _ _ k); unfold k; lia).
  rewrite !Contains_correct, Valid_correct by (auto; apply Wp || apply Wx).
  destruct Wp as [Wp Lp], Wx as [Wx _].
  unfold supernet_bits in Bs.
  unfold contains_spec, valid_spec, plen_nat. rewrite Ls, Nat2Z.id, Bs.
  rewrite length_keep_first by lia.
  repeat split.
  - exact Fs.
  - lia.
  - apply firstn_keep_first; lia.
  - unfold same_family in *. congruence.
  - lia.
  - rewrite firstn_keep_first by lia. exact Hag.
  - apply skipn_keep_first; lia.
  - intros E. apply BitAtPosition_lcp in E; auto; unfold k, pbits in *; lia.
Qed.

Lemma Contains_lcp p x : wf_pfx p -> wf_pfx x -> same_family (addr p) (addr x) ->
  (Contains p x = true <-> (plen_nat p < plen_nat x)%nat /\ (plen_nat p <= lcp (pbits p) (pbits x))%nat).
Proof.
  intros Wp Wx F. rewrite (Contains_correct p x Wp Wx), lcp_ge_iff. unfold contains_spec, pbits, plen_nat.
  destruct Wp as [_ Lp], Wx as [_ Lx]. rewrite length_ip_bits, <- Z2Nat.inj_lt by lia.
  split; [intros (_ & L & E); repeat split; [exact L | lia | exact E] | intros (L & _ & E); auto].
Qed.

Lemma Equal_lcp p x : wf_pfx p -> wf_pfx x -> same_family (addr p) (addr x) ->
  Valid p = true -> Valid x = true ->
  (pfx_equal p x = true <-> plen_nat p = plen_nat x /\ (plen_nat p <= lcp (pbits p) (pbits x))%nat).
Proof.
  intros Wp Wx F Vp Vx. rewrite (Equal_correct p x Wp Wx), lcp_ge_iff. unfold equal_spec.
  apply (Valid_correct p Wp) in Vp. apply (Valid_correct x Wx) in Vx. unfold valid_spec, plen_nat in *.
  pose proof (pbits_length_eq p x F) as HL. pose proof (length_ip_bits (addr p)). destruct Wp as [_ Lp], Wx as [_ Lx].
  split.
  - intros (_ & E & ->). split; [congruence|]. split; [unfold pbits in *; lia | reflexivity].
  - (* no host bits on either side: equal first len bits make equal addresses *)
    intros (E & _ & Hf). split; [exact F|]. split; [lia|].
    rewrite <- (firstn_skipn (Z.to_nat (plen p)) (pbits p)), <- (firstn_skipn (Z.to_nat (plen p)) (pbits x)).
    rewrite Vp, Hf, E, Vx, HL. reflexivity.
Qed.

(* newSuperNode is reached only when the two prefixes are not Equal and neither Contains the
   other.  For canonical prefixes (no host bits) of one family this says exactly that their
   longest common prefix is shorter than both. *)
Theorem trie_precondition_iff p x :
  wf_pfx p -> wf_pfx x -> same_family (addr p) (addr x) ->
  Valid p = true -> Valid x = true ->
  ((pfx_equal p x = false /\ Contains p x = false /\ Contains x p = false) <->
   (lcp (pbits p) (pbits x) < Z.to_nat (Z.min (plen p) (plen x)))%nat).
Proof.
  intros Wp Wx F Vp Vx.
  rewrite <- !not_true_iff_false, Equal_lcp, (Contains_lcp p x), (Contains_lcp x p), (lcp_sym (pbits x)), Z2Nat.inj_min
    by (assumption || (symmetry; assumption)).
  fold (plen_nat p) (plen_nat x). lia.
Qed.

Theorem GetSupernet_trie p x :
  wf_pfx p -> wf_pfx x -> same_family (addr p) (addr x) ->
  Valid p = true -> Valid x = true ->
  pfx_equal p x = false -> Contains p x = false -> Contains x p = false ->
  exists s, GetSupernet p x = Some s /\
    let k := lcp (pbits p) (pbits x) in
    plen s = Z.of_nat k /\ pbits s = supernet_bits k p /\
    wf_pfx s /\ same_family (addr s) (addr p) /\
    Contains s p = true /\ Contains s x = true /\ Valid s = true /\
    BitAtPosition (addr p) (plen s + 1) <> BitAtPosition (addr x) (plen s + 1).
Proof.
  intros Wp Wx F Vp Vx NE NC1 NC2. set (k := lcp (pbits p) (pbits x)).
  pose proof Wp as [Wp' Lp]. pose proof Wx as [_ Lx].
  assert (Hpre : Z.of_nat k < Z.min (plen p) (plen x))
    by (apply Z2Nat.inj_lt; [lia.. | rewrite Nat2Z.id; apply trie_precondition_iff; auto]).
  destruct (clear_pfx p k Wp' ltac:(lia)) as (Ls & Ws & Fs & Bs).
  eexists. split; [|exact (conj Ls (conj Bs (conj Ws (conj Fs (supernet_consequences p x _ Wp Wx Ws F Fs Hpre Ls Bs)))))].
  (* the common length is below both lengths, so neither loop is cut short by its cap *)
  unfold GetSupernet, same_family, width in *. destruct (legacy (addr p)) eqn:Fp; rewrite <- F in Lx.
  - rewrite supernetIPv4_clear, Z.min_r by (congruence || lia). reflexivity.
  - rewrite supernetIPv6_clear, Z.min_r, Z.max_r by (congruence || lia). reflexivity.
Qed.
