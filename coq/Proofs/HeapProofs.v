(* C13: no export-side operation of the Adj-RIB-Out writes to an object that existed before it started. *)
From Coq Require Import List NArith Lia.
From BioVerif Require Import Lib.ListFacts Model.PathIDs Model.AdjRIBOut Model.Heap.
Local Open Scope N_scope.

(* ids are handed out in increasing order: everything stored lives below nxt *)
Definition wfh (h : heap) : Prop :=
  (forall o ob, obj_get o (objs h) = Some ob -> o < nxt h /\ forall k, o_blk ob = Some k -> k < nxt h) /\
  (forall k a, blk_get k (blks h) = Some a -> k < nxt h) /\
  (forall a k, cache_get a (cache h) = Some k -> k < nxt h).

(* whatever existed in h0 - path objects and blocks - is the same in h *)
Definition keeps (h0 h : heap) : Prop :=
  nxt h0 <= nxt h /\
  (forall o, o < nxt h0 -> obj_get o (objs h) = obj_get o (objs h0)) /\
  (forall k, k < nxt h0 -> blk_get k (blks h) = blk_get k (blks h0)).

Definition ok (h0 h : heap) : Prop := wfh h /\ keeps h0 h.

(* a working copy shares nothing until Dedup *)
Definition private (h0 h : heap) : Prop :=
  forall o ob k, nxt h0 <= o -> obj_get o (objs h) = Some ob -> o_blk ob = Some k -> nxt h0 <= k.

Definition work (h0 h : heap) : Prop := ok h0 h /\ private h0 h.

Lemma ok_wfh : forall h0 h, ok h0 h -> wfh h.
Proof. intros h0 h K. apply K. Qed.

Lemma ok_grows : forall h0 h, ok h0 h -> nxt h0 <= nxt h.
Proof. intros h0 h K. apply K. Qed.

Lemma ok_obj_lt : forall h0 h o ob, ok h0 h -> obj_get o (objs h) = Some ob ->
  o < nxt h /\ forall k, o_blk ob = Some k -> k < nxt h.
Proof. intros h0 h o ob K. apply K. Qed.

Lemma wfh_blk_lt : forall h k a, wfh h -> blk_get k (blks h) = Some a -> k < nxt h.
Proof. intros h k a W. apply W. Qed.

Lemma wfh_cache_lt : forall h a k, wfh h -> cache_get a (cache h) = Some k -> k < nxt h.
Proof. intros h a k W. apply W. Qed.

Lemma keeps_refl : forall h, keeps h h.
Proof. intros h. split; [lia|]. split; auto. Qed.

Lemma keeps_trans : forall h0 h1 h2, keeps h0 h1 -> keeps h1 h2 -> keeps h0 h2.
Proof.
  intros h0 h1 h2 [A [B C]] [A' [B' C']]. split; [lia|]. split.
  - intros o Ho. rewrite B' by lia. now apply B.
  - intros k Hk. rewrite C' by lia. now apply C.
Qed.

Lemma ok_refl : forall h, wfh h -> ok h h.
Proof. intros h W. split; [exact W|apply keeps_refl]. Qed.

Lemma ok_trans : forall h0 h1 h2, ok h0 h1 -> ok h1 h2 -> ok h0 h2.
Proof. intros h0 h1 h2 [_ K1] [W2 K2]. split; [exact W2|eapply keeps_trans; eassumption]. Qed.

Lemma work_refl : forall h, wfh h -> work h h.
Proof.
  intros h W. split; [now apply ok_refl|]. intros o ob k L G. apply W in G. lia.
Qed.

Lemma wfh_empty : wfh heap_empty.
Proof. split; [|split]; cbn; intros; discriminate. Qed.

Lemma obj_get_cons : forall o o' v l, obj_get o ((o', v) :: l) = if N.eqb o' o then Some v else obj_get o l.
Proof. reflexivity. Qed.
Lemma blk_get_cons : forall o o' v l, blk_get o ((o', v) :: l) = if N.eqb o' o then Some v else blk_get o l.
Proof. reflexivity. Qed.

(* Every store the primitives build is the old one with bindings put in front of its three maps and a larger
   nxt.  A new binding is harmless if its key lies in [nxt h0, nxt): below nxt for the store to stay
   well-formed, not below nxt h0 for what h0 held to stay as it was. *)
Section Bindings.
  Variables (h0 : heap) (os : list (N * pobj)) (bs : list (N * ablock)) (cs : list (ablock * N)) (n : N).

  Lemma ok_obj : forall o ob, nxt h0 <= o < n -> (forall k, o_blk ob = Some k -> k < n) ->
    ok h0 (mkHeap os bs cs n) -> ok h0 (mkHeap ((o, ob) :: os) bs cs n).
  Proof.
    intros o ob Lo Lb [[W1 W23] [K1 [K2 K3]]]. cbn [objs nxt] in *. split; split; try assumption.
    - cbn [objs nxt]. intros o2 ob2. rewrite obj_get_cons.
      destruct (N.eqb_spec o o2) as [<-|_]; [|apply W1]. intros X. inversion X; subst. split; [lia|assumption].
    - split; [|exact K3]. cbn [objs]. intros o2 L2. rewrite obj_get_cons. destruct (N.eqb_spec o o2); [lia|now apply K2].
  Qed.

  Lemma ok_blk : forall k a, nxt h0 <= k < n -> ok h0 (mkHeap os bs cs n) -> ok h0 (mkHeap os ((k, a) :: bs) cs n).
  Proof.
    intros k a Lk [[W1 [W2 W3]] [K1 [K2 K3]]]. cbn [blks nxt] in *. split; (split; [assumption|]); split; try assumption.
    - cbn [blks nxt]. intros k2 a2. rewrite blk_get_cons. destruct (N.eqb_spec k k2) as [<-|_]; [intros _; lia|apply W2].
    - cbn [blks]. intros k2 L2. rewrite blk_get_cons. destruct (N.eqb_spec k k2); [lia|now apply K3].
  Qed.

  Lemma ok_cache : forall a k, k < n -> ok h0 (mkHeap os bs cs n) -> ok h0 (mkHeap os bs ((a, k) :: cs) n).
  Proof.
    intros a k Lk [[W1 [W2 W3]] K]. split; [|exact K]. split; [exact W1|]. split; [exact W2|]. cbn [cache cache_get nxt] in *.
    intros a2 k2. destruct (ablock_eq_dec a a2); [intros X; inversion X; now subst|apply W3].
  Qed.
End Bindings.

Lemma ok_nxt : forall h0 h n, nxt h <= n -> ok h0 h -> ok h0 (mkHeap (objs h) (blks h) (cache h) n).
Proof.
  intros h0 h n L [[W1 [W2 W3]] [K1 K23]]. split; [split; [|split]|split; [cbn [nxt]; lia|exact K23]]; cbn [objs blks cache nxt].
  - intros o ob X. destruct (W1 o ob X) as [A B]. split; [lia|]. intros k Y. specialize (B k Y). lia.
  - intros k a X. specialize (W2 k a X). lia.
  - intros a k X. specialize (W3 a k X). lia.
Qed.

Lemma private_obj : forall h0 h o ob bs cs n, (forall k, o_blk ob = Some k -> nxt h0 <= k) ->
  private h0 h -> private h0 (mkHeap ((o, ob) :: objs h) bs cs n).
Proof.
  intros h0 h o ob bs cs n Hb V o2 ob2 k L. cbn [objs]. rewrite obj_get_cons.
  destruct (N.eqb o o2); [|now apply V]. intros X. inversion X; subst. apply Hb.
Qed.

Lemma alloc_copy_ok : forall h0 h o,
  work h0 h -> work h0 (fst (alloc_copy h o)) /\ nxt h0 <= snd (alloc_copy h o).
Proof.
  intros h0 h o KV. unfold alloc_copy. pose proof (ok_grows _ _ (proj1 KV)) as L.
  destruct (obj_get o (objs h)) as [ob|]; [|now split].
  destruct (o_blk ob) as [k|] eqn:B; [destruct (blk_get k (blks h)) as [a|]; [|now split]|];
    cbn [fst snd]; destruct KV as [K V]; (split; [split|exact L]).
  - apply ok_blk, ok_obj, ok_nxt, K; cbn [o_blk]; try lia. intros k2 Y. inversion Y. lia.
  - apply private_obj, V. cbn [o_blk]. intros k2 Y. inversion Y. lia.
  - apply ok_obj, ok_nxt, K; try lia. congruence.
  - apply private_obj, V. congruence.
Qed.

Lemma write_full_ok : forall h0 h o v, work h0 h -> nxt h0 <= o -> work h0 (write_full h o v).
Proof.
  intros h0 h o v [K V] Ho. unfold write_full. pose proof (ok_grows _ _ K) as L.
  destruct (obj_get o (objs h)) as [ob|] eqn:G; [|now split].
  destruct (ok_obj_lt _ _ _ _ K G) as [Lo Lb]. pose proof (fun k => V o ob k Ho G) as Vo.
  destruct v as [sn|r b]; [|destruct (o_blk ob) as [k|] eqn:B]; (split; [|apply private_obj, V; cbn [o_blk]]).
  - now apply ok_obj.
  - exact Vo.
  - (* the block written is the object's own: Vo puts it above nxt h0 *)
    apply ok_blk, ok_obj; auto.
  - exact Vo.
  - apply ok_blk, ok_obj, ok_nxt, K; cbn [o_blk]; try lia. intros k2 Y. inversion Y. lia.
  - intros k2 Y. inversion Y. lia.
Qed.

Lemma write_obj_ok : forall h0 h o v, ok h0 h -> nxt h0 <= o -> ok h0 (write_obj h o v).
Proof.
  intros h0 h o v K Ho. unfold write_obj.
  destruct (obj_get o (objs h)) as [ob|] eqn:G; [|exact K].
  destruct (ok_obj_lt _ _ _ _ K G) as [Lo Lb]. now apply ok_obj.
Qed.

Lemma dedup_ok : forall h0 h o, ok h0 h -> nxt h0 <= o -> ok h0 (dedup h o).
Proof.
  intros h0 h o K Ho. pose proof (ok_wfh _ _ K) as W. unfold dedup.
  destruct (obj_get o (objs h)) as [ob|] eqn:G; [|exact K].
  destruct (o_blk ob) as [k|] eqn:B; [|exact K].
  destruct (blk_get k (blks h)) as [a|] eqn:GB; [|exact K].
  destruct (cache_get a (cache h)) as [k'|] eqn:C.
  - apply ok_obj; [split; [exact Ho|exact (proj1 (ok_obj_lt _ _ _ _ K G))]| |exact K]. cbn [o_blk]. intros k2 Y. inversion Y; subst.
    apply (wfh_cache_lt _ _ _ W C).
  - apply ok_cache; [|exact K]. apply (wfh_blk_lt _ _ _ W GB).
Qed.

Lemma hnew_ok : forall h v sh, wfh h -> ok h (fst (hnew h v sh)).
Proof.
  intros h v sh W. pose proof (ok_refl h W) as K. destruct v as [sn|r b]; cbn [hnew fst].
  - apply ok_obj, ok_nxt, K; cbn; try lia. discriminate.
  - destruct sh; [apply dedup_ok; [|cbn; lia]|];
      (apply ok_blk, ok_obj, ok_nxt, K; cbn [o_blk nxt]; try lia; intros k2 Y; inversion Y; lia).
Qed.

Lemma ok_fold : forall (S A : Type) (hp : S -> heap) (g : S -> A -> S) (l : list A),
  (forall x a, wfh (hp x) -> ok (hp x) (hp (g x a))) ->
  forall x, wfh (hp x) -> ok (hp x) (hp (fold_left g l x)).
Proof.
  intros S A hp g l Hg x. apply (fold_left_rel g (fun x y => wfh (hp x) -> ok (hp x) (hp y))).
  - intros a. apply ok_refl.
  - intros a b c H1 H2 W. apply (ok_trans _ _ _ (H1 W)), H2, (H1 W).
  - intros a b _. apply Hg.
Qed.

Section Ops.
  Variable P : Type.
  Variable apply : P -> N -> path -> option path.
  Variable s : sess.

  Notation st := (heap * haro P)%type.

  Definition safe (g : st -> st) : Prop := forall x, wfh (fst x) -> ok (fst x) (fst (g x)).

  Lemma hadd_inner_ok : forall h0 x pfx o q,
    ok h0 (fst x) -> nxt h0 <= o -> ok h0 (fst (hadd_inner P s x pfx o q)).
  Proof.
    intros h0 [h t] pfx o q K Ho. cbn [fst] in *. unfold hadd_inner.
    destruct (s_addpath s); [|exact K].
    destruct (path_hkey q) as [kq|]; [|exact K].
    destruct (pid_add hkey hkey_eq_dec kq (t_pm t)) as [m [i| |]]; cbn [fst]; auto.
    now apply write_obj_ok.
  Qed.

  Lemma hremove_exported_heap : forall x pfx q, fst (hremove_exported P s x pfx q) = fst x.
  Proof.
    intros [h t] pfx q. unfold hremove_exported. cbn [fst].
    destruct (entries pfx (t_tbl t)); [reflexivity|].
    destruct (s_addpath s); [|reflexivity].
    destruct (find_by h _ _) as [sp|]; [|reflexivity].
    destruct (path_hkey sp) as [kq|]; [|reflexivity].
    destruct (pid_release hkey hkey_eq_dec kq (t_pm t)) as [m [i|]]; reflexivity.
  Qed.

  Lemma hremove_safe : forall pfx arg, safe (fun x => hremove P apply s x pfx arg).
  Proof.
    intros pfx arg [h t] W. cbn [fst] in W. unfold hremove.
    destruct (read h arg) as [v|]; [|now apply ok_refl].
    destruct (should_propagate s v); [|now apply ok_refl].
    destruct (alloc_copy_ok h h arg (work_refl h W)) as [K1 L1].
    destruct (alloc_copy h arg) as [h1 o1].
    destruct (apply (t_cur t) pfx v) as [q|]; [|apply K1].
    rewrite hremove_exported_heap. now apply write_full_ok.
  Qed.

  Lemma hwipe_safe : forall pfx, safe (fun x => hwipe P apply s x pfx).
  Proof.
    intros pfx x. unfold hwipe. apply (ok_fold _ _ fst). intros y a. apply (hremove_safe pfx a).
  Qed.

  Lemma hprepare_ok : forall h arg,
    wfh h -> work h (fst (fst (hprepare s h arg))) /\ nxt h <= snd (fst (hprepare s h arg)).
  Proof.
    intros h arg W. unfold hprepare.
    destruct (alloc_copy_ok h h arg (work_refl h W)) as [K1 L1].
    destruct (alloc_copy h arg) as [h1 oc].
    destruct (read h1 oc) as [v1|]; [|auto].
    destruct (redistribute s v1) as [r b]. split; [now apply write_full_ok|exact L1].
  Qed.

  Lemma hadd_safe : forall pfx arg, safe (fun x => hadd P apply s x pfx arg).
  Proof.
    intros pfx arg [h t] W. cbn [fst] in W. unfold hadd.
    destruct (hprepare_ok h arg W) as [K2 L1].
    destruct (hprepare s h arg) as [[h2 o1] rb].
    destruct rb as [[r b]|]; [|apply K2].
    destruct (should_propagate s (PBgp r b)).
    - destruct (rewrite s r b) as [b'|]; [|apply K2].
      destruct (alloc_copy_ok h _ o1 (write_full_ok h h2 o1 (PBgp r b') K2 L1)) as [K4 L2].
      destruct (alloc_copy (write_full h2 o1 (PBgp r b')) o1) as [h4 o2].
      destruct (apply (t_cur t) pfx (PBgp r b')) as [q|]; [|apply K4].
      apply hadd_inner_ok, L2. apply dedup_ok, L2. now apply write_full_ok.
    - destruct (s_addpath s); [|apply K2].
      exact (ok_trans _ _ _ (proj1 K2) (hwipe_safe pfx (h2, t) (ok_wfh _ _ (proj1 K2)))).
  Qed.

  Lemma hrefresh_one_safe : forall nw pfx arg, safe (fun x => hrefresh_one P apply s nw pfx x arg).
  Proof.
    intros nw pfx arg [h t] W. cbn [fst] in W. unfold hrefresh_one.
    destruct (hprepare_ok h arg W) as [K2 L1].
    destruct (hprepare s h arg) as [[h2 o1] rb].
    destruct rb as [[r b]|]; [|apply K2].
    destruct (should_propagate s (PBgp r b)); [|apply K2].
    destruct (rewrite s r b) as [b'|]; [|apply K2].
    destruct (alloc_copy_ok h _ o1 (write_full_ok h h2 o1 (PBgp r b') K2 L1)) as [K4 Lc].
    destruct (alloc_copy (write_full h2 o1 (PBgp r b')) o1) as [h4 oc].
    destruct (alloc_copy_ok h h4 o1 K4) as [K5 Ln].
    destruct (alloc_copy h4 o1) as [h5 on].
    destruct (apply (t_cur t) pfx (PBgp r b')) as [c|]; destruct (apply nw pfx (PBgp r b')) as [n|].
    - pose proof (write_full_ok h _ on n (write_full_ok h h5 oc c K5 Lc) Ln) as K7.
      destruct (path_compare c n); [apply K7|].
      apply hadd_inner_ok, Ln. rewrite hremove_exported_heap. apply K7.
    - rewrite hremove_exported_heap. now apply write_full_ok.
    - apply hadd_inner_ok, Ln. now apply write_full_ok.
    - apply K5.
  Qed.

  Lemma hreplace_safe : forall nw view, safe (fun x => hreplace P apply s x nw view).
  Proof.
    intros nw view x. unfold hreplace. cbn [fst]. apply (ok_fold _ _ fst).
    intros y r. apply (ok_fold _ _ fst). intros z arg. apply hrefresh_one_safe.
  Qed.

  Theorem hstep_safe : forall o, safe (fun x => hstep P apply s x o).
  Proof.
    intros [pfx arg|pfx arg|nw view|pfx arg|pfx arg|]; cbn [hstep];
      [apply hadd_safe|apply hremove_safe|apply hreplace_safe|..]; intros x W; now apply ok_refl.
  Qed.
End Ops.

Lemma keeps_read : forall h0 h o, wfh h0 -> keeps h0 h -> o < nxt h0 -> read h o = read h0 o.
Proof.
  intros h0 h o [W1 _] [_ [K2 K3]] Ho. unfold read. rewrite K2 by assumption.
  destruct (obj_get o (objs h0)) as [ob|] eqn:G; [|reflexivity].
  destruct (o_val ob) as [sn|r b]; [reflexivity|].
  destruct (o_blk ob) as [k|] eqn:B; [|reflexivity].
  rewrite K3; [reflexivity|]. destruct (W1 _ _ G) as [_ L]. now apply L.
Qed.

(* what two stores related by ok mean for a reader, in the three forms C13_isolation quotes *)
Lemma ok_reads : forall h0 h, wfh h0 -> ok h0 h ->
  (forall oid, oid < nxt h0 -> read h oid = read h0 oid) /\
  (forall k, k < nxt h0 -> blk_get k (blks h) = blk_get k (blks h0)) /\
  (forall tb : list N, Forall (fun oid => oid < nxt h0) tb -> map (read h) tb = map (read h0) tb).
Proof.
  intros h0 h W [_ K]. split; [|split].
  - intros oid L. now apply keeps_read.
  - apply K.
  - intros tb F. apply map_ext_in. intros oid HI. rewrite Forall_forall in F. apply keeps_read; auto.
Qed.
