(* C14: what the simulation of Proofs/PolicySim.v is made of.  The engine reads the matcher function through its
   values alone ([process_w_ext], for Proofs/PolicyNetLink.v). *)
From Coq Require Import List NArith Bool Lia Arith.
Import ListNotations.
From BioVerif Require Import Lib.ListFacts Model.Policy Spec.PolicyRef Proofs.PolicyBits Proofs.PolicyEqual.
Local Open Scope N_scope.

Lemma any_of_existsb {A : Type} (f : A -> bool) l : any_of f l = existsb f l.
Proof. induction l as [| x l IH]; simpl; auto. destruct (f x); simpl; auto. Qed.

Lemma part_any {A : Type} (f : A -> bool) l :
  (if is_nil l then true else any_of f l) = part f l.
Proof. destruct l; simpl; auto. rewrite any_of_existsb. destruct (f a); reflexivity. Qed.

Lemma part_ext_in {A : Type} (f g : A -> bool) l :
  (forall x, In x l -> f x = g x) -> part f l = part g l.
Proof. intros H. destruct l; auto. unfold part. apply existsb_ext_in. exact H. Qed.

Lemma existsb_const_false {A : Type} (l : list A) : existsb (fun _ => false) l = false.
Proof. induction l; simpl; auto. Qed.

(* a part of community filters: a path without BGP part, a nil attribute list and an empty one
   are the same *)
Lemma comm_part {A : Type} (eqb : A -> A -> bool) (sel : bgppath -> option (list A)) fs (ob : option bgppath) :
  (forall x y, eqb x y = eqb y x) ->
  (if is_nil fs then true else
   match ob with
   | None => false
   | Some b => any_of (fun f => match sel b with None => false | Some l => any_of (fun x => eqb x f) l end) fs
   end) =
  part (fun c => existsb (eqb c) (match ob with Some b => match sel b with Some l => l | None => [] end | None => [] end)) fs.
Proof.
  intros Hs. destruct fs as [| f0 fs]; [reflexivity |]. simpl is_nil. cbv iota. unfold part. destruct ob as [b |].
  - rewrite any_of_existsb. apply existsb_ext_in. intros f _.
    destruct (sel b) as [l |]; [| reflexivity]. rewrite any_of_existsb. apply existsb_ext_in. intros x _. apply Hs.
  - symmetry. apply (existsb_const_false (f0 :: fs)).
Qed.

Lemma forallb_In {A : Type} (f : A -> bool) l x : forallb f l = true -> In x l -> f x = true.
Proof. intros H Hin. rewrite forallb_forall in H. auto. Qed.

(* a matcher function that agrees with the bit-level matchers on valid prefixes *)
Definition mm_ok (mm : matcher -> prefix -> prefix -> bool) : Prop :=
  forall m pat p, prefix_wfb pat = true -> prefix_wfb p = true -> mm m pat p = m_ref m pat p.

Lemma cond_ok_w mm env c p a :
  mm_ok mm ->
  cond_wfb env c = true -> prefix_wfb p = true -> cond_matches_w mm env c p a = cond_ref env c p a.
Proof.
  intros Hmm Wc Wp. unfold cond_wfb in Wc. apply andb_true_iff in Wc. destruct Wc as [Wpl Wrf].
  unfold cond_matches_w, cond_ref. f_equal; [f_equal; [f_equal; [f_equal |] |] |].
  - unfold matches_prefix_lists_w. rewrite part_any. apply part_ext_in. intros l Hl.
    unfold pl_matches_w. rewrite any_of_existsb. apply existsb_ext_in. intros q Hq.
    apply Hmm; auto. apply (forallb_In _ _ _ (forallb_In _ _ _ Wpl Hl) Hq).
  - unfold matches_route_filters_w. rewrite part_any. apply part_ext_in. intros f Hf.
    unfold rf_matches_w. apply Hmm; auto. apply (forallb_In _ _ _ Wrf Hf).
  - apply (comm_part N.eqb b_comms), N.eqb_sym.
  - apply (comm_part lcomm_eqb b_lcomms), (eqb_sym_of lcomm_eqb_eq).
  - unfold matches_protocols. rewrite part_any. apply part_ext_in. intros t _. apply N.eqb_sym.
Qed.

Lemma cond_ok env c p a :
  cond_wfb env c = true -> prefix_wfb p = true -> cond_matches env c p a = cond_ref env c p a.
Proof. apply cond_ok_w. exact matcher_ok. Qed.

Lemma aspath_length_ok l : aspath_length l = path_len l.
Proof.
  unfold path_len. induction l as [| [ty asns] l IH].
  - reflexivity.
  - cbn [aspath_length fold_right]. rewrite IH. unfold seg_len. cbn [fst snd].
    apply N.add_mod_idemp_r. discriminate.
Qed.

(* the invariant of prepend_loop: there is a leading segment and it is not an AS_SET, so that
   cons_first after the 255-test is push_asn *)
Definition headok (l : list seg) : Prop :=
  match l with (ty, _) :: _ => (ty =? ASSet) = false | [] => False end.

Lemma push_step asn l :
  headok l ->
  cons_first asn (if first_len l =? MaxASNsSegment then new_seq :: l else l) = push_asn asn l /\
  headok (push_asn asn l).
Proof.
  destruct l as [| [ty asns] r]; simpl; [tauto |]. intros H. rewrite H. simpl.
  unfold MaxASNsSegment. destruct (N.of_nat (length asns) =? 255); simpl; auto.
Qed.

Lemma prepend_loop_ok asn n : forall l, headok l -> prepend_loop n asn l = Nat.iter n (push_asn asn) l.
Proof.
  induction n as [| n IH]; intros l H; [reflexivity |].
  unfold Nat.iter. rewrite nat_rect_succ_r. cbn [prepend_loop]. destruct (push_step asn l H) as [E H'].
  rewrite E. apply IH. exact H'.
Qed.

(* l2 is what the two lets of bgp_prepend make of l0 *)
Lemma prepend_loop_from asn n l0 l2 :
  n <> O -> headok l2 -> push_asn asn l2 = push_asn asn l0 ->
  prepend_loop n asn l2 = Nat.iter n (push_asn asn) l0.
Proof.
  intros Hn Hh Hp. rewrite (prepend_loop_ok asn n l2 Hh). destruct n as [| m]; [congruence |].
  unfold Nat.iter. rewrite !nat_rect_succ_r, Hp. reflexivity.
Qed.

Lemma bgp_prepend_ok asn times b : bgp_prepend asn times b = prepend_ref asn times b.
Proof.
  unfold bgp_prepend, prepend_ref. destruct (times =? 0) eqn:E; [reflexivity |].
  apply N.eqb_neq in E. rewrite aspath_length_ok.
  rewrite (prepend_loop_from asn _ (match b_aspath b with Some l => l | None => [] end)); [reflexivity | lia | |];
    destruct (b_aspath b) as [[| [ty asns] r] |]; simpl; try reflexivity;
    destruct (ty =? ASSet) eqn:Et; simpl; rewrite ?Et; reflexivity.
Qed.

Lemma set_next_hop_ok nh v : set_next_hop nh v = next_hop_ref nh v.
Proof.
  unfold set_next_hop, next_hop_ref, on_bgp, on_attrs.
  destruct (pa_type v =? BGPPathType); [| reflexivity].
  destruct (pa_bgp v) as [b |] eqn:Eb; [| reflexivity].
  destruct (b_a b) eqn:Ea; [reflexivity |].
  destruct v as [ty bg stc]. simpl in *. subst bg. destruct b. simpl in *. subst. reflexivity.
Qed.

(* Term.processActions, Filter.Process and the loop of Chain.Process are one loop: run the steps
   in order until one of them terminates *)
Fixpoint seq_run {X : Type} (step : X -> store -> nat -> res (store * ares)) (l : list X)
    (st : store) (r : nat) : res (store * ares) :=
  match l with
  | [] => cont st r
  | x :: l' =>
    match step x st r with
    | Panic => Panic
    | Ok (st1, ar) => if ar_term ar then Ok (st1, ar) else seq_run step l' st1 (ar_path ar)
    end
  end.

Lemma process_actions_run acts : forall st r, process_actions acts st r = seq_run act_do acts st r.
Proof.
  induction acts as [| a acts IH]; intros st r; simpl; [reflexivity |].
  destruct (act_do a st r) as [| [st1 [r1 rj []]]]; simpl; auto.
Qed.

Lemma filter_process_run mm env p f : forall st r,
  filter_process_w mm env f p st r = seq_run (fun t => term_process_w mm env t p) f st r.
Proof.
  induction f as [| t f IH]; intros st r; simpl; [reflexivity |].
  destruct (term_process_w mm env t p st r) as [| [st1 [r1 rj []]]]; simpl; auto.
Qed.

Lemma chain_loop_run mm env p c : forall st r,
  chain_loop_w mm env c p st r =
  match seq_run (fun f => filter_process_w mm env f p) c st r with
  | Panic => Panic
  | Ok (st', ar) => Ok (st', ar_path ar, ar_reject ar)
  end.
Proof.
  induction c as [| f c IH]; intros st r; simpl; [reflexivity |].
  destruct (filter_process_w mm env f p st r) as [| [st1 [r1 rj []]]]; simpl; auto.
Qed.

Lemma seq_run_ext {X : Type} (s s' : X -> store -> nat -> res (store * ares)) l :
  (forall x st r, s x st r = s' x st r) -> forall st r, seq_run s l st r = seq_run s' l st r.
Proof.
  intros H. induction l as [| x l IH]; intros st r; simpl; [reflexivity |].
  rewrite H. destruct (s' x st r) as [| [st1 ar]]; [reflexivity |]. rewrite IH. reflexivity.
Qed.

Section Ext.
Variables mm mm' : matcher -> prefix -> prefix -> bool.
Hypothesis Hext : forall m a b, mm m a b = mm' m a b.

Lemma cond_matches_w_ext env c p pa : cond_matches_w mm env c p pa = cond_matches_w mm' env c p pa.
Proof.
  unfold cond_matches_w, matches_prefix_lists_w, matches_route_filters_w. rewrite !part_any.
  f_equal. f_equal. f_equal. f_equal; apply part_ext_in.
  - intros l _. unfold pl_matches_w. rewrite !any_of_existsb. apply existsb_ext_in. intros a _. apply Hext.
  - intros f _. apply Hext.
Qed.

Lemma term_process_w_ext env p t st r : term_process_w mm env t p st r = term_process_w mm' env t p st r.
Proof.
  unfold term_process_w. destruct (nth_error st r) as [pa |]; [| reflexivity].
  rewrite !any_of_existsb, (existsb_ext_in _ (fun f => cond_matches_w mm' env f p pa)); [reflexivity |].
  intros f _. apply cond_matches_w_ext.
Qed.

Lemma process_w_ext env c p st r : process_w mm env c p st r = process_w mm' env c p st r.
Proof.
  unfold process_w. destruct (nth_error st r); [| reflexivity]. unfold alloc.
  rewrite !chain_loop_run. rewrite (seq_run_ext _ (fun f => filter_process_w mm' env f p)); [reflexivity |].
  intros f st1 r1. rewrite !filter_process_run. apply seq_run_ext. intros t. apply term_process_w_ext.
Qed.
End Ext.

Lemma length_upd st r v : length (upd st r v) = length st.
Proof. revert r. induction st as [| x st IH]; intros [| r]; simpl; auto. Qed.

Lemma nth_error_upd_same st r v : (r < length st)%nat -> nth_error (upd st r v) r = Some v.
Proof.
  revert r. induction st as [| x st IH]; intros [| r] H; simpl in *; try lia; auto.
  apply IH. lia.
Qed.

Lemma nth_error_upd_other st r v k : k <> r -> nth_error (upd st r v) k = nth_error st k.
Proof.
  revert r k. induction st as [| x st IH]; intros [| r] [| k] H; simpl; auto; try congruence.
Qed.

Lemma upd_app_last st x v : upd (st ++ [x]) (length st) v = st ++ [v].
Proof. induction st as [| y st IH]; simpl; auto. rewrite IH. reflexivity. Qed.

Lemma nth_error_app_last (st : store) v : nth_error (st ++ [v]) (length st) = Some v.
Proof. rewrite nth_error_app2 by lia. rewrite Nat.sub_diag. reflexivity. Qed.

Definition rej_of (v : verdict) : bool := match v with Rejected => true | _ => false end.
Definition term_of (v : verdict) : bool := match v with Continue => false | _ => true end.

(* cells below L0 are untouched, the store only grows *)
Definition frame (L0 : nat) (st st' : store) : Prop :=
  (length st <= length st')%nat /\ forall k, (k < L0)%nat -> nth_error st' k = nth_error st k.

Lemma frame_refl L0 st : frame L0 st st.
Proof. split; auto. Qed.

Lemma frame_trans L0 a b c : frame L0 a b -> frame L0 b c -> frame L0 a c.
Proof. intros [H1 H2] [H3 H4]. split; [lia |]. intros k Hk. rewrite H4, H2; auto. Qed.

Lemma frame_alloc L0 st v : (L0 <= length st)%nat -> frame L0 st (st ++ [v]).
Proof.
  intros HL. split. { rewrite app_length. simpl. lia. }
  intros k Hk. apply nth_error_app1. lia.
Qed.

Lemma frame_upd L0 st r v : (L0 <= r)%nat -> frame L0 st (upd st r v).
Proof.
  intros HL. split. { rewrite length_upd. lia. }
  intros k Hk. apply nth_error_upd_other. lia.
Qed.

