(* C14: the store model of Chain.Process simulates the reference interpreter. *)
From Coq Require Import List NArith Lia.
Import ListNotations.
From BioVerif Require Import Model.Policy Spec.PolicyRef Proofs.PolicyProofs.
Local Open Scope N_scope.

Definition sim (L0 : nat) (m : res (store * ares)) (st : store) (sp : path * verdict) : Prop :=
  exists st' r',
    m = Ok (st', mkR r' (rej_of (snd sp)) (term_of (snd sp))) /\
    nth_error st' r' = Some (fst sp) /\ path_wfb (fst sp) = true /\ (L0 <= r')%nat /\ frame L0 st st'.

(* The three ways an action leaves the store: untouched, a copy of the path in a new cell,
   the cell of the path overwritten. *)
Lemma sim_same L0 st r v vd :
  nth_error st r = Some v -> path_wfb v = true -> (L0 <= r)%nat ->
  sim L0 (Ok (st, mkR r (rej_of vd) (term_of vd))) st (v, vd).
Proof. intros Hn Hw HL. exists st, r. auto using frame_refl. Qed.

Lemma sim_fresh L0 st v v' :
  (L0 <= length st)%nat -> path_wfb v' = true ->
  sim L0 (cont (upd (st ++ [v]) (length st) v') (length st)) st (v', Continue).
Proof.
  intros HL Hw. rewrite upd_app_last.
  exists (st ++ [v']), (length st). split; [reflexivity | auto using nth_error_app_last, frame_alloc].
Qed.

Lemma sim_inplace L0 st r v' :
  (r < length st)%nat -> (L0 <= r)%nat -> path_wfb v' = true ->
  sim L0 (cont (upd st r v') r) st (v', Continue).
Proof.
  intros Hlt HL Hw.
  exists (upd st r v'), r. split; [reflexivity | auto using nth_error_upd_same, frame_upd].
Qed.

Lemma path_wfb_on_attrs f a :
  path_wfb a = true -> path_wfb (on_bgp (on_attrs f) a) = true.
Proof.
  intros H. unfold path_wfb in *. unfold on_bgp. destruct (pa_bgp a) as [b |] eqn:Eb.
  - simpl. unfold on_attrs. destruct (b_a b) eqn:Ea; simpl; [reflexivity | rewrite Ea; exact H].
  - rewrite Eb. reflexivity.
Qed.

Lemma next_hop_wf nh v : path_wfb v = true -> path_wfb (next_hop_ref nh v) = true.
Proof.
  intros Hw. unfold next_hop_ref.
  destruct (pa_type v =? BGPPathType); [apply path_wfb_on_attrs; exact Hw |].
  destruct (pa_type v =? StaticPathType); [| exact Hw].
  destruct (pa_static v); exact Hw.
Qed.

Lemma prepend_wf asn times v : path_wfb v = true -> path_wfb (on_bgp (prepend_ref asn times) v) = true.
Proof.
  intros Hw. unfold path_wfb in *. unfold on_bgp. destruct (pa_bgp v) as [b |] eqn:Eb.
  - simpl. unfold prepend_ref. destruct (times =? 0); [exact Hw |]. simpl. exact Hw.
  - rewrite Eb. reflexivity.
Qed.

Definition sims (L0 : nat) (f : store -> nat -> res (store * ares)) (g : path -> path * verdict) : Prop :=
  forall st r v, nth_error st r = Some v -> path_wfb v = true -> (L0 <= r)%nat -> sim L0 (f st r) st (g v).

(* What SetLocalPref and SetMED do with the path they read: a copy with the BGPPathA block
   updated by f. *)
Lemma set_attr_sim L0 f st r v :
  nth_error st r = Some v -> path_wfb v = true -> (L0 <= r)%nat ->
  sim L0
    match pa_bgp v with
    | None => cont st r
    | Some b =>
      let '(st1, m) := alloc st v in
      match b_a b with
      | None => Panic
      | Some a0 =>
        let b' := mkB (Some (f a0)) (b_aspath b) (b_aspathlen b) (b_comms b) (b_lcomms b) in
        cont (upd st1 m (mkP (pa_type v) (Some b') (pa_static v))) m
      end
    end st (on_bgp (on_attrs f) v, Continue).
Proof.
  intros Hn Hw HL. assert (Hlt : (r < length st)%nat) by (apply nth_error_Some; congruence).
  pose proof (path_wfb_on_attrs f v Hw) as Hw2.
  unfold on_bgp in *. unfold path_wfb in Hw. destruct (pa_bgp v) as [b |] eqn:Eb.
  - unfold on_attrs in *. destruct (b_a b) as [a0 |] eqn:Ea; [| discriminate].
    apply sim_fresh; [lia | exact Hw2].
  - apply (sim_same L0 st r v Continue); auto.
Qed.

Lemma act_sims L0 a : sims L0 (act_do a) (act_ref a).
Proof.
  intros st r v Hn Hw HL. assert (Hlt : (r < length st)%nat) by (apply nth_error_Some; congruence).
  destruct a as [| | lp | med | nh | asn times]; unfold act_do; rewrite Hn; cbn [act_ref].
  - apply (sim_same L0 st r v Accepted); auto.
  - apply (sim_same L0 st r v Rejected); auto.
  - apply (set_attr_sim L0 (fun x => mkA lp (a_med x) (a_nh x))); auto.
  - apply (set_attr_sim L0 (fun x => mkA (a_lp x) med (a_nh x))); auto.
  - unfold alloc. rewrite set_next_hop_ok.
    apply sim_fresh; [lia | apply next_hop_wf; exact Hw].
  - pose proof (prepend_wf asn times v Hw) as Hw2.
    unfold on_bgp in *. destruct (pa_bgp v) as [b |] eqn:Eb.
    + rewrite bgp_prepend_ok. apply sim_inplace; auto.
    + apply (sim_same L0 st r v Continue); auto.
Qed.

Lemma sim_frame L0 m st st1 sp : frame L0 st st1 -> sim L0 m st1 sp -> sim L0 m st sp.
Proof.
  intros Hf [st' [r' [E [Hn [Hw [HL Hf2]]]]]]. exists st', r'. repeat split; auto;
  destruct (frame_trans L0 st st1 st' Hf Hf2); auto.
Qed.

Lemma seq_run_sims {X : Type} L0 (step : X -> store -> nat -> res (store * ares)) stepR l :
  (forall x, sims L0 (step x) (stepR x)) -> sims L0 (seq_run step l) (seq_ref stepR l).
Proof.
  intros Hs. induction l as [| x l IH]; intros st r v Hn Hw HL; cbn [seq_run seq_ref].
  - apply (sim_same L0 st r v Continue); auto.
  - pose proof (Hs x st r v Hn Hw HL) as S. destruct (stepR x v) as [v1 vd].
    pose proof S as [st1 [r1 [E [Hn1 [Hw1 [HL1 Hf1]]]]]]. rewrite E in *. cbn [fst snd] in *.
    destruct vd; cbn [term_of rej_of ar_term ar_path]; [| exact S | exact S].
    apply (sim_frame L0 _ st st1); auto.
Qed.

(* value-level reading of the model: the reference evaluation order with the MODEL's
   condition test for an arbitrary matcher function mm (no well-formedness of prefixes needed) *)
Section WithMatcher.
Variable mm : matcher -> prefix -> prefix -> bool.

Definition applies_m (env : penv) (p : prefix) (t : term) (a : path) : bool :=
  if is_nil (t_from t) then true else any_of (fun f => cond_matches_w mm env f p a) (t_from t).
Definition term_val (env : penv) (p : prefix) (t : term) (a : path) : path * verdict :=
  if applies_m env p t a then seq_ref act_ref (t_then t) a else (a, Continue).
Definition filter_val (env : penv) (p : prefix) (f : filter) (a : path) : path * verdict :=
  seq_ref (term_val env p) f a.
Definition chain_val (env : penv) (c : chain) (p : prefix) (a : path) : path * bool :=
  let (a', v) := seq_ref (filter_val env p) c a in (a', rej_of v).

Lemma term_sims L0 env p t : sims L0 (term_process_w mm env t p) (term_val env p t).
Proof.
  intros st r v Hn Hw HL. unfold term_process_w, term_val, applies_m. rewrite Hn, !process_actions_run.
  destruct (is_nil (t_from t)); [apply seq_run_sims; auto using act_sims |].
  destruct (any_of _ (t_from t)); [apply seq_run_sims; auto using act_sims |].
  apply (sim_same L0 st r v Continue); auto.
Qed.

Lemma filter_sims L0 env p f : sims L0 (filter_process_w mm env f p) (filter_val env p f).
Proof.
  intros st r v. rewrite filter_process_run. apply seq_run_sims. intros t. apply term_sims.
Qed.

(* Chain.Process on a valid pointer to a well-formed path: never panics, computes chain_val on the
   value, returns a fresh cell and leaves every cell of the caller's store untouched *)
Theorem process_val env c p st r v :
  nth_error st r = Some v -> path_wfb v = true ->
  exists st' r',
    process_w mm env c p st r = Ok (st', r', snd (chain_val env c p v)) /\
    nth_error st' r' = Some (fst (chain_val env c p v)) /\
    (length st <= r')%nat /\
    (forall k, (k < length st)%nat -> nth_error st' k = nth_error st k).
Proof.
  intros Hn Hw. unfold process_w, alloc, chain_val. rewrite Hn, chain_loop_run.
  destruct (seq_run_sims (length st) _ _ c (filter_sims (length st) env p) (st ++ [v]) (length st) v
              (nth_error_app_last st v) Hw (le_n _)) as [st' [r' [E [Hn' [_ [HL [_ Hf]]]]]]].
  rewrite E. destruct (seq_ref (filter_val env p) c v) as [a' vd]. exists st', r'. repeat split; auto.
  intros k Hk. rewrite (Hf k Hk). apply nth_error_app1. exact Hk.
Qed.

Lemma seq_ref_ext_in {X : Type} (f g : X -> path -> path * verdict) l :
  (forall x, In x l -> forall a, f x a = g x a) -> forall a, seq_ref f l a = seq_ref g l a.
Proof.
  induction l as [| x l IH]; intros H a; [reflexivity |].
  cbn [seq_ref]. rewrite (H x (or_introl eq_refl) a). destruct (g x a) as [a' v].
  destruct v; auto; apply IH; intros y Hy; apply H; right; exact Hy.
Qed.

Hypothesis Hmm : mm_ok mm.

Lemma term_val_ref env p t a :
  forallb (cond_wfb env) (t_from t) = true -> prefix_wfb p = true ->
  term_val env p t a = term_ref env p t a.
Proof.
  intros Wt Wp. unfold term_val, term_ref, applies_m. rewrite part_any.
  rewrite (part_ext_in _ (fun c => cond_ref env c p a)); [reflexivity |].
  intros c Hc. apply cond_ok_w; auto. apply (forallb_In _ _ _ Wt Hc).
Qed.

Theorem chain_val_ref env c p a :
  chain_wfb env c = true -> prefix_wfb p = true -> chain_val env c p a = chain_ref env c p a.
Proof.
  intros Wc Wp. unfold chain_val, chain_ref.
  rewrite (seq_ref_ext_in (filter_val env p) (filter_ref env p) c).
  - destruct (seq_ref (filter_ref env p) c a) as [a' v]. destruct v; reflexivity.
  - intros f Hf b. unfold filter_val, filter_ref. apply seq_ref_ext_in.
    intros t Ht b'. apply term_val_ref; auto.
    unfold chain_wfb in Wc. apply (forallb_In _ _ _ (forallb_In _ _ _ Wc Hf) Ht).
Qed.

(* the reference-interpreter statement for the engine instantiated with mm *)
Theorem process_ref_w env c p st r v :
  chain_wfb env c = true -> prefix_wfb p = true -> path_wfb v = true ->
  nth_error st r = Some v ->
  exists st' r',
    process_w mm env c p st r = Ok (st', r', snd (chain_ref env c p v)) /\
    nth_error st' r' = Some (fst (chain_ref env c p v)) /\
    (length st <= r')%nat /\
    (forall k, (k < length st)%nat -> nth_error st' k = nth_error st k).
Proof.
  intros Wc Wp Wv Hn. rewrite <- (chain_val_ref env c p v Wc Wp). apply process_val; auto.
Qed.

End WithMatcher.

Theorem no_panic env c p st r v :
  path_wfb v = true -> nth_error st r = Some v -> process env c p st r <> Panic.
Proof.
  intros Wv Hn. destruct (process_val matcher_match env c p st r v Hn Wv) as [st' [r' [E _]]].
  unfold process. rewrite E. discriminate.
Qed.
