(* C09: export eligibility and attribute rewriting of the Adj-RIB-Out model, for all inputs; the OTC
   egress decision table (RFC 9234 section 5), and the known gap: OnlyToCustomer never reaches the wire. *)
From Coq Require Import List NArith Bool.
Import ListNotations.
From BioVerif Require Import Lib.ListFacts Model.AdjRIBOut Model.ExportWire Spec.ExportSpec.
Local Open Scope N_scope.

Lemma role_in_iff : forall r l, role_in r l = true <-> In r l.
Proof. exact (existsb_eqb_In N.eqb_eq). Qed.

(* checkPropagateUpdateEBGP on OTC, for every role code, defined or not, and without roles: [0; 4; 1] are provider,
   peer, route server; [3; 4; 2] customer, peer, RS client (C09_role_matrix) *)
Lemma rewrite_otc : forall s r b,
  s_ibgp s = false ->
  match rewrite s r b with
  | None => s_role_on s = true /\ b_otc b <> 0 /\ In (s_role s) [0; 4; 1]
  | Some b' =>
    (s_role_on s = true -> b_otc b = 0 \/ ~ In (s_role s) [0; 4; 1]) /\
    b_otc b' = (if s_role_on s && N.eqb (b_otc b) 0 && role_in (s_role s) [3; 4; 2] then s_localasn s else b_otc b)
  end.
Proof.
  intros s r b Hi. unfold rewrite, rewrite_ebgp. rewrite Hi.
  set (b1 := if negb (s_rsclient s) then set_nh (s_localip s) (bgp_prepend (s_localasn s) 1 b) else b).
  assert (O1 : b_otc b1 = b_otc b) by (unfold b1; destruct (s_rsclient s); reflexivity).
  rewrite O1. destruct (s_role_on s); cbn [andb]; [|split; [discriminate|exact O1]].
  destruct (N.eqb_spec (b_otc b) 0) as [Z|Z]; cbn [negb andb].
  - destruct (role_in (s_role s) [3; 4; 2]); (split; [now left|]); [reflexivity|exact O1].
  - destruct (role_in (s_role s) [0; 4; 1]) eqn:R1.
    + split; [reflexivity|]. split; [exact Z|now apply role_in_iff].
    + split; [|exact O1]. intros _. right. intros H. apply role_in_iff in H. congruence.
Qed.

Lemma wire_attr : forall ibgp rr b a, In a (wire ibgp rr b) ->
  match a with WLocalPref _ => ibgp = true | WUnknown u => In u (b_unk b) | _ => True end.
Proof.
  intros ibgp rr b a H. unfold wire, nonempty in H.
  repeat (apply in_app_or in H; destruct H as [H|H]);
    [..|apply in_map_iff in H; destruct H as [u [<- H]]; exact H];
    repeat match type of H with context [match ?x with _ => _ end] => destruct x end;
    cbn [In] in H; repeat (destruct H as [<-|H]; [trivial|]); destruct H.
Qed.

Lemma should_propagate_iff : forall s r b,
  should_propagate s (PBgp r b) = true <->
  b_src b <> s_peerip s /\ ~ has_comm NO_ADVERTISE b /\ (s_ibgp s = false -> ~ has_comm NO_EXPORT b).
Proof.
  intros s r b. cbn [should_propagate]. unfold disallowed, has_comm.
  rewrite andb_true_iff, !negb_true_iff, N.eqb_neq, <- not_true_iff_false, existsb_exists.
  split.
  - intros [NS ND]. split; [exact NS|]. split.
    + intros H. apply ND. exists NO_ADVERTISE. split; [exact H|]. rewrite N.eqb_refl. apply orb_true_r.
    + intros Hi H. apply ND. exists NO_EXPORT. split; [exact H|]. now rewrite N.eqb_refl, Hi.
  - intros [NS [NA NE]]. split; [exact NS|]. intros [c [Hc Hd]].
    apply orb_prop in Hd. destruct Hd as [Hd|Hd].
    + apply andb_prop in Hd. destruct Hd as [E Hi]. apply N.eqb_eq in E. subst c.
      apply negb_true_iff in Hi. now apply (NE Hi).
    + apply N.eqb_eq in Hd. subst c. now apply NA.
Qed.

Lemma rewrite_none_iff : forall s b,
  rewrite s 0 b = None <->
  (s_ibgp s = true /\ s_rrclient s = false /\ b_ebgp b = false) \/
  (peer_is s [role_provider; role_peer; role_rs] /\ b_otc b <> 0).
Proof.
  intros s b. unfold peer_is. destruct (s_ibgp s) eqn:Hi.
  - unfold rewrite, rewrite_ibgp. rewrite Hi. cbn [N.eqb negb].
    destruct (b_ebgp b), (s_rrclient s); cbn [negb andb]; split; try discriminate; intuition discriminate.
  - pose proof (rewrite_otc s 0 b Hi) as M. destruct (rewrite s 0 b).
    + split; [discriminate|]. intros [[X _]|[[_ [Hon Hr]] Z]]; [discriminate|]. destruct M as [[M|M] _]; tauto.
    + split; [|reflexivity]. intros _. right. tauto.
Qed.

Lemma offered_iff : forall s pfx r b,
  (exists q, export_with accept_all s pfx (PBgp r b) = Some q) <->
  should_propagate s (PBgp 0 b) = true /\ rewrite s 0 b <> None.
Proof.
  intros s pfx r b. unfold export_with, accept_all. cbn [redistribute].
  destruct (should_propagate s (PBgp 0 b)); [|split; [intros [q H]|intros [H _]]; discriminate].
  destruct (rewrite s 0 b) as [b'|]; [|split; [intros [q H]; discriminate|intros [_ H]; now destruct H]].
  split; [intros _; split; [reflexivity|discriminate]|eauto].
Qed.

Theorem exported_iff : forall s pfx r b,
  (exists q, export_with accept_all s pfx (PBgp r b) = Some q) <->
  b_src b <> s_peerip s /\ ~ has_comm NO_ADVERTISE b /\ (s_ibgp s = false -> ~ has_comm NO_EXPORT b) /\
  ~ (s_ibgp s = true /\ s_rrclient s = false /\ b_ebgp b = false) /\
  ~ (peer_is s [role_provider; role_peer; role_rs] /\ b_otc b <> 0).
Proof. intros s pfx r b. rewrite offered_iff, should_propagate_iff, rewrite_none_iff. tauto. Qed.

Lemma excluded_none : forall f s pfx r b,
  ~ (exists q, export_with accept_all s pfx (PBgp r b) = Some q) -> export_with f s pfx (PBgp r b) = None.
Proof.
  intros f s pfx r b H. unfold export_with, accept_all in *. cbn [redistribute] in *.
  destruct (should_propagate s (PBgp 0 b)); [|reflexivity].
  destruct (rewrite s 0 b); [|reflexivity]. exfalso. eauto.
Qed.

Lemma as_tokens_prepend_one : forall asn p, as_tokens (prepend_one asn p) = TAsn asn :: as_tokens p.
Proof.
  intros asn p. unfold prepend_one.
  destruct p as [|[q asns] rest]; [reflexivity|].
  destruct q; [|reflexivity].
  destruct (Nat.eqb (length asns) 255); reflexivity.
Qed.

Lemma bgp_prepend_1 : forall asn b,
  bgp_prepend asn 1 b =
  set_aspath (prepend_one asn (b_aspath b)) (as_length (prepend_one asn (b_aspath b))) b.
Proof. reflexivity. Qed.

Section Export.
  Variable s : sess.

  (* the OTC rules touch neither NEXT_HOP nor the AS path *)
  Lemma rewrite_ebgp_base : forall r b b',
    s_ibgp s = false -> rewrite s r b = Some b' ->
    let b1 := if s_rsclient s then b else set_nh (s_localip s) (bgp_prepend (s_localasn s) 1 b) in
    b_nh b' = b_nh b1 /\ b_aspath b' = b_aspath b1 /\ b_aslen b' = b_aslen b1.
  Proof.
    intros r b b' Hi H b1. unfold rewrite, rewrite_ebgp in H. rewrite Hi in H.
    assert (E : b' = b1 \/ b' = set_otc (s_localasn s) b1).
    { unfold b1. destruct (s_rsclient s); cbn [negb] in H;
        repeat match type of H with context [if ?x then _ else _] => destruct x end; inversion H; auto. }
    destruct E as [->| ->]; auto.
  Qed.

  (* eBGP, not a route-server client: local ASN in front, next-hop-self, ASPathLen recomputed *)
  Lemma rewrites_ebgp : forall r b b',
    s_ibgp s = false -> s_rsclient s = false -> rewrite s r b = Some b' ->
    b_nh b' = s_localip s /\ asn_prepended (s_localasn s) b b' /\ b_aslen b' = as_length (b_aspath b').
  Proof.
    intros r b b' Hi Hrs H. pose proof (rewrite_ebgp_base r b b' Hi H) as E. rewrite Hrs in E.
    destruct E as [A [B C]]. unfold asn_prepended. rewrite A, B, C, bgp_prepend_1.
    cbn [set_nh set_aspath b_nh b_aspath b_aslen]. now rewrite as_tokens_prepend_one.
  Qed.

  (* reflected to a route-reflector client: ORIGINATOR_ID kept or created from the source,
     CLUSTER_LIST = local cluster id in front of the old one; both reach the wire *)
  Lemma rewrites_rr_client : forall b b',
    s_ibgp s = true -> s_rrclient s = true -> rewrite s 0 b = Some b' ->
    b_oid b' = (if N.eqb (b_oid b) 0 then b_src b else b_oid b) /\
    b_cl b' = Some (s_clusterid s :: olist (b_cl b)) /\
    on_wire s b' (WOriginator (b_oid b')) /\
    on_wire s b' (WClusterList (s_clusterid s :: olist (b_cl b))).
  Proof.
    intros b b' Hi Hr H. unfold rewrite, rewrite_ibgp in H. rewrite Hi, Hr in H.
    cbn [N.eqb negb andb] in H. rewrite andb_false_r in H. injection H as E.
    assert (O : b_oid b' = (if N.eqb (b_oid b) 0 then b_src b else b_oid b)) by (subst b'; now destruct (N.eqb (b_oid b) 0)).
    assert (C : b_cl b' = Some (s_clusterid s :: olist (b_cl b))) by (subst b'; now destruct (N.eqb (b_oid b) 0)).
    clear E. split; [exact O|]. split; [exact C|].
    unfold on_wire, sess_wire, wire. rewrite Hi, Hr, C. cbn [nonempty].
    split; do 5 (apply in_or_app; right); apply in_or_app; left; [now left|right; now left].
  Qed.

  Lemma localpref_only_ibgp : forall b, (exists l, on_wire s b (WLocalPref l)) <-> s_ibgp s = true.
  Proof.
    intros b. unfold on_wire, sess_wire. split.
    - intros [l H]. exact (wire_attr _ _ _ _ H).
    - intros Hi. exists (b_lp b). unfold wire. rewrite Hi.
      do 4 (apply in_or_app; right). apply in_or_app. left. now left.
  Qed.

End Export.

(* a path without unknown attributes has no attribute 35 on the wire, whatever its OnlyToCustomer *)
Lemma otc_not_on_wire : forall s b a, b_unk b = [] -> In a (sess_wire s b) -> wcode a <> 35.
Proof.
  intros s b a HU H. apply wire_attr in H. rewrite HU in H. destruct a; cbn [wcode]; try discriminate. destruct H.
Qed.

(* the witness of the known finding: a customer session, a plain eBGP-learned path *)
Definition otc_sess : sess := mkSess false false false false 65000 16843009 33686018 9 true role_customer.
Definition otc_path : bgp :=
  mkBgp 50529027 50529027 100 0 50529027 0 None true false 0 0 [(true, [65001])] 1 None None None [] 0.
