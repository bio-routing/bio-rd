(* C12. AdjRIBOut.ReplaceFilterChain / RefreshRoute turn the export view under the old policy into the export view
   under the new policy (replace_converges); the skip test of fsmAddressFamily.replace{Import,Export}FilterChain
   is harmless (fam_replace_*_cases, fam_replace_*_filters). *)
From Coq Require Import List NArith Lia Permutation.
Import ListNotations.
From BioVerif Require Import Lib.ListFacts Model.AdjRIBOut Model.LocView Model.ImportReplace Spec.ExportViewSpec Spec.ReplaceSpec
  Proofs.AroIDsProofs Proofs.ExportViewA Proofs.ExportViewC Proofs.ImportReplaceProofs.

Local Open Scope N_scope.

Section Replace.
  Variable P : Type.
  Variable apply : P -> N -> path -> option path.
  Variable s : sess.
  Variables c n : P.                       (* the old and the new policy *)
  Variable v : view.

  Notation fc := (apply c).
  Notation fn := (apply n).
  Hypothesis G : rguards fc fn s v.

  Notation Ec := (export_with fc s).
  Notation En := (export_with fn s).
  Notation EVc := (export_view fc s).
  Notation EVn := (export_view fn s).

  (* RefreshRoute for the path p of a prefix whose paths Wd are done and Wr still to do *)
  Lemma mixed_step : forall a pfx l Wd p Wr,
    In (pfx, l) v -> l = Wd ++ p :: Wr -> good s c a ->
    table_is P s a pfx (EVc pfx (p :: Wr) ++ EVn pfx Wd) ->
    errs (refresh_one P apply s n pfx a p) = errs a ->
    table_is P s (refresh_one P apply s n pfx a p) pfx (EVc pfx Wr ++ EVn pfx (Wd ++ [p])).
  Proof.
    intros a pfx l Wd p Wr HV EL Gd H HE.
    pose proof (r_nodup fc fn s v G pfx l HV) as NDl. rewrite EL in NDl.
    assert (HPl : In p l) by (rewrite EL; apply in_or_app; right; now left).
    rewrite export_view_app, export_view_cons in *. cbn [export_view flat_map] in *.
    rewrite app_nil_r, app_assoc. set (M := EVc pfx Wr ++ EVn pfx Wd) in *.
    assert (Best : s_addpath s = false -> M = []).
    { intros Hbo. pose proof (r_best fc fn s v G Hbo pfx l HV) as L. rewrite EL, app_length in L. cbn [length] in L.
      unfold M. destruct Wd, Wr; cbn [length] in L; try lia. reflexivity. }
    (* on an add-path session the other entries cannot be mistaken for an old or new export of p *)
    assert (Alone : forall q x, In q (images fc fn s pfx p) -> In x M -> path_compare (norm s x) (norm s q) = false).
    { intros q x Hq Hx. destruct (s_addpath s) eqn:Hap; [|now rewrite Best in Hx].
      destruct (path_compare (norm s x) (norm s q)) eqn:C; [exfalso|reflexivity].
      assert (Hp' : exists p', In p' (Wd ++ Wr) /\ In x (images fc fn s pfx p')).
      { unfold images. apply in_app_or in Hx. destruct Hx as [Hx|Hx]; apply in_export_view in Hx;
          destruct Hx as [p' [Hp' E']]; exists p'; rewrite E', !in_app_iff; cbn [opt_list In]; tauto. }
      destruct Hp' as [p' [Hp' Hi']].
      unfold norm in C. rewrite Hap in C. apply (NoDup_remove_2 _ _ _ NDl).
      replace p with p'; [exact Hp'|]. apply (r_apart fc fn s v G Hap pfx l p' p x q); try assumption.
      rewrite EL. apply in_app_or in Hp'. apply in_or_app. destruct Hp'; [now left|right; now right]. }
    assert (Rem : forall qc, Ec pfx p = Some qc -> table_is P s a pfx (qc :: M) ->
                  table_is P s (fst (remove_exported P s a pfx qc)) pfx M).
    { intros qc EC H0. destruct (export_is_bgp fc s pfx p qc (r_fbgp_c fc fn s v G) EC) as [r [b ->]].
      apply table_remove; [exact H0|]. intros x Hx. apply Alone; [|exact Hx].
      unfold images. rewrite EC. now left. }
    assert (Add : forall a0 qn, En pfx p = Some qn -> good s c a0 -> errs (add_inner P s a0 pfx qn) = errs a0 ->
                  table_is P s a0 pfx M -> table_is P s (add_inner P s a0 pfx qn) pfx (M ++ [qn])).
    { intros a0 qn EN Gd0 HE0 H0. destruct (export_is_bgp fn s pfx p qn (r_fbgp_n fc fn s v G) EN) as [r [b ->]].
      apply table_add; auto. exact (good_inv P s c a0 Gd0). }
    rewrite refresh_one_export, (good_cur P s c a Gd) in *.
    destruct (Ec pfx p) as [qc|] eqn:EC, (En pfx p) as [qn|] eqn:EN; cbn [opt_list app] in *; rewrite ?app_nil_r.
    - destruct (path_compare qc qn) eqn:CMP.
      + rewrite <- (r_faithful fc fn s v G pfx l p qc qn HV HPl EC EN CMP).
        exact (table_is_perm P s a pfx _ _ (Permutation_cons_append _ _) H).
      + set (a1 := fst (remove_exported P s a pfx qc)) in *.
        assert (P1 : prims P s pfx a a1) by apply prims_remove, prims_refl.
        pose proof (prims_errs P s pfx a a1 P1) as E1.
        pose proof (prims_errs P s pfx a1 _ (prims_add P s pfx a1 a1 qn (prims_refl P s pfx a1))) as E2.
        apply Add; [reflexivity|exact (prims_good P s c pfx a a1 P1 Gd)|lia|now apply Rem].
    - now apply Rem.
    - now apply Add.
    - exact H.
  Qed.

  Lemma refresh_prefix_prims : forall pfx l a, prims P s pfx a (fold_left (refresh_one P apply s n pfx) l a).
  Proof. intros. apply prims_fold. intros. apply refresh_one_prims. Qed.

  Lemma mixed_prefix : forall pfx l a,
    In (pfx, l) v -> good s c a -> table_is P s a pfx (EVc pfx l) ->
    errs (fold_left (refresh_one P apply s n pfx) l a) = errs a ->
    table_is P s (fold_left (refresh_one P apply s n pfx) l a) pfx (EVn pfx l).
  Proof.
    intros pfx l a HV Gd H HE.
    apply (prims_fold_split P s c _ (refresh_one P apply s n pfx) l
             (fun done rest a' => table_is P s a' pfx (EVc pfx rest ++ EVn pfx done))); auto.
    - intros a' x. exists pfx. apply refresh_one_prims.
    - intros done x rest a' EL Gd' H' HE'. now apply (mixed_step a' pfx l).
    - now rewrite app_nil_r.
  Qed.

  Lemma replace_view : forall a,
    good s c a -> (forall pfx, table_is P s a pfx (EVc pfx (view_get pfx v))) ->
    let a' := fold_left (fun acc r => fold_left (refresh_one P apply s n (fst r)) (snd r) acc) v a in
    errs a' = errs a -> forall pfx, table_is P s a' pfx (EVn pfx (view_get pfx v)).
  Proof.
    intros a Gd H a' HE.
    (* the prefixes still to do hold the old policy's export view, the others the new policy's *)
    apply (prims_fold_split P s c _ _ v (fun _ rest a' => forall pfx, table_is P s a' pfx
             (export_view (apply (if existsb (N.eqb pfx) (map fst rest) then c else n)) s pfx (view_get pfx v)))); auto.
    - intros a0 [pfx l]. exists pfx. apply refresh_prefix_prims.
    - intros done [pfx l] rest a0 EV Gd0 M0 HE0. cbn [fst snd map existsb] in *. intros pfx'. specialize (M0 pfx').
      assert (HV : In (pfx, l) v) by (rewrite EV; apply in_or_app; right; now left).
      pose proof (r_pfx_nodup fc fn s v G) as NDv.
      destruct (N.eqb_spec pfx' pfx) as [E|NE]; cbn [orb] in M0; [subst pfx'|].
      + destruct (existsb (N.eqb pfx) (map fst rest)) eqn:D.
        * apply (existsb_eqb_In N.eqb_eq) in D. rewrite EV, map_app in NDv.
          destruct (NoDup_remove_2 _ _ _ NDv). apply in_or_app. now right.
        * rewrite (view_get_in pfx l v NDv HV) in *. now apply mixed_prefix.
      + unfold table_is. rewrite (prims_other _ _ _ _ _ _ (refresh_prefix_prims pfx l a0)); [exact M0|auto].
    - intros pfx. destruct (existsb (N.eqb pfx) (map fst v)) eqn:E; [apply H|].
      (* a prefix that is not in the view: nothing stored, nothing to store *)
      specialize (H pfx). rewrite view_get_absent in *; [exact H|..]; now rewrite <- (existsb_eqb_In N.eqb_eq), E.
  Qed.
End Replace.

Theorem replace_converges :
  forall (P : Type) (apply : P -> N -> path -> option path) (s : sess) (c n : P) (v : view) (a : aro P),
  rguards (apply c) (apply n) s v ->
  cur a = c -> (s_addpath s = true -> Inv P a) ->
  ribout_is_export_view (apply c) s v a ->
  errs (replace_chain P apply s a n v) = errs a ->
  ribout_is_export_view (apply n) s v (replace_chain P apply s a n v) /\
  cur (replace_chain P apply s a n v) = n.
Proof.
  intros P apply s c n v a G Hc I H HE. unfold replace_chain in *. cbn [errs] in HE.
  split; [|reflexivity]. exact (replace_view P apply s c n v G a (conj Hc I) H HE).
Qed.

Lemma feed_view_indep : forall (P : Type) (apply : P -> N -> path -> option path) (s : sess) h (v : view) (a1 a2 : aro P),
  fst (fold_left (feed_step P apply s) h (v, a1)) = fst (fold_left (feed_step P apply s) h (v, a2)).
Proof.
  intros P apply s h. induction h as [|[pfx new] h IH]; intros v a1 a2; cbn [fold_left]; [reflexivity|].
  cbn [feed_step]. apply IH.
Qed.

(* a dump of the Loc-RIB into prefixes the session has no view of yet is one AddPath per path: a history like any other *)
Lemma init_fold_is_feed : forall (P : Type) (apply : P -> N -> path -> option path) s (v : view) (vw : view) (a : aro P),
  NoDup (map fst v) -> (forall pfx l, In (pfx, l) v -> view_get pfx vw = []) ->
  snd (fold_left (feed_step P apply s) v (vw, a)) =
  fold_left (fun a e => fold_left (fun a p => add_path P apply s a (fst e) p) (snd e) a) v a.
Proof.
  intros P apply s v. induction v as [|[pfx l] v IH]; intros vw a ND HE; cbn [fold_left]; [reflexivity|].
  cbn [feed_step fst snd]. rewrite (HE pfx l (or_introl eq_refl)).
  cbn [map fst] in ND. apply NoDup_cons_iff in ND. destruct ND as [NI ND].
  rewrite IH.
  - f_equal. now rewrite change_ops_nil, fold_left_map.
  - exact ND.
  - intros pfx' l' HI. rewrite view_get_set_other; [apply (HE pfx' l'); now right|].
    intros ->. apply NI. now apply (in_map fst) in HI.
Qed.

Lemma init_dump_converges : forall (P : Type) (apply : P -> N -> path -> option path) (s : sess) (c : P) (v : view),
  guards (apply c) s v -> NoDup (map fst v) ->
  let a := fold_left (fun a e => fold_left (fun a p => add_path P apply s a (fst e) p) (snd e) a) v (init P c) in
  errs a = 0 ->
  ribout_is_export_view (apply c) s (fst (feed P apply s c v)) a /\ cur a = c.
Proof.
  intros P apply s c v G ND a HE.
  assert (EQ : snd (feed P apply s c v) = a) by (apply init_fold_is_feed; [exact ND|reflexivity]).
  subst a. rewrite <- EQ in *. split.
  - now apply ribout_is_export_view_partial.
  - now apply (fi_good P apply s c), feed_inv_guards.
Qed.

Lemma fam_replace_export_cases : forall s f a c v,
  (fam_replace_export s (f, a) c v = (f, a) /\ forall pfx p, interp c pfx p = interp (fam_exp f) pfx p) \/
  fam_replace_export s (f, a) c v =
  (mkFam (fam_imp f) c (fam_up f), if fam_up f then replace_chain chain interp s a c v else a).
Proof.
  intros. unfold fam_replace_export. cbn [fst snd].
  destruct (chain_eqb c (fam_exp f)) eqn:EQ; [left|now right]. split; [reflexivity|now apply chain_eqb_sound].
Qed.

Lemma fam_replace_import_cases : forall f l r c,
  (fam_replace_import (f, l) r c = (f, l) /\ forall pfx p, interp c pfx p = interp (fam_imp f) pfx p) \/
  fam_replace_import (f, l) r c =
  (mkFam c (fam_exp f) (fam_up f), if fam_up f then replace_in (interp (fam_imp f)) (interp c) r l else l).
Proof.
  intros. unfold fam_replace_import. cbn [fst snd].
  destruct (chain_eqb c (fam_imp f)) eqn:EQ; [left|now right]. split; [reflexivity|now apply chain_eqb_sound].
Qed.

Lemma fam_replace_export_filters : forall s f a c v pfx p,
  interp (fam_exp (fst (fam_replace_export s (f, a) c v))) pfx p = interp c pfx p.
Proof.
  intros. destruct (fam_replace_export_cases s f a c v) as [[-> S]| ->]; cbn [fst fam_exp]; [symmetry; apply S|reflexivity].
Qed.

Lemma fam_replace_import_filters : forall f l r c pfx p,
  interp (fam_imp (fst (fam_replace_import (f, l) r c))) pfx p = interp c pfx p.
Proof.
  intros. destruct (fam_replace_import_cases f l r c) as [[-> S]| ->]; cbn [fst fam_imp]; [symmetry; apply S|reflexivity].
Qed.
