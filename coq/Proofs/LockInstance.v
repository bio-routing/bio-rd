(* C25 / C26 instance lemmas: the checks of Spec/LockSpec.v evaluated on the generated tables
   (Gen/LockModel.v); Properties/C25.v lifts them through the meta-theorems of LockProofs.v.  Each table fact
   is a boolean closed by evaluation: a `forallb` sweep over the table, read back row by row; for the
   lock order, `acyclic_check good_edges` and a cycle of `all_edges` that `is_cycle` accepts. *)
From Coq Require Import List NArith Bool String.
Import ListNotations.
From BioVerif Require Import Model.LockSem Gen.LockModel Spec.LockSpec Proofs.LockProofs.

Definition is_some {A} (o : option A) : bool := match o with Some _ => true | None => false end.

Lemma is_some_neq {A} (o : option A) : is_some o = true -> o <> None.
Proof. destruct o; discriminate. Qed.

Lemma sweep_or_exc {A E} (f : A -> bool) (g : A -> option E) l :
  forallb (fun x => f x || is_some (g x)) l = true -> forall x, In x l -> f x = true \/ g x <> None.
Proof.
  intros H x Hin. apply (proj1 (forallb_forall _ _) H), orb_true_iff in Hin.
  destruct Hin as [Hin|Hin]; [left|right; apply is_some_neq]; exact Hin.
Qed.

Lemma sweep_exc {A E} (g : A -> option E) l :
  forallb (fun x => is_some (g x)) l = true -> forall x, In x l -> g x <> None.
Proof. intros H x Hin. apply is_some_neq, (proj1 (forallb_forall _ _) H), Hin. Qed.

Lemma good_edges_acyclic : acyclic_check good_edges = true.
Proof. vm_compute. reflexivity. Qed.

Lemma edges_covered : forall e, In e lock_edges ->
  edge_exc e <> None \/ In (pair_of e) good_edges.
Proof.
  intros e Hin. destruct (edge_exc e) eqn:He.
  - left. discriminate.
  - right. apply dedup_pairs_In, in_map, filter_In. rewrite He. split; [exact Hin|reflexivity].
Qed.

(* with the exception sites the graph has a cycle (the Loc-RIB / Adj-RIB-Out inversion); the
   unverified search of LockSpec finds it, is_cycle checks it *)
Lemma all_edges_cyclic :
  match find_cycle all_edges with Some w => is_cycle all_edges w | None => false end = true.
Proof. vm_compute. reflexivity. Qed.

Lemma no_lock_leak : forall r, In r lock_leaks -> leak_exc r <> None.
Proof. apply sweep_exc. vm_compute. reflexivity. Qed.

Lemma no_rendezvous_under_lock : forall r, In r rendezvous_under_lock -> rdv_exc r <> None.
Proof. apply sweep_exc. vm_compute. reflexivity. Qed.

Lemma no_dynamic_call_under_lock : forall d, In d dynamic_calls -> snd d = [].
Proof.
  assert (H : forallb dyn_ok dynamic_calls = true) by (vm_compute; reflexivity).
  intros d Hin. apply (proj1 (forallb_forall _ _) H) in Hin. unfold dyn_ok in Hin.
  destruct (snd d); [reflexivity|discriminate].
Qed.

(* is_guarded, guard_of and field_classified look the name of the field up (fname f) under the
   binder of their sweep over guarded_fields, so the kernel resolves it again for every guarded
   field.  The same checks as functions of the name resolve it once per row. *)
Definition acc_ok_at (n : string) (held : list N) : bool :=
  if existsb (fun g => String.eqb (fst g) n) guarded_fields then
    match (match find (fun g => String.eqb (fst g) n) guarded_fields with
           | Some g => id_of lock_names (snd g)
           | None => None
           end) with
    | Some m => mem_N m held
    | None => false
    end
  else true.

Definition field_classified_at (n : string) (w : bool) : bool :=
  existsb (fun g => String.eqb (fst g) n) guarded_fields || negb w || mem_str n confined_fields.

(* both sides are unfolded to the same text first: left to itself, conversion expands the tables *)
Lemma acc_ok_at_eq a : acc_ok a = acc_ok_at (fname (fst (fst (fst a)))) (snd a).
Proof. unfold acc_ok, acc_ok_at, is_guarded, guard_of. reflexivity. Qed.

Lemma field_classified_at_eq f :
  field_classified f = field_classified_at (fname f) (field_written f).
Proof. unfold field_classified, field_classified_at, is_guarded. reflexivity. Qed.

Lemma lockset_consistent : forall a, In a accesses -> acc_ok a = true \/ acc_exc a <> None.
Proof.
  intros a. rewrite acc_ok_at_eq. revert a. apply sweep_or_exc. vm_compute. reflexivity.
Qed.

(* one walk over the access table: the field of every write row is guarded or confined; a field
   that no row writes is classified by that alone *)
Lemma fields_classified : forall f, field_classified f = true.
Proof.
  assert (H : forallb (fun a => negb (snd (fst (fst a)))
                               || field_classified_at (fname (fst (fst (fst a)))) true)
                accesses = true) by (vm_compute; reflexivity).
  intros f. rewrite field_classified_at_eq. unfold field_written.
  destruct (existsb _ accesses) eqn:Hw; [|apply orb_true_iff; left; apply orb_true_r].
  destruct (proj1 (existsb_exists _ _) Hw) as (a & Ha & Hfa).
  apply andb_true_iff in Hfa. destruct Hfa as [Hf Hwr]. apply N.eqb_eq in Hf.
  apply (proj1 (forallb_forall _ _) H), orb_true_iff in Ha. rewrite Hf, Hwr in Ha.
  destruct Ha as [Ha|Ha]; [discriminate Ha|exact Ha].
Qed.

Lemma guards_resolve : forall g, In g guarded_fields -> id_of lock_names (snd g) <> None /\ id_of field_names (fst g) <> None.
Proof.
  assert (H : forallb (fun g => is_some (id_of lock_names (snd g)) && is_some (id_of field_names (fst g)))
                guarded_fields = true) by (vm_compute; reflexivity).
  intros g Hin. apply (proj1 (forallb_forall _ _) H), andb_true_iff in Hin.
  destruct Hin as [Hl Hf]. split; apply is_some_neq; assumption.
Qed.

(* Unfolded in the goal, before the hypotheses are introduced: unfolding inside a hypothesis leaves Qed
   a conversion from the folded to the unfolded form, and that direction expands the tables. *)
Lemma acc_ok_guard : forall a m, acc_ok a = true -> guard_map (fst (fst (fst a))) = Some m -> In m (snd a).
Proof.
  intros a m. unfold acc_ok, guard_map, guard_of, is_guarded.
  destruct (existsb _ guarded_fields) eqn:Hig.
  - intros Hok Hg. rewrite Hg in Hok. apply existsb_exists in Hok. destruct Hok as [x [Hx Heq]].
    apply N.eqb_eq in Heq. now subst.
  - intros _ Hg. exfalso.
    destruct (find _ guarded_fields) as [g|] eqn:Hf; [|discriminate].
    apply find_some in Hf. apply not_true_iff_false in Hig. apply Hig, existsb_exists. eauto.
Qed.

(* rule P: no path object is inserted twice or written after its insertion (no exception on the current tree) *)
Lemma no_shared_path_insertions : forall r, In r shared_path_sites -> shared_exc r <> None.
Proof. apply sweep_exc. vm_compute. reflexivity. Qed.

(* rule J: whoever addresses a goroutine of its type through a channel / WaitGroup field waits for it *)
Lemma goroutines_joined_on_teardown : forall r, In r goroutine_joins -> join_waits r = true \/ join_exc r <> None.
Proof.
  apply sweep_or_exc. vm_compute. reflexivity.
Qed.
