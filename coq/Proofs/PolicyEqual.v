(* C14: every Equal method of the chain AST (as repaired) reflects =, so Chain.Equal holds exactly
   for structurally equal chains. *)
From Coq Require Import NArith Bool.
From BioVerif Require Import Model.Policy.

(* `if !c { return false }` *)
Lemma if_negb x (y : bool) : (if negb x then false else y) = true <-> x = true /\ y = true.
Proof. destruct x, y; simpl; intuition discriminate. Qed.

Lemma all2_eq {A : Type} (eq : A -> A -> bool) :
  (forall x y, eq x y = true <-> x = y) ->
  forall a b, same_len a b = true /\ all2 eq a b = true <-> a = b.
Proof.
  intros He. induction a as [| x a IH]; intros [| y b]; try (simpl; intuition discriminate).
  change (same_len (x :: a) (y :: b)) with (same_len a b). simpl. split.
  - intros [L H]. destruct (eq x y) eqn:E; [| discriminate]. apply He in E. f_equal; [exact E | apply IH; auto].
  - intros H. injection H as -> <-. rewrite (proj2 (He y y) eq_refl). apply IH. reflexivity.
Qed.

Lemma list_equal_eq {A : Type} (eq : A -> A -> bool) :
  (forall x y, eq x y = true <-> x = y) ->
  forall a b, (if negb (same_len a b) then false else all2 eq a b) = true <-> a = b.
Proof. intros He a b. rewrite if_negb. apply all2_eq, He. Qed.

Lemma matcher_equal_eq m x : matcher_equal m x = true <-> m = x.
Proof.
  destruct m, x; simpl; rewrite ?negb_true_iff, ?orb_false_iff, ?negb_false_iff, ?N.eqb_eq;
    intuition congruence.
Qed.

Lemma ip_eqb_eq a b : ip_eqb a b = true <-> a = b.
Proof.
  unfold ip_eqb. destruct a as [av ah al], b as [bv bh bl]. simpl.
  rewrite !andb_true_iff, eqb_true_iff, !N.eqb_eq. split.
  - intros [[H1 H2] H3]. subst. reflexivity.
  - intros H. inversion H. auto.
Qed.

Lemma pfx_equal_eq p x : pfx_equal p x = true <-> p = x.
Proof.
  unfold pfx_equal. rewrite andb_true_iff, ip_eqb_eq, N.eqb_eq.
  destruct p, x; simpl. intuition congruence.
Qed.

Lemma lcomm_eqb_eq a b : lcomm_eqb a b = true <-> a = b.
Proof.
  destruct a as [[a1 a2] a3], b as [[b1 b2] b3]. simpl.
  rewrite !andb_true_iff, !N.eqb_eq. intuition congruence.
Qed.

Lemma rf_equal_eq f x : rf_equal f x = true <-> f = x.
Proof.
  unfold rf_equal. rewrite !if_negb, N.eqb_eq, matcher_equal_eq. destruct f, x; simpl.
  intuition congruence.
Qed.

Lemma pl_equal_eq l x : pl_equal l x = true <-> l = x.
Proof.
  unfold pl_equal. rewrite !if_negb, matcher_equal_eq. destruct l as [la lm], x as [xa xm]; simpl.
  transitivity (la = xa /\ lm = xm); [| split; [intros [-> ->]; reflexivity | intros E; injection E; auto]].
  rewrite <- (all2_eq _ pfx_equal_eq la xa). tauto.
Qed.

Lemma cond_equal_eq t x : cond_equal t x = true <-> t = x.
Proof.
  unfold cond_equal. rewrite !if_negb. destruct t as [t1 t2 t3 t4 t5], x as [x1 x2 x3 x4 x5]; simpl.
  transitivity (t1 = x1 /\ t2 = x2 /\ t3 = x3 /\ t4 = x4 /\ t5 = x5);
    [| split; [intros (-> & -> & -> & -> & ->); reflexivity | intros E; injection E; auto]].
  (* the method tests all lengths before any element: tauto pairs each length test with its all2 *)
  rewrite <- (all2_eq _ pl_equal_eq t1 x1), <- (all2_eq _ rf_equal_eq t2 x2), <- (all2_eq _ N.eqb_eq t3 x3),
    <- (all2_eq _ lcomm_eqb_eq t4 x4), <- (all2_eq _ N.eqb_eq t5 x5). tauto.
Qed.

Lemma action_equal_eq a b : action_equal a b = true <-> a = b.
Proof.
  destruct a, b; simpl; rewrite ?if_negb, ?N.eqb_eq, ?ip_eqb_eq; intuition congruence.
Qed.

Lemma term_equal_eq t x : term_equal t x = true <-> t = x.
Proof.
  unfold term_equal. rewrite !if_negb. destruct t as [tf tt], x as [xf xt]; simpl.
  transitivity (tf = xf /\ tt = xt); [| split; [intros [-> ->]; reflexivity | intros E; injection E; auto]].
  rewrite <- (all2_eq _ cond_equal_eq tf xf), <- (all2_eq _ action_equal_eq tt xt). tauto.
Qed.

Lemma filter_equal_eq (f x : filter) : filter_equal f x = true <-> f = x.
Proof. apply list_equal_eq, term_equal_eq. Qed.

Theorem chain_equal_eq (c d : chain) : chain_equal c d = true <-> c = d.
Proof. apply list_equal_eq, filter_equal_eq. Qed.
