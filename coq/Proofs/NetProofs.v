(* C15 proofs.  The masking functions of Model/NetArith.v all compute or compare one thing, the address
   with its last n bits cleared (ip_clear): one lemma per function says so, and that is where the families
   and the two words of an IPv6 address are told apart; ip_clear_correct ties ip_clear to keep_first of
   Spec/NetSpec.v, and the theorems follow from list facts of Proofs/NetBits.v. *)
From Coq Require Import ZArith Lia Bool List.
From BioVerif Require Import Lib.ListFacts Lib.Word Lib.WordLemmas Model.NetArith Spec.NetSpec Proofs.NetBits.

(* the uint8 differences of the model (32 - len, 64 - pos, ...) stay in range *)
Ltac u8 :=
  repeat match goal with
         | |- context [wsub 8 ?a ?b] => rewrite (wsub_small 8 a b) by lia
         end.

Lemma wf4 a : wf_ip a -> legacy a = true -> hi a = 0 /\ 0 <= lo a < 2 ^ 32.
Proof. unfold wf_ip; intros H L; rewrite L in H; exact H. Qed.

Lemma wf6 a : wf_ip a -> legacy a = false -> (0 <= hi a < 2 ^ 64) /\ (0 <= lo a < 2 ^ 64).
Proof. unfold wf_ip; intros H L; rewrite L in H; exact H. Qed.

Lemma ToUint32_spec a : ToUint32 a = lo a mod 2 ^ 32.
Proof.
  unfold ToUint32, wconv, wand.
  replace (wshr 64 (maxu 64) 32) with (2 ^ 32 - 1) by (vm_compute; reflexivity).
  rewrite Z.land_comm, land_ones_mod by lia. rewrite wrap_mod by lia. apply Z.mod_mod. lia.
Qed.

Lemma ToUint32_small a : 0 <= lo a < 2 ^ 32 -> ToUint32 a = lo a.
Proof. intros H. rewrite ToUint32_spec. apply Z.mod_small; lia. Qed.

Lemma ip_equal_eq a b : ip_equal a b = true <-> a = b.
Proof.
  unfold ip_equal. rewrite !andb_true_iff, !Z.eqb_eq, eqb_true_iff.
  destruct a, b; cbn. split; [intros [[-> ->] ->]; reflexivity | intros E; injection E; auto].
Qed.

Lemma pfx_equal_eq p x : pfx_equal p x = true <-> p = x.
Proof.
  unfold pfx_equal. rewrite andb_true_iff, ip_equal_eq, Z.eqb_eq.
  destruct p, x; cbn. split; [intros [-> ->]; reflexivity | intros E; injection E; auto].
Qed.

Lemma ip_bits_inj a b : wf_ip a -> wf_ip b -> legacy a = legacy b -> ip_bits a = ip_bits b -> a = b.
Proof.
  intros Wa Wb F E. destruct a as [ha la fa], b as [hb lb fb]. cbn [legacy] in F. subst fb.
  unfold wf_ip, ip_bits in *. cbn [legacy hi lo] in *. destruct fa.
  - destruct Wa as [-> Ra], Wb as [-> Rb]. f_equal. apply (bits_inj 32); auto.
  - destruct Wa as [Rha Rla], Wb as [Rhb Rlb].
    apply app_eq_len_inv in E; [|rewrite !length_bits; reflexivity]. destruct E as [E1 E2].
    f_equal; apply (bits_inj 64); auto.
Qed.

(* The cleared bits lie inside the lower word (an IPv4 address has no other) or, from 64 on, take all of
   it and the rest of the upper one; n = 64 goes with the second case as in the Go functions (len <= 64; a
   shift of a uint64 by 64 gives 0). *)
Definition ip_clear (a : ip) (n : Z) : ip :=
  if n <? 64 then mkip (hi a) (lo a / 2 ^ n * 2 ^ n) (legacy a)
  else mkip (hi a / 2 ^ (n - 64) * 2 ^ (n - 64)) 0 (legacy a).

Lemma ip_clear_correct a n (k : nat) : wf_ip a -> 0 <= n -> Z.of_nat k + n = width a ->
  wf_ip (ip_clear a n) /\ legacy (ip_clear a n) = legacy a /\
  ip_bits (ip_clear a n) = keep_first k (ip_bits a).
Proof.
  intros W Hn Hk. unfold ip_clear, wf_ip, ip_bits, width in *.
  destruct (Z.ltb_spec n 64); cbn [legacy hi lo]; destruct (legacy a).
  - destruct W as [H0 R].
    split; [split; [exact H0 | apply div_mul_pow2_range; lia]|]. split; [reflexivity|].
    replace n with (Z.of_nat 32 - Z.of_nat k) by lia. apply bits_clear_low. lia.
  - destruct W as [Rh Rl].
    split; [split; [exact Rh | apply div_mul_pow2_range; lia]|]. split; [reflexivity|].
    rewrite keep_first_app_r, length_bits by (rewrite length_bits; lia). f_equal.
    replace n with (Z.of_nat 64 - Z.of_nat (k - 64)) by lia. apply bits_clear_low. lia.
  - lia.
  - destruct W as [Rh Rl].
    split; [split; [apply div_mul_pow2_range; lia | lia]|]. split; [reflexivity|].
    rewrite keep_first_app_l, length_bits, bits_zero by (rewrite length_bits; lia). f_equal.
    replace (n - 64) with (Z.of_nat 64 - Z.of_nat k) by lia. apply bits_clear_low. lia.
Qed.

Lemma ip_clear_keeps a k : wf_ip a -> 0 <= k <= width a ->
  let c := ip_clear a (width a - k) in
  wf_ip c /\ legacy c = legacy a /\ ip_bits c = keep_first (Z.to_nat k) (ip_bits a).
Proof. intros W Hk. apply ip_clear_correct; [exact W | lia..]. Qed.

Lemma ip_clear_eq_iff a b k : wf_ip a -> wf_ip b -> legacy a = legacy b -> 0 <= k <= width a ->
  (ip_clear a (width a - k) = ip_clear b (width a - k) <->
   firstn (Z.to_nat k) (ip_bits a) = firstn (Z.to_nat k) (ip_bits b)).
Proof.
  intros Wa Wb F Hk. assert (Ew : width a = width b) by (unfold width; rewrite F; reflexivity).
  destruct (ip_clear_keeps a k Wa Hk) as (Wc & Fc & Bc).
  destruct (ip_clear_keeps b k Wb ltac:(lia)) as (Wd & Fd & Bd). rewrite <- Ew in *.
  rewrite <- keep_first_eq_iff, <- Bc, <- Bd by (rewrite !length_ip_bits, Ew; reflexivity).
  split; [intros ->; reflexivity | apply ip_bits_inj; congruence].
Qed.

Lemma ip_clear_id_iff a k : wf_ip a -> 0 <= k <= width a ->
  (ip_clear a (width a - k) = a <->
   skipn (Z.to_nat k) (ip_bits a) = repeat false (length (ip_bits a) - Z.to_nat k)).
Proof.
  intros W Hk. destruct (ip_clear_keeps a k W Hk) as (Wc & Fc & Bc).
  rewrite <- keep_first_id_iff, <- Bc. split; [intros ->; reflexivity | apply ip_bits_inj; assumption].
Qed.

Lemma ip_clear4 a k : 0 <= k -> ip_clear a (32 - k) = mkip (hi a) (lo a / 2 ^ (32 - k) * 2 ^ (32 - k)) (legacy a).
Proof. intros Hk. unfold ip_clear. destruct (Z.ltb_spec (32 - k) 64); [reflexivity | lia]. Qed.

Lemma ip_clear6 a k : ip_clear a (128 - k) =
  if k <=? 64 then mkip (hi a / 2 ^ (64 - k) * 2 ^ (64 - k)) 0 (legacy a)
  else mkip (hi a) (lo a / 2 ^ (128 - k) * 2 ^ (128 - k)) (legacy a).
Proof.
  unfold ip_clear. destruct (Z.leb_spec k 64), (Z.ltb_spec (128 - k) 64); try lia; [|reflexivity].
  replace (128 - k - 64) with (64 - k) by lia. reflexivity.
Qed.

Lemma containsIPv4_div p x :
  0 <= lo (addr p) < 2 ^ 32 -> 0 <= lo (addr x) < 2 ^ 32 -> 0 <= plen p <= 32 ->
  containsIPv4 p x = (lo (addr p) / 2 ^ (32 - plen p) =? lo (addr x) / 2 ^ (32 - plen p)).
Proof.
  intros Hp Hx Hl. unfold containsIPv4, wand. rewrite !ToUint32_small by lia. u8.
  rewrite !land_wshl_maxu by lia. apply mul_pow2_eqb. lia.
Qed.

Lemma containsIPv6_div p x :
  0 <= hi (addr p) < 2 ^ 64 -> 0 <= lo (addr p) < 2 ^ 64 ->
  0 <= hi (addr x) < 2 ^ 64 -> 0 <= lo (addr x) < 2 ^ 64 -> 0 <= plen p <= 128 ->
  containsIPv6 p x =
  if plen p <=? 64
  then hi (addr p) / 2 ^ (64 - plen p) =? hi (addr x) / 2 ^ (64 - plen p)
  else (hi (addr p) =? hi (addr x)) &&
       (lo (addr p) / 2 ^ (128 - plen p) =? lo (addr x) / 2 ^ (128 - plen p)).
Proof.
  intros Hhp Hlp Hhx Hlx Hl. unfold containsIPv6, wand.
  destruct (plen p <=? 64) eqn:E.
  - apply Z.leb_le in E. u8. rewrite !land_wshl_maxu by lia. rewrite !Z.land_0_r, Z.eqb_refl, andb_true_r.
    apply mul_pow2_eqb. lia.
  - apply Z.leb_gt in E. u8. rewrite !land_wshl_maxu by lia. rewrite !land_maxu by lia.
    f_equal. apply mul_pow2_eqb. lia.
Qed.

Lemma Contains_clear p x : wf_pfx p -> wf_pfx x ->
  Contains p x = Bool.eqb (legacy (addr p)) (legacy (addr x)) && (plen p <? plen x) &&
                 ip_equal (ip_clear (addr p) (width (addr p) - plen p)) (ip_clear (addr x) (width (addr p) - plen p)).
Proof.
  intros [Wp Lp] [Wx Lx]. unfold Contains, ip_equal, width in *. rewrite Z.leb_antisym.
  destruct (legacy (addr p)) eqn:Fp, (legacy (addr x)) eqn:Fx; try reflexivity; cbn [Bool.eqb negb andb];
    destruct (plen p <? plen x); try reflexivity; cbn [negb andb].
  - destruct (wf4 _ Wp Fp) as [Hp Rp], (wf4 _ Wx Fx) as [Hx Rx]. rewrite !ip_clear4 by lia. cbn [hi lo legacy].
    rewrite containsIPv4_div, mul_pow2_eqb, Hp, Hx, Fp, Fx, andb_true_r by lia. reflexivity.
  - destruct (wf6 _ Wp Fp) as [Rhp Rlp], (wf6 _ Wx Fx) as [Rhx Rlx]. rewrite !ip_clear6, containsIPv6_div by lia.
    destruct (Z.leb_spec (plen p) 64); cbn [hi lo legacy]; rewrite mul_pow2_eqb, Fp, Fx, andb_true_r by lia;
      [apply eq_sym, andb_true_r | reflexivity].
Qed.

Theorem Contains_correct p x :
  wf_pfx p -> wf_pfx x -> (Contains p x = true <-> contains_spec p x).
Proof.
  intros Wp Wx. rewrite Contains_clear by assumption. destruct Wp as [Wp Lp], Wx as [Wx Lx].
  unfold contains_spec, same_family, pbits, plen_nat.
  rewrite !andb_true_iff, eqb_true_iff, Z.ltb_lt, ip_equal_eq.
  split; [intros [[F L] E] | intros (F & L & E)]; repeat split; try assumption;
    revert E; apply ip_clear_eq_iff; assumption.
Qed.

Theorem Equal_correct p x :
  wf_pfx p -> wf_pfx x -> (pfx_equal p x = true <-> equal_spec p x).
Proof.
  intros [Wp _] [Wx _]. rewrite pfx_equal_eq. unfold equal_spec, same_family, pbits. split.
  - intros ->. auto.
  - intros (F & L & B). destruct p as [ap lp], x as [ax lx]. cbn in *. subst lx. f_equal.
    apply ip_bits_inj; auto.
Qed.

Lemma checkLastNBitsUint32_spec x n : 0 <= n <= 32 -> checkLastNBitsUint32 x n = (x mod 2 ^ n =? 0).
Proof. intros Hn. unfold checkLastNBitsUint32. u8. apply wshl_eqb_zero. lia. Qed.

Lemma checkLastNBitsUint64_spec x n : 0 <= n <= 64 -> checkLastNBitsUint64 x n = (x mod 2 ^ n =? 0).
Proof. intros Hn. unfold checkLastNBitsUint64. u8. apply wshl_eqb_zero. lia. Qed.

Lemma mod_zero_clear x n : 0 <= n -> (x mod 2 ^ n =? 0) = (x / 2 ^ n * 2 ^ n =? x).
Proof.
  intros Hn. pose proof (pow2_pos n Hn). pose proof (Z.div_mod x (2 ^ n) ltac:(lia)).
  apply eq_true_iff_eq. rewrite !Z.eqb_eq. lia.
Qed.

Lemma Valid_clear p : wf_pfx p ->
  Valid p = ip_equal (ip_clear (addr p) (width (addr p) - plen p)) (addr p).
Proof.
  intros [Wp Lp]. unfold Valid, ip_equal, width in *. destruct (legacy (addr p)) eqn:Fp.
  - destruct (wf4 _ Wp Fp) as [Hp Rp]. rewrite ip_clear4 by lia. cbn [hi lo legacy].
    unfold wconv. rewrite wrap_small by lia. u8.
    rewrite checkLastNBitsUint32_spec, mod_zero_clear, Z.eqb_refl, Fp, andb_true_r by lia. reflexivity.
  - destruct (wf6 _ Wp Fp) as [Rh Rl]. rewrite ip_clear6.
    destruct (Z.leb_spec (plen p) 64); cbn [hi lo legacy]; u8;
      rewrite checkLastNBitsUint64_spec, mod_zero_clear, Fp, andb_true_r by lia.
    + rewrite (Z.eqb_sym 0), andb_comm. destruct (lo (addr p) =? 0); reflexivity.
    + replace (64 - (plen p - 64)) with (128 - plen p) by lia. rewrite Z.eqb_refl. reflexivity.
Qed.

Theorem Valid_correct p : wf_pfx p -> (Valid p = true <-> valid_spec p).
Proof.
  intros W. rewrite (Valid_clear p W), ip_equal_eq. destruct W as [Wp Lp]. apply ip_clear_id_iff; assumption.
Qed.

Lemma baseAddr4_div p :
  0 <= lo (addr p) < 2 ^ 32 -> 0 <= plen p <= 32 ->
  baseAddr4 p = mkip (hi (addr p)) (lo (addr p) / 2 ^ (32 - plen p) * 2 ^ (32 - plen p)) (legacy (addr p)).
Proof.
  intros R L. unfold baseAddr4. u8. f_equal.
  assert (R64 : 0 <= lo (addr p) < 2 ^ 64) by lia.
  apply wshl_wshr; lia.
Qed.

Lemma baseAddr6_div p :
  0 <= hi (addr p) < 2 ^ 64 -> 0 <= lo (addr p) < 2 ^ 64 -> 0 <= plen p <= 128 ->
  baseAddr6 p =
  if plen p <=? 64
  then mkip (hi (addr p) / 2 ^ (64 - plen p) * 2 ^ (64 - plen p)) 0 (legacy (addr p))
  else mkip (hi (addr p)) (lo (addr p) / 2 ^ (128 - plen p) * 2 ^ (128 - plen p)) (legacy (addr p)).
Proof.
  intros Rh Rl L. unfold baseAddr6.
  destruct (plen p <=? 64) eqn:E.
  - apply Z.leb_le in E. u8. f_equal. apply wshl_wshr; lia.
  - apply Z.leb_gt in E. u8. f_equal. apply wshl_wshr; lia.
Qed.

Lemma BaseAddr_clear p : wf_pfx p -> BaseAddr p = ip_clear (addr p) (width (addr p) - plen p).
Proof.
  intros [Wp Lp]. unfold BaseAddr, width in *. destruct (legacy (addr p)) eqn:Fp.
  - destruct (wf4 _ Wp Fp) as [_ R]. rewrite ip_clear4 by lia. apply baseAddr4_div; lia.
  - destruct (wf6 _ Wp Fp) as [Rh Rl]. rewrite ip_clear6. apply baseAddr6_div; lia.
Qed.

Lemma MaskLastNBits_clear a n : wf_ip a -> 0 <= n <= width a -> MaskLastNBits a n = ip_clear a n.
Proof.
  intros W Hn. unfold MaskLastNBits, ip_clear, width in *. destruct (legacy a) eqn:F.
  - destruct (wf4 _ W F) as [_ R]. destruct (Z.ltb_spec n 64); [|lia].
    unfold maskLastNBitsIPv4, wand. rewrite land_wshl_maxu, F by lia. reflexivity.
  - destruct (wf6 _ W F) as [Rh Rl]. unfold maskLastNBitsIPv6, wand, wconv.
    rewrite !wrap_small, !land_wshl_maxu, F by lia.
    destruct (Z.ltb_spec n 64).
    + rewrite Z.min_l, Z.max_r, Z.pow_0_r, Z.div_1_r, Z.mul_1_r by lia. reflexivity.
    + rewrite Z.min_r, Z.max_l, (Z.div_small (lo a) (2 ^ 64)) by lia. reflexivity.
Qed.

Lemma BitAtPosition_ipbit a pos : wf_ip a -> 1 <= pos <= width a ->
  BitAtPosition a pos = ipbit a (Z.to_nat (pos - 1)).
Proof.
  intros W Hp. unfold BitAtPosition, bitAtPositionIPv4, bitAtPositionIPv6, ipbit, width, wand in *.
  destruct (legacy a) eqn:F.
  - destruct (wf4 _ W F) as [_ R]. destruct (Z.ltb_spec 32 pos); [lia|]. u8.
    rewrite ToUint32_small, land_wshl_one by lia.
    destruct (Z.ltb_spec (32 - pos) 32); [f_equal; lia | lia].
  - destruct (Z.ltb_spec 128 pos); [lia|].
    destruct (Z.leb_spec pos 64); destruct (Nat.ltb_spec (Z.to_nat (pos - 1)) 64); try lia;
      u8; rewrite land_wshl_one by lia.
    + destruct (Z.ltb_spec (64 - pos) 64); [f_equal; lia | lia].
    + destruct (Z.ltb_spec (128 - pos) 64); [f_equal; lia | lia].
Qed.

Theorem BitAtPosition_correct a pos :
  wf_ip a -> 0 <= pos < 256 -> BitAtPosition a pos = bit_spec a pos.
Proof.
  intros W Hp. unfold bit_spec.
  destruct (Z.leb_spec pos 0) as [P0 | P1].
  - (* position 0: the tested bit 1 << width is shifted out *)
    assert (pos = 0) by lia. subst pos.
    unfold BitAtPosition, bitAtPositionIPv4, bitAtPositionIPv6, wand.
    destruct (legacy a); cbn [Z.ltb Z.leb Z.compare]; u8; rewrite land_wshl_one by lia; reflexivity.
  - destruct (Nat.lt_ge_cases (Z.to_nat (pos - 1)) (length (ip_bits a))) as [L | L].
    + rewrite nth_ip_bits by exact L. rewrite length_ip_bits in L.
      apply BitAtPosition_ipbit; [exact W | unfold width in *; destruct (legacy a); lia].
    + rewrite nth_overflow by exact L. rewrite length_ip_bits in L.
      unfold BitAtPosition, bitAtPositionIPv4, bitAtPositionIPv6, width in *.
      destruct (legacy a).
      * destruct (Z.ltb_spec 32 pos); [reflexivity | lia].
      * destruct (Z.ltb_spec 128 pos); [reflexivity | lia].
Qed.

Lemma ip_compare_words a b :
  ip_compare a b =
  cmp_int (match hi a ?= hi b with Eq => lo a ?= lo b | c => c end).
Proof.
  unfold ip_compare, Z.ltb. rewrite (Z.compare_antisym (hi a)), (Z.compare_antisym (lo a)).
  destruct (hi a ?= hi b), (lo a ?= lo b); reflexivity.
Qed.

Theorem Compare_correct a b :
  wf_ip a -> wf_ip b -> legacy a = legacy b -> ip_compare a b = compare_spec a b.
Proof.
  intros Wa Wb F. rewrite ip_compare_words. unfold compare_spec, ip_bits. rewrite <- F.
  destruct (legacy a) eqn:Fa.
  - symmetry in F. destruct (wf4 _ Wa Fa) as [Ha Ra]. destruct (wf4 _ Wb F) as [Hb Rb].
    rewrite Ha, Hb. cbn [Z.compare]. rewrite lex_cmp_bits.
    rewrite !Z.mod_small by lia. reflexivity.
  - symmetry in F. destruct (wf6 _ Wa Fa) as [Rha Rla]. destruct (wf6 _ Wb F) as [Rhb Rlb].
    rewrite lex_cmp_app by (rewrite !length_bits; reflexivity).
    rewrite !lex_cmp_bits. rewrite !Z.mod_small by lia. reflexivity.
Qed.

Lemma ip_compare_zero a b : ip_compare a b = 0 <-> hi a = hi b /\ lo a = lo b.
Proof.
  rewrite ip_compare_words.
  destruct (Z.compare_spec (hi a) (hi b)); destruct (Z.compare_spec (lo a) (lo b)); cbn; lia.
Qed.

Theorem BytesInAddr_correct l : 0 <= l < 256 -> bytes_spec l (BytesInAddr l).
Proof.
  intros H. unfold bytes_spec, BytesInAddr, wconv.
  rewrite wrap_small by (split; [apply Z.div_pos; lia | apply Z.div_lt_upper_bound; lia]).
  pose proof (Z.div_mod (l + 7) 8 ltac:(lia)). pose proof (Z.mod_pos_bound (l + 7) 8 ltac:(lia)). lia.
Qed.
