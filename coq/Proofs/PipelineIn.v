(* What the composition needs to know of the Adj-RIB-In model beyond C05's theorems: every operation only EXTENDS
   the log of calls delivered to clients, and a client's bag changes exactly by those calls (the model applies to
   its own copy of the client what it logs).  Both are read off the form "quiet change, then a list of calls" that
   Proofs/AdjRIBInProofs.v gives every operation. *)
From Coq Require Import List NArith.
Import ListNotations.
From BioVerif Require Import Lib.ListFacts Model.AdjRIBIn Spec.AdjRIBInSpec Proofs.AdjRIBInProofs.
Local Open Scope N_scope.

(* AdjRIBInProofs.bag_after written out, so that the pipeline proofs can case on the event *)
Definition ev_apply (c : N) (t : ctable) (e : event) : ctable :=
  match e with
  | EvAdd c' p q | EvDump c' p q => if c' =? c then ct_add p q t else t
  | EvRemove c' p q => if c' =? c then ct_remove p q t else t
  | EvReplace c' p o n => if c' =? c then ct_replace p o n t else t
  | EvEOR _ => t
  end.

(* oldest first *)
Definition replay (c : N) (evs : list event) (t : ctable) : ctable := fold_left (ev_apply c) evs t.

Lemma replay_bag : forall c evs t, replay c evs t = bag_after c evs t.
Proof.
  intros c evs. unfold replay, bag_after. induction evs as [|e evs IH]; intro t; [reflexivity|].
  cbn [fold_left]. rewrite IH. f_equal. destruct e; try reflexivity. cbn. destruct (c0 =? c); reflexivity.
Qed.

Definition plain (e : event) : Prop := match e with EvReplace _ _ _ _ => False | _ => True end.

(* pl: a condition under which none of the new calls is a ReplacePath (Ext_step takes pl := not_replace o) *)
Definition Ext (pl : Prop) (s s' : st) : Prop :=
  exists new : list event,                     (* newest first *)
    log s' = new ++ log s /\
    (pl -> Forall plain new) /\
    forall c, ct_get c (ctabs s') = replay c (rev new) (ct_get c (ctabs s)).

Lemma Ext_refl : forall (pl : Prop) s, Ext pl s s.
Proof. intros pl s. exists []. split; [reflexivity|]. split; [constructor | reflexivity]. Qed.

Lemma Ext_trans : forall (pl : Prop) a b c, Ext pl a b -> Ext pl b c -> Ext pl a c.
Proof.
  intros pl a b c [n1 [L1 [P1 B1]]] [n2 [L2 [P2 B2]]]. exists (n2 ++ n1). split; [|split].
  - rewrite L2, L1. apply app_assoc.
  - intros H. apply Forall_app. split; auto.
  - intros k. rewrite B2, B1, rev_app_distr. symmetry. apply fold_left_app.
Qed.

Lemma Ext_emits : forall (pl : Prop) l s s1, log s1 = log s -> ctabs s1 = ctabs s -> (pl -> Forall plain l) ->
  Ext pl s (emits l s1).
Proof.
  intros pl l s s1 HL HC HP. exists (rev l). rewrite emits_log, HL, rev_involutive. split; [reflexivity|].
  split; [intro H; apply Forall_rev, HP, H|]. intro c. rewrite emits_get, HC. symmetry. apply replay_bag.
Qed.

(* every operation but ReplaceFilterChain: the new calls are AddPath / AddPathInitialDump / RemovePath / EndOfRIB *)
Definition not_replace (o : op) : Prop := match o with ReplaceChain _ => False | _ => True end.

Lemma Ext_remove_path : forall (pl : Prop) p oid s, Ext pl s (remove_path p oid s).
Proof.
  intros. rewrite remove_path_emits. apply Ext_emits; [reflexivity..|]. intros _. apply bcast_Forall. exact (fun _ _ _ => I).
Qed.

Lemma Ext_step : forall o s, Ext (not_replace o) s (step s o).
Proof.
  intros o s. destruct o as [p q|p i|p| |c|c|c'|a|a|a|a]; cbn [step]; try apply Ext_remove_path;
    try (apply (Ext_emits _ []); [reflexivity..|constructor]).
  - rewrite add_path_emits. apply Ext_emits; [reflexivity..|]. intros _.
    apply Forall_app. split; apply bcast_Forall; exact (fun _ _ _ => I).
  - apply (fold_left_rel _ (Ext _)); [apply Ext_refl|apply Ext_trans|]. intros acc e _. apply Ext_remove_path.
  - rewrite register_emits. apply Ext_emits; [destruct (mem c (regs s)); reflexivity..|]. intros _.
    apply Forall_app. split; [apply bcast_Forall; exact (fun _ _ _ => I) | repeat constructor].
  - rewrite unregister_emits. destruct (mem c (regs s)); [|apply Ext_refl].
    apply Ext_emits; [reflexivity..|]. intros _. apply bcast_Forall. exact (fun _ _ _ => I).
  - rewrite replace_chain_emits. apply Ext_emits; [reflexivity..|]. intros [].
Qed.

(* VRF operations leave everything but the refcounters alone *)
Definition vrf_op (o : op) : Prop :=
  match o with AddASN _ | DelASN _ | AddCID _ | DelCID _ => True | _ => False end.

Lemma vrf_op_frame : forall o s, vrf_op o ->
  tab (step s o) = tab s /\ chain (step s o) = chain s /\ regs (step s o) = regs s /\
  ctabs (step s o) = ctabs s /\ log (step s o) = log s /\ sa (step s o) = sa s.
Proof. intros o s H. destruct o; try contradiction; cbn; repeat split. Qed.

Lemma vrf_history : forall ops, Forall vrf_op ops ->
  fixed_policy ops /\
  forall r i, reg_once r ops = true /\ fold_left regs_step ops r = r /\ ctabs (fold_left step ops i) = ctabs i.
Proof.
  induction 1 as [|o ops Ho H [IF IH]]; (split; [|intros r i; cbn [reg_once fold_left]]).
  - intros x [].
  - auto.
  - intros x [<-|Hx]; [now destruct o|now apply IF].
  - destruct o; try contradiction; exact (IH r (step i _)).
Qed.

Lemma at_pfx_add : forall p p0 q t,
  at_pfx p (ct_add p0 q t) = if p0 =? p then at_pfx p t ++ [q] else at_pfx p t.
Proof.
  intros p p0 q t. unfold at_pfx, ct_add. rewrite filter_app, map_app. cbn.
  destruct (p0 =? p); cbn; [reflexivity|apply app_nil_r].
Qed.

Definition rmf (q : path) : list path -> list path := drop_first (fun a => pcmp a q).

Lemma at_pfx_remove : forall p p0 q t,
  at_pfx p (ct_remove p0 q t) = if p0 =? p then rmf q (at_pfx p t) else at_pfx p t.
Proof.
  intros p p0 q t. induction t as [|[p' q'] r IH]; [now destruct (p0 =? p)|].
  cbn [ct_remove]. unfold at_pfx in *. cbn [filter fst].
  destruct (N.eqb_spec p' p0) as [->|NE]; cbn [andb].
  - destruct (N.eqb_spec p0 p) as [->|NE2].
    + cbn [map snd rmf drop_first]. destruct (pcmp q' q); [reflexivity|]. cbn [filter fst map snd].
      rewrite N.eqb_refl. cbn [map snd]. f_equal. exact IH.
    + destruct (pcmp q' q).
      * reflexivity.
      * cbn [filter fst]. apply N.eqb_neq in NE2. rewrite NE2. exact IH.
  - cbn [filter fst]. destruct (N.eqb_spec p' p) as [->|NE2].
    + cbn [map snd]. apply N.eqb_neq in NE. rewrite N.eqb_sym in NE. rewrite NE in *. f_equal. exact IH.
    + exact IH.
Qed.

Lemma at_pfx_ekey : forall p A, at_pfx p (map ekey A) = map pkey (at_pfx p A).
Proof.
  intros p A. unfold at_pfx. induction A as [|[p' q] A IH]; [reflexivity|]. cbn.
  destruct (p' =? p); cbn; now rewrite IH.
Qed.
