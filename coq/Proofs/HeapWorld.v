(* C13: every history of a two-session world keeps the store ok (HeapProofs.ok_reads says what that means for
   a reader); the session and the path of C13's example, where rewriting in place does not. *)
From Coq Require Import List NArith.
Import ListNotations.
From BioVerif Require Import Model.AdjRIBOut Model.Heap Spec.HeapSpec Proofs.HeapProofs.
Local Open Scope N_scope.

Section World.
  Variable P : Type.
  Variable apply : P -> N -> path -> option path.
  Variables sa sb : sess.

  Lemma wstep_ok : forall (w : world P) o,
    wfh (w_heap w) -> ok (w_heap w) (w_heap (wstep P apply sa sb w o)).
  Proof.
    intros w [v sh|op|op] W; cbn [wstep].
    - now apply hnew_ok.
    - pose proof (hstep_safe P apply sa op (w_heap w, w_a w) W) as S.
      now destruct (hstep P apply sa (w_heap w, w_a w) op).
    - pose proof (hstep_safe P apply sb op (w_heap w, w_b w) W) as S.
      now destruct (hstep P apply sb (w_heap w, w_b w) op).
  Qed.

  Lemma wrun_ok : forall ops (w : world P),
    wfh (w_heap w) -> ok (w_heap w) (w_heap (wrun P apply sa sb w ops)).
  Proof.
    intros ops w. apply (ok_fold _ _ (@w_heap P)). apply wstep_ok.
  Qed.
End World.

(* the model can tell the difference: rewriting the Loc-RIB's object in place (the code before fix
   678760d8) changes what the Loc-RIB stores - and what everybody sharing the block stores *)
Definition bad_sess : sess := mkSess false false false false 65000 16843009 33686018 9 false 0.
Definition bad_path : bgp :=
  mkBgp 50529027 50529027 100 0 50529027 0 None true false 0 0 [(true, [65001])] 1 None None None [] 0.
