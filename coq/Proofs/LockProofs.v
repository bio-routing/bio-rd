(* Meta-theorems over the mutex / rendezvous trace semantics of Model/LockSem.v, and soundness of
   the table checkers.  `step` is inverted in one place, step_inversion; everything else goes
   through that description. *)
From Coq Require Import List NArith Bool Arith Lia.
Import ListNotations.
From BioVerif Require Import Model.LockSem.

Lemma nth_upd_eq : forall s i t t0, nth_error s i = Some t0 -> nth_error (upd s i t) i = Some t.
Proof.
  induction s as [|x r IH]; intros i t t0 Hn; destruct i; simpl in *; try discriminate; auto.
  eapply IH; eauto.
Qed.

Lemma nth_upd_neq : forall s i j t, i <> j -> nth_error (upd s i t) j = nth_error s j.
Proof.
  induction s as [|x r IH]; intros i j t Hne; destruct i, j; simpl; auto; try congruence.
Qed.

Definition after (e : ev) (H : list lock) : list lock :=
  match e with Acq l => l :: H | Rel l => remove N.eq_dec l H | _ => H end.

Lemma in_after : forall e H l, In l (after e H) -> In l H \/ e = Acq l.
Proof.
  intros [a|a|c|c|x w] H l; simpl; auto.
  - intros [->|Hin]; auto.
  - intros Hin. apply in_remove in Hin. tauto.
Qed.

Lemma after_in : forall e H l, In l H -> In l (after e H) \/ e = Rel l.
Proof.
  intros [a|a|c|c|x w] H l Hin; simpl; auto.
  destruct (N.eq_dec l a) as [->|Hne]; auto. left. now apply in_in_remove.
Qed.

Definition locks (s : state) : list lock := flat_map held s.

Lemma free_locks : forall s l, free s l <-> ~ In l (locks s).
Proof.
  intros s l. unfold locks. rewrite in_flat_map. split.
  - intros Hf (t & Ht & Hl). exact (Hf t Ht Hl).
  - intros Hn t Ht Hl. apply Hn. eauto.
Qed.

Lemma free_or_held : forall s l, free s l \/ exists t, In t s /\ In l (held t).
Proof.
  intros s l. destruct (in_dec N.eq_dec l (locks s)) as [H|H].
  - right. apply in_flat_map, H.
  - left. apply free_locks, H.
Qed.

(* a receive is never enabled on its own: it fires inside the step of the matching send *)
Definition enabled (s : state) (e : ev) : Prop :=
  match e with
  | Acq l => ~ In l (locks s)
  | Send c => exists u q, In u s /\ prog u = Recv c :: q
  | Recv _ => False
  | _ => True
  end.

Lemma step_inversion : forall s k e s', step s (k, e) s' ->
  (exists t p, nth_error s k = Some t /\ prog t = e :: p /\ enabled s e) /\
  forall i, nth_error s' i = nth_error s i \/
    exists t e' p, nth_error s i = Some t /\ prog t = e' :: p /\
      nth_error s' i = Some (mkT (after e' (held t)) p) /\ (i = k /\ e' = e \/ exists c, e = Send c /\ e' = Recv c).
Proof.
  intros s k e s' Hs. inversion Hs; subst.
  1-3: split; [exists t, p; repeat split; auto; now apply free_locks|];
       intros i; destruct (Nat.eq_dec k i) as [<-|Hne]; [right|left; now apply nth_upd_neq];
       eexists t, _, p; repeat split; eauto using nth_upd_eq.
  split; [exists ti, pi; repeat split; simpl; eauto using nth_error_In|].
  intros i. destruct (Nat.eq_dec j i) as [<-|Hj]; [|destruct (Nat.eq_dec k i) as [<-|Hk]].
  - right. exists tj, (Recv c), pj. repeat split; eauto. eapply nth_upd_eq. rewrite nth_upd_neq; eauto.
  - right. exists ti, (Send c), pi. repeat split; auto. rewrite nth_upd_neq by auto. eapply nth_upd_eq; eauto.
  - left. rewrite !nth_upd_neq; auto.
Qed.

Lemma step_local : forall s i t e p, nth_error s i = Some t -> prog t = e :: p ->
  match e with Acq l => ~ In l (locks s) | Rel _ | Acc _ _ => True | _ => False end ->
  step s (i, e) (upd s i (mkT (after e (held t)) p)).
Proof.
  intros s i t [l|l|c|c|x w] p Hi Hp He; try contradiction; simpl.
  - eapply step_acq; eauto. now apply free_locks.
  - eapply step_rel; eauto.
  - eapply step_acc; eauto.
Qed.

Lemma can_step_iff : forall s, can_step s <->
  exists t e p, In t s /\ prog t = e :: p /\ enabled s e.
Proof.
  intros s. split.
  - intros [[i e] [s' Hs]]. destruct (step_inversion _ _ _ _ Hs) as [(t & p & Hi & Hp & He) _].
    exists t, e, p. eauto using nth_error_In.
  - intros (t & e & p & Hin & Hp & He). destruct (In_nth_error _ _ Hin) as [i Hi]. exists (i, e).
    destruct e as [l|l|c|c|x w]; try (eexists; eapply step_local; eauto; exact He).
    destruct He as (u & q & Hu & Hq). destruct (In_nth_error _ _ Hu) as [j Hj].
    eexists. eapply (step_comm s i j); eauto. intros ->. congruence.
Qed.

Lemma exec_preserves (Q : state -> Prop) :
  (forall s lab s', step s lab s' -> Q s -> Q s') -> forall s tr s', exec s tr s' -> Q s -> Q s'.
Proof. intros HQ. induction 1; eauto. Qed.

(* instances: wf, disciplined and (ignoring H) chan_free; conforms goes through conforms_wf *)
Section Threads.
  Variable P : list lock -> list ev -> Prop.
  Hypothesis P_after : forall H e p, P H (e :: p) -> P (after e H) p.

  Definition all_threads (s : state) : Prop := forall t, In t s -> P (held t) (prog t).

  Lemma all_threads_step : forall s lab s', step s lab s' -> all_threads s -> all_threads s'.
  Proof.
    intros s [k e] s' Hs Ha u Hu. apply In_nth_error in Hu. destruct Hu as [i Hi'].
    destruct (proj2 (step_inversion _ _ _ _ Hs) i) as [E|(t & e' & p & Hi & Hp & E & _)]; rewrite E in Hi'.
    - apply Ha. eapply nth_error_In; eauto.
    - injection Hi' as <-. simpl. apply P_after. rewrite <- Hp. apply Ha. eapply nth_error_In; eauto.
  Qed.

  Lemma all_threads_reachable : forall ps s, Forall (P []) ps -> reachable ps s -> all_threads s.
  Proof.
    intros ps s HF [tr Hex]. apply (exec_preserves _ all_threads_step _ _ _ Hex).
    intros t Hin. apply in_map_iff in Hin. destruct Hin as [p [<- Hp]].
    simpl. rewrite Forall_forall in HF. auto.
  Qed.
End Threads.

Lemma wf_after : forall rank H e p, wf rank H (e :: p) -> wf rank (after e H) p.
Proof. intros rank H [l|l|c|c|x w] p; simpl; tauto. Qed.

Lemma disciplined_after : forall G H e p, disciplined G H (e :: p) -> disciplined G (after e H) p.
Proof. intros G H [l|l|c|c|x w] p; simpl; tauto. Qed.

Lemma chan_free_tail : forall e p, chan_free (e :: p) -> chan_free p.
Proof. intros e p Hc x Hx. apply Hc. now right. Qed.

Lemma max_elt {A} (f : A -> N) : forall L : list A,
  L = [] \/ exists m, In m L /\ forall x, In x L -> (f x <= f m)%N.
Proof.
  induction L as [|a L [->|(m & Hm & Hmax)]]; auto; right.
  - exists a. split; [now left|]. intros x [<-|[]]. lia.
  - destruct (N.le_ge_cases (f a) (f m)); [exists m|exists a]; (split; [simpl; auto|]);
      intros x [<-|Hx]; try specialize (Hmax x Hx); lia.
Qed.

Section Ranked.
Variable rank : lock -> N.
Variable s : state.
Hypothesis Hwf : all_threads (wf rank) s.
Hypothesis Hstuck : ~ can_step s.

Lemma stuck_head : forall t, In t s ->
  (held t = [] /\ parked t) \/
  exists l p, prog t = Acq l :: p /\ In l (locks s) /\
              forall a, In a (held t) -> (rank a < rank l)%N.
Proof.
  intros t Hin. pose proof (Hwf t Hin) as Hwft. unfold parked.
  destruct (prog t) as [|[l|l|c|c|x w] q] eqn:Hp; simpl in Hwft.
  - auto.
  - right. destruct (in_dec N.eq_dec l (locks s)) as [Hl|Hf]; [exists l, q; tauto|].
    exfalso. apply Hstuck, can_step_iff. exists t, (Acq l), q. auto.
  - exfalso. apply Hstuck, can_step_iff. exists t, (Rel l), q. simpl. auto.
  - left. destruct Hwft as [He _]. eauto 7.
  - left. destruct Hwft as [He _]. eauto 7.
  - exfalso. apply Hstuck, can_step_iff. exists t, (Acc x w), q. simpl. auto.
Qed.

(* the holder of a held lock of maximal rank would be waiting for a held lock of higher rank *)
Lemma stuck_nothing_held : locks s = [].
Proof.
  destruct (max_elt rank (locks s)) as [E|(m & Hm & Hmax)]; [exact E|exfalso].
  apply in_flat_map in Hm. destruct Hm as (h & Hh & Hm).
  destruct (stuck_head h Hh) as [[He _]|(l & _ & _ & Hl & Hlt)].
  - rewrite He in Hm. destruct Hm.
  - specialize (Hlt m Hm). specialize (Hmax l Hl). lia.
Qed.

Lemma stuck_all_parked : forall t, In t s -> parked t.
Proof.
  intros t Hin. destruct (stuck_head t Hin) as [[_ Hp]|(l & _ & _ & Hl & _)]; auto.
  rewrite stuck_nothing_held in Hl. destruct Hl.
Qed.

End Ranked.

(* If every thread acquires its locks in strictly increasing rank (i.e. the lock-order graph is
   acyclic), releases only what it holds, holds nothing when it ends and performs channel
   operations only while holding no lock, then a reachable state in which no thread can move
   consists solely of finished threads and of threads waiting at a channel operation with no lock
   held: no reachable state has a thread blocked on a mutex forever (no wait-for cycle through
   mutexes).  Stated without excluded middle: "stuck => nobody waits for a lock". *)
Theorem ranked_lock_order_no_deadlock : forall (rank : lock -> N) (ps : list (list ev)) (s : state),
  Forall (wf rank []) ps -> reachable ps s -> ~ can_step s ->
  forall t, In t s -> parked t.
Proof.
  intros rank ps s HF Hr Hstuck. apply (stuck_all_parked rank s); auto.
  apply (all_threads_reachable _ (wf_after rank) ps); auto.
Qed.

Lemma parked_chan_free : forall t, parked t -> chan_free (prog t) -> prog t = [].
Proof.
  intros t [Hp|[_ [c [p [Hp|Hp]]]]] Hcf; auto; exfalso.
  - apply (Hcf (Send c)). rewrite Hp. now left.
  - apply (Hcf (Recv c)). rewrite Hp. now left.
Qed.

(* No thread returns holding a lock => a finished thread holds nothing, so a mutex that somebody
   waits for is always held by a thread that still has work to do (and which, by ranked_lock_order_no_deadlock, is not
   itself blocked forever on a mutex). *)
Theorem no_return_holding_lock_progress : forall rank ps s,
  Forall (wf rank []) ps -> reachable ps s ->
  (forall t, In t s -> prog t = [] -> held t = []) /\
  (forall t l p, In t s -> prog t = Acq l :: p -> ~ free s l ->
     exists h, In h s /\ In l (held h) /\ prog h <> []) /\
  (finished s -> forall l, free s l).
Proof.
  intros rank ps s HF Hr.
  pose proof (all_threads_reachable _ (wf_after rank) ps s HF Hr) as Hwf.
  assert (H1 : forall t, In t s -> prog t = [] -> held t = []).
  { intros t Hin Hp. specialize (Hwf t Hin). rewrite Hp in Hwf. exact Hwf. }
  split; [exact H1|]. split.
  - intros t l p Hin Hp Hnf. destruct (free_or_held s l) as [Hf|(h & Hh & Hl)]; [contradiction|].
    exists h. repeat split; auto. intros Hph. rewrite (H1 h Hh Hph) in Hl. destruct Hl.
  - intros Hfin l t Hin. rewrite (H1 t Hin (Hfin t Hin)). auto.
Qed.

Lemma conforms_wf : forall E rank, (forall a b, In (a, b) E -> (rank a < rank b)%N) ->
  forall p H, conforms E H p -> wf rank H p.
Proof.
  intros E rank HE. induction p as [|[l|l|c|c|x w] p IH]; intros H Hc; simpl in *; auto;
    destruct Hc as [Hc1 Hc2]; auto.
Qed.

Lemma acyclic_check_sound : forall E, acyclic_check E = true ->
  exists rank : lock -> N, forall a b, In (a, b) E -> (rank a < rank b)%N.
Proof.
  intros E Hc. exists (rank_of (compute_rank E)). intros a b Hin.
  apply (proj1 (forallb_forall _ _) Hc) in Hin. now apply N.ltb_lt in Hin.
Qed.

Lemma checked_order_no_deadlock : forall E (ps : list (list ev)) (s : state),
  acyclic_check E = true -> Forall (conforms E []) ps -> reachable ps s -> ~ can_step s ->
  forall t, In t s -> parked t.
Proof.
  intros E ps s HE HF. destruct (acyclic_check_sound E HE) as [rank Hrank].
  apply (ranked_lock_order_no_deadlock rank).
  eapply Forall_impl; [|exact HF]. intros p. apply (conforms_wf _ _ Hrank).
Qed.

Lemma walk_in_rank : forall E (rank : N -> N), (forall a b, In (a, b) E -> (rank a < rank b)%N) ->
  forall w a d, w <> [] -> walk_in E a w = true -> (rank a < rank (last w d))%N.
Proof.
  intros E rank HE. induction w as [|b w IH]; intros a d Hne Hw; [congruence|].
  simpl in Hw. apply andb_true_iff in Hw. destruct Hw as [He Hw].
  apply existsb_exists in He. destruct He as [[x y] [Hin Hxy]].
  apply andb_true_iff in Hxy. destruct Hxy as [Hx Hy]. apply N.eqb_eq in Hx, Hy. simpl in Hx, Hy.
  subst x y. specialize (HE _ _ Hin).
  destruct w as [|c w']; [exact HE|].
  specialize (IH b d ltac:(congruence) Hw). change (last (b :: c :: w') d) with (last (c :: w') d). lia.
Qed.

Lemma cycle_refutes_rank : forall E w, is_cycle E w = true ->
  ~ exists rank : lock -> N, forall a b, In (a, b) E -> (rank a < rank b)%N.
Proof.
  intros E w Hc [rank HE]. unfold is_cycle in Hc. destruct w as [|a w']; [discriminate|].
  destruct w' as [|b w'']; [discriminate|].
  apply andb_true_iff in Hc. destruct Hc as [Hw Hl]. apply N.eqb_eq in Hl.
  pose proof (walk_in_rank E rank HE (b :: w'') a a ltac:(congruence) Hw) as Hlt.
  rewrite Hl in Hlt. lia.
Qed.

Lemma dedup_pairs_In : forall l e, In e l -> In e (dedup_pairs l).
Proof.
  induction l as [|x r IH]; intros e Hin; [destruct Hin|]. simpl.
  destruct (existsb _ (dedup_pairs r)) eqn:Hex.
  - destruct Hin as [<-|Hin]; auto. apply existsb_exists in Hex. destruct Hex as [f [Hf Heq]].
    apply andb_true_iff in Heq. destruct Heq as [H1 H2]. apply N.eqb_eq in H1, H2.
    destruct x, f; simpl in *; subst; auto.
  - destruct Hin as [<-|Hin]; simpl; auto.
Qed.

(* the hypotheses of ranked_lock_order_no_deadlock are satisfiable *)
Example ranked_example :
  Forall (wf (fun l => l) []) [[Acq 0%N; Acq 1%N; Rel 1%N; Rel 0%N]; [Acq 0%N; Acc 7%N true; Rel 0%N]].
Proof.
  repeat constructor; simpl; try tauto; try (intros a [<-|[]]; lia); auto.
Qed.

(* the no-leak clause of wf is needed (no_return_holding_lock_progress): a thread that returns with the lock held blocks the next one forever *)
Example leak_deadlocks :
  let ps := [[Acq 0%N]; [Acq 0%N; Rel 0%N]] in
  exists s, reachable ps s /\ ~ can_step s /\ ~ finished s.
Proof.
  simpl. exists [mkT [0%N] []; mkT [] [Acq 0%N; Rel 0%N]]. split; [|split].
  - exists [(0%nat, Acq 0%N)].
    eapply exec_cons; [eapply (step_local _ 0); [reflexivity|reflexivity|]|apply exec_nil].
    simpl. auto.
  - rewrite can_step_iff. intros (t & e & p & [<-|[<-|[]]] & Hp & He); [discriminate|].
    injection Hp as <- <-. apply He; simpl; auto.
  - intros Hf. specialize (Hf (mkT [] [Acq 0%N; Rel 0%N])). simpl in Hf. discriminate Hf. auto.
Qed.

(* the inverted order reaches a state where both threads wait for a mutex for ever *)
Example inversion_deadlocks :
  let ps := [[Acq 0%N; Acq 1%N; Rel 1%N; Rel 0%N]; [Acq 1%N; Acq 0%N; Rel 0%N; Rel 1%N]] in
  exists s, reachable ps s /\ ~ can_step s /\ exists t l p, In t s /\ prog t = Acq l :: p.
Proof.
  simpl.
  exists [mkT [0%N] [Acq 1%N; Rel 1%N; Rel 0%N]; mkT [1%N] [Acq 0%N; Rel 0%N; Rel 1%N]]. split; [|split].
  - exists [(0%nat, Acq 0%N); (1%nat, Acq 1%N)].
    eapply exec_cons; [eapply (step_local _ 0); [reflexivity|reflexivity|]|].
    { simpl. auto. }
    eapply exec_cons; [eapply (step_local _ 1); [reflexivity|reflexivity|]|apply exec_nil].
    simpl. intros [H|[]]. discriminate.
  - rewrite can_step_iff. intros (t & e & p & [<-|[<-|[]]] & Hp & He);
      injection Hp as <- <-; apply He; simpl; auto.
  - exists (mkT [0%N] [Acq 1%N; Rel 1%N; Rel 0%N]), 1%N, [Rel 1%N; Rel 0%N]. simpl. auto.
Qed.

(* a send under a lock whose receiver needs that lock blocks both for ever *)
Example rendezvous_under_lock_deadlocks :
  let ps := [[Acq 0%N; Send 5%N; Rel 0%N]; [Acq 0%N; Rel 0%N; Recv 5%N]] in
  exists s, reachable ps s /\ ~ can_step s /\ exists t, In t s /\ held t <> [] /\ exists c p, prog t = Send c :: p.
Proof.
  simpl. exists [mkT [0%N] [Send 5%N; Rel 0%N]; mkT [] [Acq 0%N; Rel 0%N; Recv 5%N]]. split; [|split].
  - exists [(0%nat, Acq 0%N)].
    eapply exec_cons; [eapply (step_local _ 0); [reflexivity|reflexivity|]|apply exec_nil].
    simpl. auto.
  - rewrite can_step_iff. intros (t & e & p & [<-|[<-|[]]] & Hp & He); injection Hp as <- <-.
    + destruct He as (u & q & [<-|[<-|[]]] & Hq); discriminate.
    + apply He; simpl; auto.
  - exists (mkT [0%N] [Send 5%N; Rel 0%N]). simpl. split; auto. split; [discriminate|]. eauto.
Qed.

Definition holds_at (s : state) (i : nat) (m : lock) : Prop :=
  exists t, nth_error s i = Some t /\ In m (held t).

Lemma free_holds : forall s l k, free s l -> ~ holds_at s k l.
Proof. intros s l k Hf (t & Hk & Hl). exact (Hf t (nth_error_In _ _ Hk) Hl). Qed.

(* what a single step does to "thread i holds m" *)
Lemma step_keeps : forall s lab s' i m, step s lab s' -> holds_at s i m ->
  holds_at s' i m \/ lab = (i, Rel m).
Proof.
  intros s [k e] s' i m Hs (t0 & Hi & Hm).
  destruct (proj2 (step_inversion _ _ _ _ Hs) i) as [E|(t & e' & p & Hi0 & _ & E & He')].
  - left. exists t0. rewrite E. auto.
  - rewrite Hi in Hi0. injection Hi0 as <-.
    destruct (after_in e' _ _ Hm) as [Hin| ->]; [left; eexists; eauto|right].
    destruct He' as [[-> ->]|(c & _ & Hc)]; [reflexivity|discriminate Hc].
Qed.

Lemma step_acquires : forall s lab s' j m, step s lab s' -> holds_at s' j m ->
  holds_at s j m \/ lab = (j, Acq m) /\ free s m.
Proof.
  intros s [k e] s' j m Hs (t1 & Hj & Hm).
  destruct (step_inversion _ _ _ _ Hs) as [(_ & _ & _ & _ & He) Hall].
  destruct (Hall j) as [E|(t & e' & p & Hj0 & _ & E & He')]; rewrite E in Hj.
  - left. exists t1. auto.
  - injection Hj as <-.
    destruct (in_after e' _ _ Hm) as [Hin| ->]; [left; exists t; auto|right].
    destruct He' as [[-> <-]|(c & _ & Hc)]; [|discriminate Hc]. split; [reflexivity|apply free_locks, He].
Qed.

Definition excl (s : state) : Prop :=
  forall i j ti tj l, nth_error s i = Some ti -> nth_error s j = Some tj ->
    In l (held ti) -> In l (held tj) -> i = j.

Lemma excl_holds : forall s, excl s <-> forall i j l, holds_at s i l -> holds_at s j l -> i = j.
Proof.
  intros s. split.
  - intros Hx i j l (ti & Hi & Hli) (tj & Hj & Hlj). eauto.
  - intros H i j ti tj l Hi Hj Hli Hlj. apply (H i j l); eexists; eauto.
Qed.

Lemma excl_init : forall ps, excl (init ps).
Proof.
  intros ps i j ti tj l Hi Hj Hl. apply nth_error_In, in_map_iff in Hi.
  destruct Hi as [p [<- _]]. destruct Hl.
Qed.

Lemma excl_step : forall s lab s', step s lab s' -> excl s -> excl s'.
Proof.
  intros s lab s' Hs. rewrite !excl_holds. intros Hx a b l Ha Hb.
  destruct (step_acquires _ _ _ _ _ Hs Ha) as [Ha0|[Ea Hfa]],
           (step_acquires _ _ _ _ _ Hs Hb) as [Hb0|[Eb Hfb]].
  - eauto.
  - destruct (free_holds _ _ _ Hfb Ha0).
  - destruct (free_holds _ _ _ Hfa Hb0).
  - congruence.
Qed.

(* Mutual exclusion enters only through step_acquires: at the acquisition the mutex is free, so
   whoever held it at the start has released it before. *)
Lemma exec_acquired : forall s tr s' j m, exec s tr s' -> holds_at s' j m ->
  holds_at s j m \/
  exists b c, tr = b ++ (j, Acq m) :: c /\
    forall i, holds_at s i m -> exists a b', b = a ++ (i, Rel m) :: b'.
Proof.
  induction 1 as [s|s lab s1 tr s2 Hs Hex IH]; intros Hj; [auto|].
  destruct (IH Hj) as [H1|(b & c & -> & Hb)].
  - destruct (step_acquires _ _ _ _ _ Hs H1) as [H0|[-> Hf]]; [auto|right].
    exists [], tr. split; [reflexivity|]. intros i Hi. destruct (free_holds _ _ _ Hf Hi).
  - right. exists (lab :: b), c. split; [reflexivity|]. intros i Hi.
    destruct (step_keeps _ _ _ _ _ Hs Hi) as [H1| ->].
    + destruct (Hb i H1) as (a & b' & ->). exists (lab :: a), b'. reflexivity.
    + exists [], b. reflexivity.
Qed.

Lemma exec_lose_then_gain : forall s tr s' i j m, exec s tr s' -> excl s -> i <> j ->
  holds_at s i m -> holds_at s' j m ->
  exists a b c, tr = a ++ (i, Rel m) :: b ++ (j, Acq m) :: c.
Proof.
  intros s tr s' i j m Hex Hx Hne Hi Hj.
  destruct (exec_acquired _ _ _ _ _ Hex Hj) as [Hj0|(b & c & -> & Hb)].
  - destruct (Hne (proj1 (excl_holds _) Hx _ _ _ Hi Hj0)).
  - destruct (Hb i Hi) as (a & b' & ->). exists a, b', c. now rewrite <- app_assoc.
Qed.

(* If thread i accesses location x while holding m and later thread j <> i accesses x while
   holding m (which is what the lock-set discipline guarantees when m guards x), then between the
   two accesses i releases m and afterwards j acquires m: the accesses are ordered by a
   release/acquire pair on the same mutex (synchronises-with in the Go memory model). *)
Theorem lockset_discipline_orders_conflicts :
  forall ps tr1 s1 s1' tr2 s2 s2' i j x w1 w2 m,
    exec (init ps) tr1 s1 -> step s1 (i, Acc x w1) s1' ->
    exec s1' tr2 s2 -> step s2 (j, Acc x w2) s2' ->
    i <> j -> holds_at s1 i m -> holds_at s2 j m ->
    exists a b c, tr2 = a ++ (i, Rel m) :: b ++ (j, Acq m) :: c.
Proof.
  intros ps tr1 s1 s1' tr2 s2 s2' i j x w1 w2 m Hex1 Hs1 Hex2 Hs2 Hne Hi Hj.
  assert (Hx1' : excl s1').
  { eapply excl_step; eauto. eapply (exec_preserves _ excl_step); eauto. apply excl_init. }
  destruct (step_keeps _ _ _ _ _ Hs1 Hi) as [Hi'|E]; [|discriminate E].
  eapply exec_lose_then_gain; eauto.
Qed.

(* the discipline, as a property of programs: a thread about to access x holds the guard of x *)
Lemma disc_access_holds : forall G s i x w s' m, all_threads (disciplined G) s ->
  step s (i, Acc x w) s' -> G x = Some m -> holds_at s i m.
Proof.
  intros G s i x w s' m Hd Hs HG. destruct (step_inversion _ _ _ _ Hs) as [(t & p & Hi & Hp & _) _].
  pose proof (Hd t (nth_error_In _ _ Hi)) as Ht. rewrite Hp in Ht. destruct Ht as [Hm _].
  exists t. auto.
Qed.

(* program-level form: if all threads follow the lock-set discipline G, any two accesses to a
   guarded location by different threads are ordered by release/acquire of its guard *)
Corollary disciplined_accesses_ordered :
  forall G ps tr1 s1 s1' tr2 s2 s2' i j x w1 w2 m,
    Forall (disciplined G []) ps -> G x = Some m ->
    exec (init ps) tr1 s1 -> step s1 (i, Acc x w1) s1' ->
    exec s1' tr2 s2 -> step s2 (j, Acc x w2) s2' -> i <> j ->
    exists a b c, tr2 = a ++ (i, Rel m) :: b ++ (j, Acq m) :: c.
Proof.
  intros G ps tr1 s1 s1' tr2 s2 s2' i j x w1 w2 m HF HG Hex1 Hs1 Hex2 Hs2 Hne.
  pose proof (disciplined_after G) as Ha.
  assert (Hd1 : all_threads (disciplined G) s1) by (eapply all_threads_reachable; eauto; eexists; eauto).
  assert (Hd2 : all_threads (disciplined G) s2).
  { eapply (exec_preserves _ (all_threads_step _ Ha)); eauto. eapply all_threads_step; eauto. }
  eapply lockset_discipline_orders_conflicts; eauto; eapply disc_access_holds; eauto.
Qed.

(* the hypothesis of lockset_discipline_orders_conflicts is needed: without the guard two accesses can be adjacent in a trace *)
Example unguarded_accesses_unordered :
  let ps := [[Acc 0%N true]; [Acc 0%N false]] in
  exists s, exec (init ps) [(0%nat, Acc 0%N true); (1%nat, Acc 0%N false)] s.
Proof.
  simpl. eexists.
  eapply exec_cons; [eapply (step_local _ 0); [reflexivity|reflexivity|exact I]|]. simpl.
  eapply exec_cons; [eapply (step_local _ 1); [reflexivity|reflexivity|exact I]|]. apply exec_nil.
Qed.
