(* C34 proofs: the conversion to the API and back preserves what the API schema carries (one
   round-trip lemma per record type, then roundtrip_preserves for whole routes); the conversion
   back through the attribute cache never hits it, so every conversion of a history returns what it
   returns alone (stateless, cache_find_fresh). *)
From Coq Require Import List NArith Lia.
Import ListNotations.
From BioVerif Require Import Model.APIConv Spec.APIConvSpec.

Lemma ip_roundtrip a : ip_from_proto (Some (ip_to_proto a)) = Ok a.
Proof. destruct a as [h l []]; reflexivity. Qed.

Lemma seg_roundtrip s : wf_segment s -> seg_from_proto (seg_to_proto s) = s.
Proof.
  destruct s as [t asns]. unfold wf_segment, seg_from_proto, seg_to_proto. cbn.
  intros [->| ->]; reflexivity.
Qed.

Lemma lcomm_roundtrip c : lcomm_from_proto (lcomm_to_proto c) = c.
Proof. destruct c; reflexivity. Qed.

Lemma unknown_roundtrip u : ua_code u < 256 -> unknown_from_proto (unknown_to_proto u) = u.
Proof.
  destruct u as [o t p c v]. unfold unknown_from_proto, unknown_to_proto. cbn.
  intros H. now rewrite N.mod_small.
Qed.

Lemma map_roundtrip {A B} (P : A -> Prop) (f : A -> B) (g : B -> A) l :
  (forall x, P x -> g (f x) = x) -> Forall P l -> map g (map f l) = l.
Proof.
  intros Hfg. induction 1 as [|x l Hx Hl IH]; cbn; [reflexivity|]. now rewrite Hfg, IH.
Qed.

Lemma olist_nonempty {A} (l : list A) : olist (nonempty l) = l.
Proof. destruct l; reflexivity. Qed.

Lemma bgp_roundtrip b : wf_bgp b ->
  exists b', bgp_from_proto (Some (bgp_to_proto b)) = Ok b' /\ bgp_agree b b'.
Proof.
  intros (a & nh & src & Ha & Hnh & Hsrc & Horg & Hseg & Hua).
  destruct b as [oa asp cl co lc ua pid aspl pp]. cbn in Ha, Hseg, Hua. subst oa.
  destruct a as [onh osrc lp med bid oid agg ebgp atom org otc]. cbn in Hnh, Hsrc, Horg. subst onh osrc.
  eexists. split.
  - unfold bgp_from_proto, bgp_to_proto. cbn -[ip_from_proto ip_to_proto N.modulo].
    rewrite !ip_roundtrip. cbn -[N.modulo]. reflexivity.
  - constructor; cbn; rewrite ?olist_nonempty; try reflexivity.
    + apply (map_roundtrip wf_segment); auto using seg_roundtrip.
    + now rewrite N.mod_small.
    + apply (map_roundtrip (fun _ => True)); auto using lcomm_roundtrip.
      clear. induction (olist lc); constructor; auto.
    + apply (map_roundtrip (fun u => ua_code u < 256)); auto using unknown_roundtrip.
Qed.

Lemma hidden_to_proto_named h : h <= 6 -> hidden_to_proto h = h.
Proof. intros H. unfold hidden_to_proto. apply N.leb_le in H. now rewrite H. Qed.

Lemma hidden_to_proto_unnamed h : 6 < h -> hidden_to_proto h = 0.
Proof. intros H. unfold hidden_to_proto. apply N.leb_gt in H. now rewrite H. Qed.

Lemma hidden_back h : hidden_from_proto (hidden_to_proto h) = hidden_to_proto h.
Proof.
  unfold hidden_from_proto, hidden_to_proto. destruct (h <=? 6) eqn:E; [now rewrite E | reflexivity].
Qed.

(* whatever non-zero number the API message carries, the path is hidden after the conversion back *)
Lemma hidden_from_proto_zero h : hidden_from_proto h = 0 <-> h = 0.
Proof.
  unfold hidden_from_proto. destruct (h <=? 6) eqn:E1; [tauto|].
  apply N.leb_gt in E1. destruct (h <=? 255); split; intros H; try discriminate; lia.
Qed.

Lemma path_to_proto_ok p : static_ok (p_static p) ->
  path_to_proto p =
  Ok (mkAP (type_to_proto (p_type p))
           (option_map (fun s => mkAS (option_map ip_to_proto (s_nexthop s))) (p_static p))
           (option_map bgp_to_proto (p_bgp p)) (hidden_to_proto (p_hidden p)) (p_ltime p)).
Proof.
  unfold path_to_proto. destruct (p_static p) as [[[nh|]]|]; cbn; tauto || reflexivity.
Qed.

Lemma path_roundtrip p : wf_path p ->
  exists ap p', path_to_proto p = Ok ap /\ path_from_proto ap = Ok p' /\ path_agree p p' /\
    ap_hidden ap = hidden_to_proto (p_hidden p) /\
    p_hidden p' = hidden_to_proto (p_hidden p).
Proof.
  intros (_ & Hst & Hty). rewrite (path_to_proto_ok p Hst).
  destruct p as [ty rd hid lt st bg]. unfold path_from_proto, path_agree, static_nexthop. cbn in *.
  destruct Hty as [[-> Hs] | [-> [b [-> Hb]]]].
  - destruct st as [[[nh|]]|]; cbn in Hst; try tauto.
    eexists. eexists. split; [reflexivity |].
    cbn -[ip_from_proto ip_to_proto]. rewrite ip_roundtrip. cbn.
    repeat split; try reflexivity; [discriminate | apply hidden_back].
  - destruct (bgp_roundtrip b Hb) as (b' & Hb' & Hag).
    eexists. eexists. split; [reflexivity |].
    cbn -[bgp_from_proto bgp_to_proto]. rewrite Hb'. cbn.
    repeat split; try reflexivity; [discriminate | intros _; exists b, b'; auto | apply hidden_back].
Qed.

Lemma prefix_roundtrip pf : pfx_len pf < 256 -> prefix_from_proto (Some (prefix_to_proto pf)) = Ok pf.
Proof.
  destruct pf as [a l]. cbn -[ip_from_proto ip_to_proto N.modulo]. intros H. rewrite ip_roundtrip.
  cbn -[N.modulo]. now rewrite N.mod_small.
Qed.

(* P and Q stand for what a theorem wants to read off one path's conversion (the reason reported, the reason
   returned, the fields), so that every result about routes is the instance for its P and Q. *)
Section Pointwise.
Variables (P : path -> api_path -> Prop) (Q : path -> path -> Prop).
Hypothesis HP : forall p ap, ap_hidden ap = hidden_to_proto (p_hidden p) -> P p ap.
Hypothesis HQ : forall p p', path_agree p p' -> p_hidden p' = hidden_to_proto (p_hidden p) -> Q p p'.

Lemma paths_roundtrip l : Forall wf_path l ->
  exists aps ps, mapM path_to_proto l = Ok aps /\ mapM path_from_proto aps = Ok ps /\
    Forall2 P l aps /\ Forall2 Q l ps.
Proof.
  induction 1 as [|p l Hp Hl IH].
  - exists [], []. cbn. repeat split; constructor.
  - destruct IH as (aps & ps & H1 & H2 & H3 & H4).
    destruct (path_roundtrip p Hp) as (ap & p' & P1 & P2 & P3 & P4 & P5).
    exists (ap :: aps), (p' :: ps). cbn. rewrite P1. cbn. rewrite H1. cbn. rewrite P2. cbn.
    rewrite H2. cbn. repeat split; constructor; auto.
Qed.

Theorem roundtrip_preserves r : wf_route r ->
  exists ar r', to_proto r = Ok ar /\ from_proto ar = Ok r' /\ r_pfx r' = r_pfx r /\
    Forall2 P (r_paths r) (ar_paths ar) /\ Forall2 Q (r_paths r) (r_paths r').
Proof.
  intros (pf & Hpf & Hlen & Hps). destruct r as [opf paths]. cbn in *. subst opf.
  destruct (paths_roundtrip paths Hps) as (aps & ps & H1 & H2 & H3 & H4).
  exists (mkAR (Some (prefix_to_proto pf)) aps), (mkR (Some pf) ps).
  unfold to_proto, from_proto. cbn [r_pfx r_paths]. rewrite H1. cbn [bind ar_pfx ar_paths].
  rewrite prefix_roundtrip by auto. cbn [bind]. rewrite H2. cbn. repeat split; auto.
Qed.
End Pointwise.

Lemma named_reported p ap : ap_hidden ap = hidden_to_proto (p_hidden p) ->
  reason_named p -> (hidden p <-> api_hidden ap).
Proof. unfold hidden, api_hidden. intros -> Hn. rewrite hidden_to_proto_named by exact Hn. tauto. Qed.

Lemma named_returned p p' : p_hidden p' = hidden_to_proto (p_hidden p) ->
  reason_named p -> p_hidden p' = p_hidden p.
Proof. intros ->. apply hidden_to_proto_named. Qed.

Lemma visible_returned p p' : p_hidden p' = hidden_to_proto (p_hidden p) ->
  ~ hidden p -> ~ hidden p'.
Proof.
  unfold hidden. intros -> Hn.
  assert (Hz : p_hidden p = 0) by (destruct (N.eq_dec (p_hidden p) 0); tauto).
  rewrite Hz. cbn. tauto.
Qed.

(* the code as it is: a hidden reason the API does not name (7 = HiddenReasonEmptyASPath, ...)
   is reported as HiddenReasonNone and the path comes back visible *)
Lemma unnamed_reported p ap : ap_hidden ap = hidden_to_proto (p_hidden p) ->
  ~ reason_named p -> ~ api_hidden ap.
Proof. unfold api_hidden, reason_named. intros -> Hn. rewrite hidden_to_proto_unnamed by lia. tauto. Qed.

Lemma unnamed_returned p p' : p_hidden p' = hidden_to_proto (p_hidden p) ->
  ~ reason_named p -> ~ hidden p'.
Proof. unfold hidden, reason_named. intros -> Hn. rewrite hidden_to_proto_unnamed by lia. tauto. Qed.

Definition stateless {A} (m : heap -> hres A) (v : result A) : Prop :=
  forall h, heap_ok h -> fst (m h) = v /\ heap_ok (snd (m h)).

Lemma stateless_pure {A} (v : result A) : stateless (fun h => (v, h)) v.
Proof. intros h Hh. auto. Qed.

Lemma stateless_bind {A B} (m : heap -> hres A) v (f : A -> heap -> hres B) g :
  stateless m v -> (forall a, stateless (f a) (g a)) -> stateless (hbind m f) (bind v g).
Proof.
  intros Hm Hf h Hh. unfold hbind. destruct (Hm h Hh) as [E Hh'].
  destruct (m h) as [[a|] h']; cbn [fst snd] in *; subst v; cbn [bind]; auto. apply Hf, Hh'.
Qed.

Lemma stateless_mapM {A B} (f : A -> heap -> hres B) g l :
  (forall x, stateless (f x) (g x)) -> stateless (mapM_h f l) (mapM g l).
Proof.
  intros Hf. induction l as [|x l IH]; cbn [mapM_h mapM]; [apply stateless_pure|].
  apply stateless_bind; [apply Hf|]. intros y. apply stateless_bind; [apply IH|].
  intros ys. apply stateless_pure.
Qed.

Lemma cache_find_fresh k c n :
  (forall k' v, In (k', v) c -> ck_nh k' < n) -> n <= ck_nh k -> cache_find k c = None.
Proof.
  intros Hc Hk. induction c as [|[k' v] c IH]; cbn [cache_find]; [reflexivity|].
  pose proof (Hc k' v (or_introl eq_refl)) as Hk'.
  unfold ckey_eqb. rewrite (proj2 (N.eqb_neq (ck_nh k') (ck_nh k))) by lia.
  apply IH. intros k'' v' Hin. apply (Hc k'' v'). right. exact Hin.
Qed.

Lemma heap_ok_next h n : heap_ok h -> h_next h <= n -> heap_ok (mkH (h_cache h) n).
Proof. intros Hh Hn k v Hin. apply Hh in Hin. cbn. lia. Qed.

(* the attribute cache misses: both addresses in its key are fresh *)
Lemma bgp_from_proto_h_stateless dd pb : stateless (bgp_from_proto_h dd pb) (bgp_from_proto pb).
Proof.
  intros h Hh. destruct pb as [x|]; [|split; [reflexivity|exact Hh]].
  unfold bgp_from_proto_h, bgp_from_proto, hbind, ip_ptr_from_proto.
  destruct (ip_from_proto (ab_nexthop x)) as [nh|]; cbn [bind fst snd h_next h_cache]; [|split; [reflexivity|exact Hh]].
  destruct (ip_from_proto (ab_source x)) as [src|]; cbn [bind fst snd h_next h_cache];
    [|split; [reflexivity | apply heap_ok_next; [exact Hh | lia]]].
  destruct dd.
  - unfold cache_get. cbn [h_cache h_next].
    rewrite (cache_find_fresh _ (h_cache h) (h_next h)); [|exact Hh|cbn; lia].
    split; [reflexivity|]. intros k v [E|Hin]; cbn.
    + inversion E. cbn. lia.
    + apply Hh in Hin. lia.
  - split; [reflexivity | apply (heap_ok_next h); [exact Hh | cbn; lia]].
Qed.

Lemma path_from_proto_h_stateless dd ap : stateless (path_from_proto_h dd ap) (path_from_proto ap).
Proof.
  unfold path_from_proto_h, path_from_proto. destruct (ap_type ap =? Path_BGP).
  - apply stateless_bind; [apply bgp_from_proto_h_stateless|]. intros b. apply stateless_pure.
  - destruct (ap_type ap =? Path_Static); apply stateless_pure.
Qed.

Theorem from_proto_h_stateless dd ar : stateless (from_proto_h dd ar) (from_proto ar).
Proof.
  unfold from_proto_h, from_proto. destruct (prefix_from_proto (ar_pfx ar)) as [pf|]; [|apply stateless_pure].
  apply (stateless_bind (mapM_h (path_from_proto_h dd) (ar_paths ar))).
  - apply stateless_mapM, path_from_proto_h_stateless.
  - intros ps. apply stateless_pure.
Qed.

Lemma roundtrip_h_stateless dd r : stateless (roundtrip_h dd r) (roundtrip r).
Proof.
  unfold roundtrip_h, roundtrip. destruct (to_proto r) as [ar|]; [apply from_proto_h_stateless | apply stateless_pure].
Qed.

Theorem run_history_stateless l : forall h, heap_ok h ->
  run_history h l = map (fun rd => roundtrip (fst rd)) l.
Proof.
  induction l as [|[r dd] l IH]; intros h Hh; cbn [run_history map fst]; [reflexivity|].
  destruct (roundtrip_h_stateless dd r h Hh) as [E1 E2].
  destruct (roundtrip_h dd r h) as [res h']. cbn [fst snd] in *. rewrite E1, (IH h' E2). reflexivity.
Qed.

Theorem history_pointwise (R : route * bool -> result route -> Prop) l h : heap_ok h ->
  Forall (fun rd => R rd (roundtrip (fst rd))) l -> Forall2 R l (run_history h l).
Proof.
  intros Hh H. rewrite (run_history_stateless l h Hh). induction H; constructor; auto.
Qed.
