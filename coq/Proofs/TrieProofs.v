(* C01: the trie over bit strings (Model/Trie.v) refines the prefix map (Spec/TrieSpec.v).
   A tree stands for the function nlookup.  wf s n: every node lies in the cone of the stem s it hangs from
   (its parent's prefix ++ [side]), dummies carry no paths.  Every update keeps wf and changes nlookup at its key
   only, and its flag (isNew, final) is read off the value that was there; every query is proved once against
   nlookup or against the dump.  At table level Inv t m is kept by every step; Replace and RemovePfx are
   compositions of the primitives and reach the map's set / del only up to lookups, hence Inv_equiv and
   removeAll_lookup.  A table in Inv answers every query as the map does (Inv_refines). *)
From Coq Require Import List Bool Lia ZArith Permutation.
From BioVerif Require Import Lib.ListFacts Lib.KeyedTable Lib.BitPfx Model.Trie Spec.TrieSpec Proofs.BitPfxFacts.
Import ListNotations.

Section TrieProofs.
  Variable P : Type.
  Variable peq : P -> P -> bool.
  (* the only fact needed about the path test: a path is "the same path" as itself *)
  Hypothesis peq_refl : forall a, peq a a = true.

  Local Notation bnode := (bnode P).
  Local Notation smap := (smap P).
  Local Notation lookup := (lookup P).

  Lemma lookup_app : forall (m1 m2 : smap) q,
    lookup (m1 ++ m2) q = match lookup m1 q with Some v => Some v | None => lookup m2 q end.
  Proof.
    induction m1 as [|[k v] m1 IH]; intros m2 q; simpl; auto.
    destruct (beq k q); auto.
  Qed.

  (* the specification's map is a keyed table on [beq], written with the table as first argument *)
  Lemma lookup_get : forall (m : smap) q, lookup m q = KeyedTable.get beq q m.
  Proof. induction m as [|[k v] m IH]; intros q; simpl; [|rewrite IH]; reflexivity. Qed.

  Lemma set_put : forall (m : smap) p v, set P m p v = KeyedTable.put beq p v m.
  Proof. induction m as [|[k w] m IH]; intros p v; simpl; [|rewrite IH]; reflexivity. Qed.

  (* [del] drops the first binding of the key only: with unique keys that is all of them *)
  Lemma del_del : forall (m : smap) p, NoDup (map fst m) -> del P m p = KeyedTable.del beq p m.
  Proof.
    induction m as [|[k w] m IH]; intros p H; [reflexivity|]. inversion H; subst.
    cbn [del KeyedTable.del filter fst]. fold (KeyedTable.del beq p m).
    destruct (beq k p) eqn:E; cbn [negb]; [|now rewrite IH].
    apply beq_true_iff in E. subst k. symmetry.
    now apply (KeyedTable.del_absent beq_true_iff), (KeyedTable.notin_get_none beq_true_iff).
  Qed.

  Lemma lookup_set : forall (m : smap) p v q,
    lookup (set P m p v) q = if beq p q then Some v else lookup m q.
  Proof. intros. rewrite set_put, !lookup_get. apply (KeyedTable.get_put beq_true_iff). Qed.

  Lemma set_NoDup : forall (m : smap) p v, NoDup (map fst m) -> NoDup (map fst (set P m p v)).
  Proof. intros m p v. rewrite set_put. apply (KeyedTable.put_nodup beq_true_iff). Qed.

  Lemma set_length : forall (m : smap) p v,
    length (set P m p v) = match lookup m p with Some _ => length m | None => S (length m) end.
  Proof. intros. rewrite set_put, lookup_get. apply KeyedTable.put_length. Qed.

  Lemma lookup_None_notin : forall (m : smap) q, lookup m q = None -> ~ In q (map fst m).
  Proof. intros m q. rewrite lookup_get. apply (KeyedTable.get_none_notin beq_true_iff). Qed.

  Lemma lookup_del : forall (m : smap) p q,
    NoDup (map fst m) -> lookup (del P m p) q = if beq p q then None else lookup m q.
  Proof. intros. rewrite del_del, !lookup_get by assumption. apply (KeyedTable.get_del beq_true_iff). Qed.

  Lemma del_NoDup : forall (m : smap) p, NoDup (map fst m) -> NoDup (map fst (del P m p)).
  Proof. intros m p H. rewrite del_del by exact H. exact (KeyedTable.del_nodup beq p m H). Qed.

  Lemma del_length : forall (m : smap) p v,
    NoDup (map fst m) -> lookup m p = Some v -> length m = S (length (del P m p)).
  Proof. intros m p v H. rewrite del_del, lookup_get by exact H. apply (KeyedTable.del_length beq_true_iff), H. Qed.

  Lemma equiv_perm : forall (m1 m2 : smap),
    NoDup (map fst m1) -> NoDup (map fst m2) ->
    (forall q, lookup m1 q = lookup m2 q) -> Permutation m1 m2.
  Proof.
    intros m1 m2 N1 N2 H. apply (KeyedTable.ext_perm beq_true_iff m1 m2 N1 N2). intros q. rewrite <- !lookup_get. apply H.
  Qed.

  (* childless dummies are allowed: removal leaves them behind *)
  Fixpoint wf (s : bits) (n : bnode) : Prop :=
    match n with
    | Nil => True
    | Node cp d ps l h =>
      is_pre s cp = true /\ (d = true -> ps = []) /\
      wf (cp ++ [false]) l /\ wf (cp ++ [true]) h
    end.

  Fixpoint nlookup (n : bnode) (q : bits) : option (list P) :=
    match n with
    | Nil => None
    | Node cp d ps l h =>
      if beq cp q then (if d then None else Some ps)
      else if is_pre cp q then
        (if bitAt q (length cp + 1) then nlookup h q else nlookup l q)
      else None
    end.

  Lemma wf_root : forall s s' cp d ps l h,
    wf s (Node cp d ps l h) -> is_pre s' cp = true -> wf s' (Node cp d ps l h).
  Proof. intros s s' cp d ps l h (H1 & H2 & H3 & H4) H. simpl. auto. Qed.

  Lemma wf_weaken : forall s s' n, wf s n -> is_pre s' s = true -> wf s' n.
  Proof.
    intros s s' [|cp d ps l h] H Hs; [exact I|].
    eapply wf_root; [exact H|]. destruct H as (H1 & _). eapply is_pre_trans; eauto.
  Qed.

  Lemma nlookup_here : forall p d ps l h,
    nlookup (Node p d ps l h) p = if d then None else Some ps.
  Proof. intros. cbn [nlookup]. rewrite beq_refl. reflexivity. Qed.

  Lemma nlookup_off : forall cp d ps l h p,
    is_pre cp p = false -> nlookup (Node cp d ps l h) p = None.
  Proof.
    intros cp d ps l h p H. cbn [nlookup]. rewrite H.
    destruct (beq cp p) eqn:E; [|reflexivity].
    apply beq_true_iff in E. subst. rewrite is_pre_refl in H. discriminate.
  Qed.

  Lemma nlookup_notpre : forall s n q, wf s n -> is_pre s q = false -> nlookup n q = None.
  Proof.
    intros s [|cp d ps l h] q H Hq; [reflexivity|].
    apply nlookup_off. exact (not_pre_below _ _ _ (proj1 H) Hq).
  Qed.

  (* a key other than the node's own is looked up in the child on its side: below the node that
     is the definition, elsewhere both sides give nothing *)
  Lemma nlookup_side : forall cp d ps l h p,
    beq cp p = false -> wf (cp ++ [false]) l -> wf (cp ++ [true]) h ->
    nlookup (Node cp d ps l h) p = nlookup (if bitAt p (length cp + 1) then h else l) p.
  Proof.
    intros cp d ps l h p E Hl Hh. cbn [nlookup]. rewrite E. destruct (is_pre cp p) eqn:Hpre.
    - destruct (bitAt p (length cp + 1)); reflexivity.
    - destruct (bitAt p (length cp + 1)); symmetry;
        [apply (nlookup_notpre _ h p Hh) | apply (nlookup_notpre _ l p Hl)]; apply not_pre_snoc, Hpre.
  Qed.

  Lemma nlookup_node : forall cp d ps l h q,
    wf (cp ++ [false]) l -> wf (cp ++ [true]) h ->
    nlookup (Node cp d ps l h) q =
    if beq cp q then (if d then None else Some ps)
    else match nlookup l q with Some v => Some v | None => nlookup h q end.
  Proof.
    intros cp d ps l h q Hl Hh. destruct (beq cp q) eqn:E; [cbn [nlookup]; rewrite E; reflexivity|].
    rewrite nlookup_side by assumption.
    destruct (bitAt q (length cp + 1)) eqn:Eb.
    - rewrite (nlookup_notpre _ l q Hl); [reflexivity|]. apply is_pre_snoc_wrongbit. exact Eb.
    - destruct (nlookup l q); [reflexivity|]. symmetry.
      apply (nlookup_notpre _ h q Hh), is_pre_snoc_wrongbit. exact Eb.
  Qed.

  Lemma nlookup_child : forall cp d ps l h l' h' p v,
    beq cp p = false -> wf (cp ++ [false]) l' -> wf (cp ++ [true]) h' ->
    (if bitAt p (length cp + 1) then l' = l else h' = h) ->
    (forall q, nlookup (if bitAt p (length cp + 1) then h' else l') q =
               if beq p q then v else nlookup (if bitAt p (length cp + 1) then h else l) q) ->
    forall q, nlookup (Node cp d ps l' h') q = if beq p q then v else nlookup (Node cp d ps l h) q.
  Proof.
    intros cp d ps l h l' h' p v E Hl Hh Hsame Hupd q.
    destruct (beq p q) eqn:Eq.
    - apply beq_true_iff in Eq. subst q. rewrite nlookup_side by assumption.
      specialize (Hupd p). rewrite beq_refl in Hupd. exact Hupd.
    - cbn [nlookup]. specialize (Hupd q). rewrite Eq in Hupd.
      destruct (bitAt p (length cp + 1)); subst; rewrite Hupd; reflexivity.
  Qed.

  Lemma nlookup_newNode : forall p a q,
    nlookup (newNode bits P p a) q = if beq p q then Some [a] else None.
  Proof. intros p a q. apply (nlookup_node p false [a] Nil Nil q); exact I. Qed.

  Lemma wf_newNode : forall s p a, is_pre s p = true -> wf s (newNode bits P p a).
  Proof. intros s p a H. simpl. repeat split; auto. discriminate. Qed.

  (* what spec_add stores at p *)
  Definition add_result (old : option (list P)) (a : P) : list P :=
    match old with Some ps => ps ++ [a] | None => [a] end.

  Lemma insertBefore_ok : forall s n cp p a,
    is_pre s p = true -> wf (p ++ [bitAt cp (length p + 1)]) n ->
    let n' := insertBefore bits P bitAt blen n cp p a in
    wf s n' /\ forall q, nlookup n' q = if beq p q then Some [a] else nlookup n q.
  Proof.
    intros s n cp p a Hsp Hw. unfold insertBefore, blen.
    destruct (bitAt cp (length p + 1)); cbn [negb];
      (split; [simpl; repeat split; auto; discriminate|]);
      intros q; rewrite nlookup_node by (simpl; auto); cbn [nlookup];
      destruct (beq p q); auto; destruct (nlookup n q); reflexivity.
  Qed.

  Lemma newSuperNode_ok : forall s n cp p a,
    is_pre s p = true -> is_pre s cp = true ->
    is_pre cp p = false -> is_pre p cp = false ->
    wf cp n ->
    let n' := newSuperNode bits P lcp bitAt blen n cp p a in
    wf s n' /\ forall q, nlookup n' q = if beq p q then Some [a] else nlookup n q.
  Proof.
    intros s n cp p a Hsp Hsc Hcp Hpc Hwf.
    destruct (lcp_diverge p cp Hpc Hcp) as (Nsp & Nsc & Hbits).
    pose proof (wf_newNode _ p a (is_pre_snoc _ _ (proj1 (lcp_pre p cp)) Nsp)) as Hnew.
    pose proof (wf_weaken _ _ n Hwf (is_pre_snoc _ _ (proj2 (lcp_pre p cp)) Nsc)) as Hw.
    unfold newSuperNode, blen. set (k := lcp p cp) in *.
    assert (Hk : nlookup n k = None) by (apply (nlookup_notpre _ n k Hw), is_pre_snoc_self).
    assert (Hp : nlookup n p = None).
    { apply (nlookup_notpre _ n p Hw), is_pre_snoc_wrongbit. exact Hbits. }
    assert (Hss : is_pre s k = true) by (apply lcp_greatest; assumption).
    rewrite Hbits in *.
    destruct (bitAt cp (length k + 1)); cbn [negb fst snd] in *;
      (split; [simpl; auto|]);
      intros q; rewrite nlookup_node, nlookup_newNode by auto;
      destruct (beq k q) eqn:E1.
    1, 3: apply beq_true_iff in E1; subst q; rewrite (proj2 (beq_false_iff p k)) by congruence;
      symmetry; exact Hk.
    - destruct (beq p q); reflexivity.
    - destruct (beq p q) eqn:E0.
      + apply beq_true_iff in E0. subst q. rewrite Hp. reflexivity.
      + destruct (nlookup n q); reflexivity.
  Qed.

  Lemma addPath_ok : forall n s p a,
    wf s n -> is_pre s p = true ->
    wf s (fst (b_addPath P n p a)) /\
    (forall q, nlookup (fst (b_addPath P n p a)) q =
               if beq p q then Some (add_result (nlookup n p) a) else nlookup n q) /\
    snd (b_addPath P n p a) = match nlookup n p with Some _ => false | None => true end.
  Proof.
    unfold b_addPath.
    induction n as [|cp d ps l IHl h IHh]; intros s p a Hwf Hsp.
    - cbn [addPath fst snd]. split; [apply wf_newNode; auto|]. split; auto.
      intros q. rewrite nlookup_newNode. reflexivity.
    - cbn [addPath]. change (blen cp) with (length cp).
      pose proof Hwf as (H1 & H2 & H3 & H4).
      destruct (beq cp p) eqn:E1.
      + (* the node itself *)
        apply beq_true_iff in E1. subst cp. cbn [fst snd]. rewrite nlookup_here.
        split; [simpl; repeat split; auto; discriminate|]. split.
        * intros q. cbn [nlookup]. destruct (beq p q); auto.
          destruct d; auto. rewrite H2 by reflexivity. reflexivity.
        * destruct d; reflexivity.
      + destruct (bcontains cp p) eqn:E2; cbn [negb].
        * (* descend *)
          apply bcontains_iff in E2. destruct E2 as [Hpre Hne].
          pose proof (is_pre_snoc _ _ Hpre Hne) as Hside.
          rewrite (nlookup_side _ _ _ _ _ _ E1 H3 H4).
          destruct (bitAt p (length cp + 1)) eqn:Eb; cbn [negb].
          -- destruct (IHh _ p a H4 Hside) as (W & L & S).
             destruct (addPath bits P beq bcontains lcp bitAt blen h p a) as [h' isNew].
             cbn [fst snd] in *. split; [simpl; auto|]. split; [|exact S].
             apply nlookup_child; rewrite ?Eb; auto.
          -- destruct (IHl _ p a H3 Hside) as (W & L & S).
             destruct (addPath bits P beq bcontains lcp bitAt blen l p a) as [l' isNew].
             cbn [fst snd] in *. split; [simpl; auto|]. split; [|exact S].
             apply nlookup_child; rewrite ?Eb; auto.
        * (* p is not below this node *)
          assert (Hcp : is_pre cp p = false) by (rewrite <- beq_or_bcontains, E1, E2; reflexivity).
          rewrite nlookup_off by exact Hcp. cbn [add_result].
          destruct (bcontains p cp) eqn:E3; cbn [fst snd].
          -- apply bcontains_iff in E3. destruct E3 as [Hpc Hne].
             destruct (insertBefore_ok s (Node cp d ps l h) cp p a Hsp) as (W & L); [|split; auto].
             eapply wf_root; [exact Hwf | apply is_pre_snoc; assumption].
          -- assert (Hpc : is_pre p cp = false) by (rewrite <- beq_or_bcontains, beq_sym, E1, E3; reflexivity).
             destruct (newSuperNode_ok s (Node cp d ps l h) cp p a Hsp H1 Hcp Hpc) as (W & L);
               [|split; auto].
             exact (wf_root _ _ _ _ _ _ _ Hwf (is_pre_refl cp)).
  Qed.

  (* what spec_remove leaves at p *)
  Definition rem_result (old : option (list P)) (a : P) : option (list P) :=
    match old with
    | None => None
    | Some ps => if is_nil P (remove_first P peq a ps) then None else Some (remove_first P peq a ps)
    end.

  Lemma is_nil_true : forall ps : list P, is_nil P ps = true -> ps = [].
  Proof. intros [|x ps] H; [reflexivity|discriminate]. Qed.

  Lemma upd_same : forall (A : Type) (f : bits -> A) p v,
    f p = v -> forall q, f q = if beq p q then v else f q.
  Proof. intros A f p v H q. destruct (beq p q) eqn:E; [apply beq_true_iff in E; subst|]; auto. Qed.

  Lemma removePath_ok : forall n s p a,
    wf s n ->
    wf s (fst (b_removePath P peq n p a)) /\
    (forall q, nlookup (fst (b_removePath P peq n p a)) q =
               if beq p q then rem_result (nlookup n p) a else nlookup n q) /\
    snd (b_removePath P peq n p a) =
      match nlookup n p with
      | Some ps => is_nil P (remove_first P peq a ps)
      | None => false
      end.
  Proof.
    induction n as [|cp d ps l IHl h IHh]; intros s p a Hwf.
    - cbn. split; auto. split; auto. intros q. destruct (beq p q); reflexivity.
    - pose proof Hwf as (H1 & H2 & H3 & H4).
      unfold b_removePath in *. cbn [removePath]. change (blen cp) with (length cp).
      destruct (beq cp p) eqn:E1.
      + apply beq_true_iff in E1. subst cp. rewrite nlookup_here. destruct d; cbn [fst snd rem_result].
        * split; auto. split; auto. exact (upd_same _ _ p None (nlookup_here p true ps l h)).
        * split.
          { simpl. repeat split; auto. intros Hd.
            destruct (is_nil P (remove_first P peq a ps)) eqn:En; [|discriminate].
            apply is_nil_true; auto. }
          split; auto. intros q. cbn [nlookup]. destruct (beq p q); auto.
          destruct (is_nil P (remove_first P peq a ps)); reflexivity.
      + rewrite (nlookup_side _ _ _ _ _ _ E1 H3 H4).
        destruct (bitAt p (length cp + 1)) eqn:Eb; cbn [negb].
        * destruct (IHh _ p a H4) as (W & L & S).
          destruct (removePath bits P peq beq bitAt blen h p a) as [h' fin].
          cbn [fst snd] in *. split; [simpl; auto|]. split; [|exact S].
          apply nlookup_child; rewrite ?Eb; auto.
        * destruct (IHl _ p a H3) as (W & L & S).
          destruct (removePath bits P peq beq bitAt blen l p a) as [l' fin].
          cbn [fst snd] in *. split; [simpl; auto|]. split; [|exact S].
          apply nlookup_child; rewrite ?Eb; auto.
  Qed.

  Lemma get_ok : forall n s q,
    wf s n ->
    b_get P n q = match nlookup n q with Some ps => Some (q, ps) | None => None end.
  Proof.
    induction n as [|cp d ps l IHl h IHh]; intros s q Hwf; [reflexivity|].
    destruct Hwf as (H1 & H2 & H3 & H4).
    unfold b_get in *. cbn [get].
    change (blen cp) with (length cp). change (blen q) with (length q).
    destruct (beq cp q) eqn:E1.
    - apply beq_true_iff in E1. subst. rewrite nlookup_here. destruct d; reflexivity.
    - destruct (Nat.ltb_spec (length q) (length cp)) as [El | El].
      + (* too short to lie below this node *)
        rewrite nlookup_off by (apply is_pre_longer, El). reflexivity.
      + rewrite (nlookup_side _ _ _ _ _ _ E1 H3 H4).
        destruct (bitAt q (length cp + 1)); cbn [negb]; eauto.
  Qed.

  (* what spec_subst leaves at p *)
  Definition subst_result (old : option (list P)) (o nw : P) : option (list P) :=
    match old with
    | None => None
    | Some ps => Some (subst_first P peq o nw ps)
    end.

  Lemma substPath_ok : forall n s p o nw,
    wf s n ->
    wf s (b_substPath P peq n p o nw) /\
    (forall q, nlookup (b_substPath P peq n p o nw) q =
               if beq p q then subst_result (nlookup n p) o nw else nlookup n q).
  Proof.
    induction n as [|cp d ps l IHl h IHh]; intros s p o nw Hwf.
    - cbn. split; auto. intros q. destruct (beq p q); reflexivity.
    - pose proof Hwf as (H1 & H2 & H3 & H4).
      unfold b_substPath in *. cbn [substPath].
      change (blen cp) with (length cp). change (blen p) with (length p).
      destruct (beq cp p) eqn:E1.
      + apply beq_true_iff in E1. subst cp. rewrite nlookup_here. destruct d; cbn [subst_result].
        * split; auto. exact (upd_same _ _ p None (nlookup_here p true ps l h)).
        * split; [simpl; repeat split; auto; discriminate|].
          intros q. cbn [nlookup]. destruct (beq p q); reflexivity.
      + destruct (Nat.ltb_spec (length p) (length cp)) as [El | El].
        * (* too short to lie below this node *)
          split; [exact Hwf|]. apply upd_same.
          rewrite nlookup_off by (apply is_pre_longer, El). reflexivity.
        * rewrite (nlookup_side _ _ _ _ _ _ E1 H3 H4).
          destruct (bitAt p (length cp + 1)) eqn:Eb; cbn [negb].
          -- destruct (IHh _ p o nw H4) as (W & L). split; [simpl; auto|].
             apply nlookup_child; rewrite ?Eb; auto.
          -- destruct (IHl _ p o nw H3) as (W & L). split; [simpl; auto|].
             apply nlookup_child; rewrite ?Eb; auto.
  Qed.

  Lemma lookup_dump : forall n s q, wf s n -> lookup (b_dump P n) q = nlookup n q.
  Proof.
    induction n as [|cp d ps l IHl h IHh]; intros s q Hwf; [reflexivity|].
    destruct Hwf as (H1 & H2 & H3 & H4). unfold b_dump in *. cbn [dump].
    rewrite nlookup_node, !lookup_app, (IHl _ q H3), (IHh _ q H4) by assumption.
    destruct d; simpl; destruct (beq cp q) eqn:E; try reflexivity.
    apply beq_true_iff in E. subst q.
    rewrite (nlookup_notpre _ l cp H3), (nlookup_notpre _ h cp H4) by apply is_pre_snoc_self.
    reflexivity.
  Qed.

  Lemma dump_keys_pre : forall n s k,
    wf s n -> In k (map fst (b_dump P n)) -> is_pre s k = true.
  Proof.
    intros n s k Hwf Hin. destruct (is_pre s k) eqn:E; [reflexivity|].
    destruct (lookup_None_notin (b_dump P n) k); [|exact Hin].
    rewrite (lookup_dump n s k Hwf). exact (nlookup_notpre s n k Hwf E).
  Qed.

  Lemma dump_NoDup : forall n s, wf s n -> NoDup (map fst (b_dump P n)).
  Proof.
    induction n as [|cp d ps l IHl h IHh]; intros s Hwf; [constructor|].
    destruct Hwf as (H1 & H2 & H3 & H4).
    unfold b_dump in *. cbn [dump]. rewrite !map_app.
    apply NoDup_app.
    - destruct d; simpl; repeat constructor. intros [].
    - apply NoDup_app; eauto.
      intros k Hl Hh.
      pose proof (dump_keys_pre l _ k H3 Hl) as A. pose proof (dump_keys_pre h _ k H4 Hh) as B.
      pose proof (is_pre_snoc_other cp false k A) as C. cbn [negb] in C. congruence.
    - intros k Hk Hin. destruct d; [contradiction|]. destruct Hk as [<-|[]].
      apply in_app_or in Hin. destruct Hin as [Hin|Hin].
      + pose proof (dump_keys_pre l _ _ H3 Hin) as A. rewrite is_pre_snoc_self in A. discriminate.
      + pose proof (dump_keys_pre h _ _ H4 Hin) as A. rewrite is_pre_snoc_self in A. discriminate.
  Qed.

  Lemma covering_is_pre : forall q e, covering P q e = is_pre (fst e) q.
  Proof. intros q e. apply beq_or_bcontains. Qed.

  Lemma covered_is_pre : forall q e, covered P q e = is_pre q (fst e).
  Proof. intros q e. unfold covered. rewrite beq_sym. apply beq_or_bcontains. Qed.

  Lemma pre_covering : forall q e, is_pre (fst e) q = true -> covering P q e = true.
  Proof. intros q e H. rewrite covering_is_pre. exact H. Qed.

  Lemma covering_below : forall cp b c q,
    wf (cp ++ [b]) c -> bcontains cp q = false -> filter (covering P q) (dump bits P c) = [].
  Proof.
    intros cp b c q Hc Hq. apply filter_none. intros e He.
    destruct (covering P q e) eqn:C; [exfalso | reflexivity]. rewrite covering_is_pre in C.
    pose proof (is_pre_trans _ _ _ (dump_keys_pre c _ _ Hc (in_map fst _ _ He)) C) as Hk.
    apply is_pre_snoc_inv in Hk. destruct Hk as (A & B & _).
    rewrite (proj2 (bcontains_iff cp q)) in Hq by auto. discriminate.
  Qed.

  Lemma lpm_filter : forall n s q,
    wf s n -> b_lpm P n q = filter (covering P q) (b_dump P n).
  Proof.
    induction n as [|cp d ps l IHl h IHh]; intros s q Hwf; [reflexivity|].
    destruct Hwf as (H1 & H2 & H3 & H4).
    unfold b_lpm, b_dump in *. cbn [lpm dump]. rewrite !filter_app. unfold broute, route in *.
    destruct (bcontains cp q) eqn:E2; cbn [negb].
    - assert (E1 : beq cp q = false) by (apply beq_false_iff; apply bcontains_iff in E2; tauto).
      rewrite E1, <- (IHl _ q H3), <- (IHh _ q H4). cbn [andb].
      destruct d; auto. simpl. unfold covering at 1. simpl. rewrite E2, orb_true_r. reflexivity.
    - rewrite (covering_below cp false l q H3 E2), (covering_below cp true h q H4 E2).
      destruct d; cbn [negb]; rewrite ?andb_false_r, ?andb_true_r; [reflexivity|].
      simpl. unfold covering. simpl. rewrite E2, orb_false_r. destruct (beq cp q); reflexivity.
  Qed.

  Lemma covered_below : forall cp b c q,
    wf (cp ++ [b]) c -> is_pre (cp ++ [b]) q = false -> is_pre q cp = false ->
    filter (covered P q) (dump bits P c) = [].
  Proof.
    intros cp b c q Hc Hbq Hqc. apply filter_none. intros e He.
    destruct (covered P q e) eqn:C; [exfalso | reflexivity]. rewrite covered_is_pre in C.
    pose proof (dump_keys_pre c _ _ Hc (in_map fst _ _ He)) as Hk.
    destruct (is_pre_comparable _ _ _ (is_pre_snoc_l _ _ _ Hk) C) as [Hcq | F]; [|congruence].
    assert (Hne : cp <> q) by (intros ->; rewrite is_pre_refl in Hqc; discriminate).
    pose proof (is_pre_snoc _ _ Hcq Hne) as Hside.
    apply is_pre_snoc_inv in Hk. destruct Hk as (_ & _ & Hk).
    pose proof (is_pre_snoc_inv _ _ _ (is_pre_trans _ _ _ Hside C)) as (_ & _ & Hk').
    congruence.
  Qed.

  Lemma longer_filter : forall n s q,
    wf s n -> b_dump P (b_getLongerNode P n q) = filter (covered P q) (b_dump P n).
  Proof.
    induction n as [|cp d ps l IHl h IHh]; intros s q Hwf; [reflexivity|].
    pose proof Hwf as (H1 & H2 & H3 & H4).
    unfold b_getLongerNode, b_dump in *. cbn [getLongerNode].
    change (blen cp) with (length cp).
    destruct (beq cp q || bcontains q cp) eqn:E1.
    - (* the whole subtree is inside q *)
      symmetry. apply filter_all. intros e He. rewrite covered_is_pre.
      rewrite beq_sym, beq_or_bcontains in E1.
      eapply is_pre_trans; [exact E1|].
      apply (dump_keys_pre (Node cp d ps l h) cp); [|apply in_map, He].
      eapply wf_root; [exact Hwf | apply is_pre_refl].
    - cbn [dump]. rewrite !filter_app. unfold broute, route in *.
      assert (Hhead : filter (covered P q) (if d then [] else [(cp, ps)]) = []).
      { destruct d; auto. simpl. unfold covered. simpl. rewrite E1. reflexivity. }
      rewrite Hhead. cbn [app].
      assert (Hqc : is_pre q cp = false) by (rewrite <- beq_or_bcontains, beq_sym; exact E1).
      apply orb_false_iff in E1. destruct E1 as [E1 _].
      destruct (bcontains cp q) eqn:E2; cbn [negb].
      + apply bcontains_iff in E2. destruct E2 as [Hpre Hne].
        pose proof (is_pre_snoc _ _ Hpre Hne) as Hside.
        destruct (bitAt q (length cp + 1)) eqn:Eb.
        * rewrite (covered_below cp false l q H3 (is_pre_snoc_other _ true _ Hside) Hqc).
          apply (IHh _ q H4).
        * rewrite (covered_below cp true h q H4 (is_pre_snoc_other _ false _ Hside) Hqc), app_nil_r.
          apply (IHl _ q H3).
      + assert (Hcq : is_pre cp q = false) by (rewrite <- beq_or_bcontains, E1, E2; reflexivity).
        rewrite (covered_below cp false l q H3), (covered_below cp true h q H4)
          by auto using not_pre_snoc.
        reflexivity.
  Qed.

  Local Notation rootT := (root bits P).
  Local Notation countT := (count bits P).

  (* the table stands for the map: a well-formed tree with the map's lookups; the map lists no key
     twice and, since removal of the last path turns a node into a dummy, holds no empty path
     list, which is what makes the count of non-dummy transitions the length of the map *)
  Definition Inv (t : btable P) (m : smap) : Prop :=
    wf [] (rootT t) /\
    (forall q, nlookup (rootT t) q = lookup m q) /\
    NoDup (map fst m) /\
    (forall q ps, lookup m q = Some ps -> ps <> []) /\
    countT t = Z.of_nat (length m).

  Lemma Inv_empty : Inv (b_empty P) [].
  Proof.
    unfold Inv. simpl. repeat split; auto. constructor. intros q ps H. discriminate.
  Qed.

  Lemma Inv_equiv : forall t m1 m2,
    Inv t m1 -> NoDup (map fst m2) -> (forall q, lookup m1 q = lookup m2 q) -> Inv t m2.
  Proof.
    intros t m1 m2 (W & L & N & E & C) N2 H.
    unfold Inv. repeat split; auto.
    - intros q. rewrite L. apply H.
    - intros q ps Hq. rewrite <- H in Hq. eauto.
    - rewrite C. f_equal. apply Permutation_length. apply equiv_perm; auto.
  Qed.

  Lemma Inv_add : forall t m p a,
    Inv t m -> Inv (t_addPath bits P beq bcontains lcp bitAt blen t p a) (spec_add P m p a).
  Proof.
    intros t m p a (W & L & N & E & C).
    destruct (addPath_ok (rootT t) [] p a W eq_refl) as (W' & L' & S').
    unfold t_addPath, b_addPath in *.
    destruct (addPath bits P beq bcontains lcp bitAt blen (rootT t) p a) as [r isNew].
    cbn [fst snd] in *. unfold Inv, spec_add. cbn [root count].
    split; auto. split; [|split; [|split]].
    - intros q. rewrite L', lookup_set, !L. reflexivity.
    - apply set_NoDup; auto.
    - intros q ps. rewrite lookup_set. destruct (beq p q).
      + intros H. inversion H. destruct (lookup m p) as [l0|]; [|discriminate].
        destruct l0; discriminate.
      + eauto.
    - rewrite set_length, S', L, C. destruct (lookup m p); [reflexivity|].
      rewrite Nat2Z.inj_succ. reflexivity.
  Qed.

  Lemma Inv_remove : forall t m p a,
    Inv t m -> Inv (t_removePath bits P peq beq bitAt blen t p a) (spec_remove P peq m p a).
  Proof.
    intros t m p a (W & L & N & E & C).
    destruct (removePath_ok (rootT t) [] p a W) as (W' & L' & S').
    unfold t_removePath, b_removePath in *.
    destruct (removePath bits P peq beq bitAt blen (rootT t) p a) as [r fin].
    cbn [fst snd] in *. unfold Inv, spec_remove. cbn [root count].
    rewrite L in *. destruct (lookup m p) as [ps|] eqn:Hp; cbn [rem_result] in *.
    - destruct (is_nil P (remove_first P peq a ps)) eqn:En; subst fin.
      + split; auto. split; [|split; [|split]].
        * intros q. rewrite L', lookup_del, L by auto. reflexivity.
        * apply del_NoDup; auto.
        * intros q ps0. rewrite lookup_del by auto. destruct (beq p q); [discriminate|eauto].
        * rewrite C, (del_length m p ps N Hp), Nat2Z.inj_succ. lia.
      + split; auto. split; [|split; [|split]].
        * intros q. rewrite L', lookup_set, L. reflexivity.
        * apply set_NoDup; auto.
        * intros q ps0. rewrite lookup_set. destruct (beq p q); [|eauto].
          intros H. inversion H. subst ps0. intros Hnil. rewrite Hnil in En. discriminate.
        * rewrite set_length, Hp. exact C.
    - subst fin. split; auto. split; [|split; [|split]]; auto.
      intros q. rewrite L', L. symmetry. apply upd_same, Hp.
  Qed.

  Lemma subst_first_nonnil : forall o nw (ps : list P), ps <> [] -> subst_first P peq o nw ps <> [].
  Proof. intros o nw [|x ps] H; [contradiction|]. simpl. destruct (peq x o); discriminate. Qed.

  Lemma Inv_subst : forall t m p o nw,
    Inv t m -> Inv (t_substPath bits P peq beq bitAt blen t p o nw) (spec_subst P peq m p o nw).
  Proof.
    intros t m p o nw (W & L & N & E & C).
    destruct (substPath_ok (rootT t) [] p o nw W) as (W' & L').
    unfold t_substPath, b_substPath in *. unfold Inv, spec_subst. cbn [root count].
    rewrite L in *. destruct (lookup m p) as [ps|] eqn:Hp; cbn [subst_result] in *.
    - split; auto. split; [|split; [|split]].
      + intros q. rewrite L', lookup_set, L. reflexivity.
      + apply set_NoDup; auto.
      + intros q ps0. rewrite lookup_set. destruct (beq p q); [|eauto].
        intros H. inversion H. apply subst_first_nonnil. eauto.
      + rewrite set_length, Hp. exact C.
    - split; auto. split; [|split; [|split]]; auto.
      intros q. rewrite L', L. symmetry. apply upd_same, Hp.
  Qed.

  Definition spec_removeAll (m : smap) (p : bits) (xs : list P) : smap :=
    fold_left (fun m a => spec_remove P peq m p a) xs m.

  Lemma Inv_removePaths : forall xs t m p,
    Inv t m -> Inv (t_removePaths bits P peq beq bitAt blen t p xs) (spec_removeAll m p xs).
  Proof.
    unfold t_removePaths, spec_removeAll.
    induction xs as [|x xs IH]; intros t m p H; simpl; auto.
    apply IH. apply Inv_remove. exact H.
  Qed.

  (* removing, one after the other, all the paths stored for p empties p and nothing else *)
  Lemma removeAll_lookup : forall ps (m : smap) p,
    NoDup (map fst m) -> lookup m p = Some ps -> ps <> [] ->
    forall q, lookup (spec_removeAll m p ps) q = if beq p q then None else lookup m q.
  Proof.
    unfold spec_removeAll.
    induction ps as [|x xs IH]; intros m p N Hp Hne q; [contradiction|].
    simpl. unfold spec_remove at 2. rewrite Hp. simpl. rewrite peq_refl.
    destruct xs as [|y ys].
    - simpl. apply lookup_del; auto.
    - cbn [is_nil].
      rewrite (IH (set P m p (y :: ys)) p).
      + rewrite lookup_set. destruct (beq p q); reflexivity.
      + apply set_NoDup; auto.
      + rewrite lookup_set, beq_refl. reflexivity.
      + discriminate.
  Qed.

  Lemma t_get_ok : forall t m q,
    Inv t m ->
    bt_get P t q = match lookup m q with Some ps => Some (q, ps) | None => None end.
  Proof.
    intros t m q (W & L & _). unfold bt_get, t_get.
    pose proof (get_ok (rootT t) [] q W) as G. unfold b_get in G. rewrite G, L. reflexivity.
  Qed.

  Lemma Inv_removePfx : forall t m p,
    Inv t m -> Inv (t_removePfx bits P peq beq bitAt blen t p) (spec_removePfx P m p).
  Proof.
    intros t m p H. pose proof H as (W & L & N & E & C).
    unfold t_removePfx, spec_removePfx.
    pose proof (t_get_ok t m p H) as G. unfold bt_get in G. rewrite G.
    destruct (lookup m p) as [ps|] eqn:Hp.
    - cbn [snd].
      pose proof (Inv_removePaths ps t m p H) as H1.
      eapply Inv_equiv; [exact H1| apply del_NoDup; auto |].
      intros q. rewrite (removeAll_lookup ps m p N Hp (E _ _ Hp)), lookup_del by auto. reflexivity.
    - eapply Inv_equiv; [exact H| apply del_NoDup; auto |].
      intros q. rewrite lookup_del by auto. apply upd_same, Hp.
  Qed.

  (* the body of RoutingTable.ReplacePath is that of RemovePfx, then addPath *)
  Lemma Inv_replace : forall t m p a,
    Inv t m ->
    Inv (t_replacePath bits P peq beq bcontains lcp bitAt blen t p a) (spec_replace P m p a).
  Proof.
    intros t m p a H. pose proof H as (_ & _ & N & _).
    apply Inv_equiv with (m1 := spec_add P (spec_removePfx P m p) p a).
    - pose proof (Inv_add _ _ p a (Inv_removePfx t m p H)) as H2.
      unfold t_replacePath, t_removePfx in *.
      destruct (t_get bits P beq bitAt blen t p); exact H2.
    - apply set_NoDup, N.
    - intros q. unfold spec_add, spec_removePfx, spec_replace.
      rewrite !lookup_set, !lookup_del, beq_refl by exact N. destruct (beq p q); reflexivity.
  Qed.

  Lemma Inv_step : forall t m o, Inv t m -> Inv (b_step P peq t o) (spec_step P peq m o).
  Proof.
    intros t m [p a|p a|p a|p|p o nw] H; unfold b_step; simpl.
    - apply Inv_add; auto.
    - apply Inv_remove; auto.
    - apply Inv_replace; auto.
    - apply Inv_removePfx; auto.
    - apply Inv_subst; auto.
  Qed.

  Theorem Inv_run : forall ops, Inv (b_run P peq ops) (spec_run P peq ops).
  Proof. intros ops. apply (fold_left_sim _ _ Inv); [intros t m o _; apply Inv_step | apply Inv_empty]. Qed.

  Lemma Inv_dump : forall t m,
    Inv t m -> Permutation (bt_dump P t) m /\ NoDup (map fst (bt_dump P t)).
  Proof.
    intros t m (W & L & N & _). pose proof (dump_NoDup (rootT t) [] W) as ND.
    split; [|exact ND]. apply equiv_perm; auto.
    intros q. rewrite <- L. apply (lookup_dump (rootT t) [] q W).
  Qed.

  Theorem Inv_refines : forall t m q, Inv t m ->
    bt_get P t q = spec_get P m q /\
    Permutation (bt_lpm P t q) (spec_lpm P m q) /\
    Permutation (bt_getLonger P t q) (spec_longer P m q) /\
    Permutation (bt_dump P t) m /\ NoDup (map fst (bt_dump P t)) /\
    bt_count P t = Z.of_nat (length m).
  Proof.
    intros t m q H. destruct (Inv_dump t m H) as (D & ND). pose proof H as (W & _ & _ & _ & C).
    split; [apply t_get_ok, H|].
    unfold bt_lpm, t_lpm, bt_getLonger, t_getLonger.
    pose proof (lpm_filter (rootT t) [] q W) as F. pose proof (longer_filter (rootT t) [] q W) as G.
    unfold b_lpm, b_dump, b_getLongerNode in F, G. rewrite F, G.
    repeat split; auto; apply Permutation_filter, D.
  Qed.
End TrieProofs.
