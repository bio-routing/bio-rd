(* C11: the identifier map of the path-id manager (Model/PathIDs.v) as an association list, and the
   termination of its search loop. *)
From Coq Require Import List NArith Lia.
From Coq Require Import ZifyNat.
From BioVerif Require Import Lib.ListFacts Lib.KeyedTable Model.PathIDs.
Local Open Scope N_scope.

(* ids_get / ids_set / ids_del are KeyedTable's get / put / del over N.eqb *)
Lemma ids_get_cons : forall i j c m,
  ids_get i ((j, c) :: m) = if N.eqb j i then Some c else ids_get i m.
Proof. reflexivity. Qed.

Lemma ids_get_set : forall i j c m,
  ids_get j (ids_set i c m) = if N.eqb i j then Some c else ids_get j m.
Proof. intros. exact (get_put N.eqb_eq j i c m). Qed.

Lemma ids_get_del : forall i j m,
  ids_get j (ids_del i m) = if N.eqb i j then None else ids_get j m.
Proof. intros. exact (get_del N.eqb_eq j i m). Qed.

Lemma ids_set_keys : forall i c d m, ids_get i m = Some d -> map fst (ids_set i c m) = map fst m.
Proof. intros i c d m. exact (put_keys_present N.eqb i c m d). Qed.

Lemma ids_set_length : forall i c d m, ids_get i m = Some d -> length (ids_set i c m) = length m.
Proof.
  intros i c d m G. rewrite <- (map_length fst (ids_set i c m)), (ids_set_keys _ _ d) by exact G.
  apply map_length.
Qed.

Lemma ids_del_length : forall i c m,
  NoDup (map fst m) -> ids_get i m = Some c -> S (length (ids_del i m)) = length m.
Proof. intros i c m ND H. symmetry. exact (del_length N.eqb_eq i m c ND H). Qed.

Definition cands (fuel : nat) (cand : N) : list N :=
  map (fun j => (cand + N.of_nat j) mod w32) (seq 0 fuel).

Lemma cands_S : forall f cand,
  cand < w32 -> cands (S f) cand = cand :: cands f ((cand + 1) mod w32).
Proof.
  intros f cand Hc. unfold cands. cbn [seq map]. f_equal.
  - rewrite N.add_0_r. now apply N.mod_small.
  - rewrite <- seq_shift, map_map. apply map_ext. intros j.
    rewrite N.add_mod_idemp_l by discriminate. f_equal. lia.
Qed.

Lemma next_free_spec : forall fuel cand m, cand < w32 ->
  match next_free fuel cand m with
  | Some i => ids_get i m = None /\ i < w32
  | None => forall x, In x (cands fuel cand) -> In x (map fst m)
  end.
Proof.
  induction fuel as [|f IH]; intros cand m Hc; cbn [next_free]; [intros x []|].
  destruct (ids_get cand m) eqn:G; [|auto].
  specialize (IH ((cand + 1) mod w32) m). destruct (next_free f _ m); [now apply IH, N.mod_lt|].
  intros x Hx. rewrite cands_S in Hx by exact Hc. destruct Hx as [<-|Hx].
  - apply (get_in_keys N.eqb_eq). eauto.
  - apply IH; [now apply N.mod_lt|exact Hx].
Qed.

(* two offsets below 2^32 that agree modulo 2^32 are equal; lia sees that once w32 is the literal *)
Lemma cands_nodup : forall fuel cand, N.of_nat fuel <= w32 -> NoDup (cands fuel cand).
Proof.
  intros fuel cand Hf. apply Injective_map_NoDup_in; [|apply seq_NoDup].
  intros x y Hx Hy E. apply in_seq in Hx. apply in_seq in Hy. unfold w32 in *. lia.
Qed.

(* pigeonhole: fuel different candidates cannot all be among fewer than fuel identifiers *)
Lemma next_free_some : forall fuel cand m,
  cand < w32 -> N.of_nat fuel <= w32 -> (length m < fuel)%nat ->
  exists i, next_free fuel cand m = Some i.
Proof.
  intros fuel cand m Hc Hf Hl. pose proof (next_free_spec fuel cand m Hc) as FS.
  destruct (next_free fuel cand m); [eauto|]. exfalso.
  pose proof (NoDup_incl_length (cands_nodup fuel cand Hf) FS) as L.
  unfold cands in L. rewrite !map_length, seq_length in L. lia.
Qed.
