From Coq Require Import List Bool NArith Arith Lia ZifyBool.
Import ListNotations.
From BioVerif Require Import Lib.ListFacts Lib.KeyedTable Model.LSDB Spec.LSDBSpec.

Lemma id_eqb_eq : forall a b, id_eqb a b = true <-> a = b.
Proof.
  intros [sa pa na] [sb pb nb]. unfold id_eqb. cbn [sys pn num]. split.
  - intros H. f_equal; lia.
  - intros [= -> -> ->]. lia.
Qed.

Lemma id_eqb_refl : forall a, id_eqb a a = true.
Proof. exact (eqb_refl_of id_eqb_eq). Qed.

Lemma id_eqb_neq : forall a b, id_eqb a b = false <-> a <> b.
Proof. exact (eqb_neq_of id_eqb_eq). Qed.

Lemma id_eqb_sym : forall a b, id_eqb a b = id_eqb b a.
Proof. exact (eqb_sym_of id_eqb_eq). Qed.

Lemma id_leb_antisym : forall a b, id_leb a b = true -> id_leb b a = true -> a = b.
Proof. intros [sa pa na] [sb pb nb]. unfold id_leb. cbn [sys pn num]. intros H1 H2. f_equal; lia. Qed.

Lemma id_leb_total : forall a b, id_leb a b = true \/ id_leb b a = true.
Proof. intros [sa pa na] [sb pb nb]. unfold id_leb. cbn [sys pn num]. lia. Qed.

Lemma mem_In : forall i l, mem i l = true <-> In i l.
Proof.
  induction l as [| x r IH]; simpl.
  - split; [discriminate | contradiction].
  - rewrite orb_true_iff, IH, Nat.eqb_eq. tauto.
Qed.

Lemma set_add_In : forall i j l, In j (set_add i l) <-> In j l \/ j = i.
Proof.
  intros i j l. unfold set_add. destruct (mem i l) eqn:E.
  - apply mem_In in E. split; [auto | intros [H | H]; subst; auto].
  - simpl. split; intros [H | H]; auto.
Qed.

Lemma set_del_In : forall i j l, In j (set_del i l) <-> In j l /\ j <> i.
Proof.
  intros i j l. unfold set_del. rewrite filter_In, negb_true_iff, Nat.eqb_neq. tauto.
Qed.

Lemma lookup_store : forall k k' v t,
  lookup k (store k' v t) = if id_eqb k' k then Some v else lookup k t.
Proof. exact (get_put id_eqb_eq). Qed.

Lemma lookup_store_same : forall k v t, lookup k (store k v t) = Some v.
Proof. intros. rewrite lookup_store, id_eqb_refl. reflexivity. Qed.

Lemma lookup_store_other : forall k k' v t, k' <> k -> lookup k (store k' v t) = lookup k t.
Proof. intros k k' v t H. apply id_eqb_neq in H. rewrite lookup_store, H. reflexivity. Qed.

Lemma lookup_map : forall (f : lspid * entry -> lspid * entry) k t,
  (forall kv, fst (f kv) = fst kv) ->
  lookup k (map f t) = match lookup k t with Some e => Some (snd (f (k, e))) | None => None end.
Proof.
  intros f k t Hf. induction t as [| [k' v'] r IH]; simpl; auto.
  pose proof (Hf (k', v')) as H1. destruct (f (k', v')) as [k2 v2] eqn:Ef. simpl in H1. subst k2.
  destruct (id_eqb k' k) eqn:E.
  - apply id_eqb_eq in E. subst k'. rewrite Ef. reflexivity.
  - exact IH.
Qed.

(* The case analyses of [recv_lsp] and [snp_entry] are made once, here: every reception stores one entry
   computed from the copy the database has. [local_newer] (the PDU is a newer copy of the own LSP, or the
   database has none) is also the guard in C32_highest_seq_kept and C32_flag_rules. *)
Definition local_newer (s : srv) (k : lspid) (sq : N) : bool :=
  id_eqb k (local_id s) && match lookup k (db s) with None => true | Some e => seq e <? sq end.

(* processNewerLSPDU: flooded to every other circuit, acknowledged on circuit i *)
Definition flooded (s : srv) (i : nat) (sq lt : N) : entry :=
  set_ssn i (clear_srm i (set_srm_all s (all_ifs_except s i) (mkE sq lt [] []))).

Definition lsp_entry (s : srv) (i : nat) (sq lt : N) (cur : option entry) : entry :=
  match cur with
  | None => flooded s i sq lt
  | Some e => if seq e <? sq then flooded s i sq lt
              else if sq =? seq e then set_ssn i (clear_srm i e) else clear_ssn i (set_srm s i e)
  end.

Lemma recv_lsp_eq : forall s i k sq lt,
  recv_lsp s i k sq lt =
  if local_newer s k sq then mkS (ifs s) (own s) (db s) (N.max (counter s) sq) true
  else with_db s (store k (lsp_entry s i sq lt (lookup k (db s))) (db s)).
Proof.
  intros. unfold recv_lsp, local_newer, lsp_entry, flooded. destruct (_ && _); [reflexivity |].
  destruct (lookup k (db s)) as [e |]; [| reflexivity].
  destruct (seq e <? sq); [reflexivity |]. destruct (sq =? seq e); reflexivity.
Qed.

Lemma recv_lsp_lookup : forall s i k sq lt k',
  lookup k' (db (recv_lsp s i k sq lt)) =
  if local_newer s k sq then lookup k' (db s)
  else if id_eqb k k' then Some (lsp_entry s i sq lt (lookup k (db s))) else lookup k' (db s).
Proof. intros. rewrite recv_lsp_eq. destruct (local_newer s k sq); [reflexivity | apply lookup_store]. Qed.

Definition snp_new (s : srv) (i : nat) (sq lt : N) (cur : option entry) : entry :=
  match cur with
  | None => mkE 0 lt [] [i]
  | Some e => if sq =? seq e then clear_srm i e
              else if sq <? seq e then set_srm s i (clear_ssn i e) else set_ssn i (clear_srm i e)
  end.

Lemma snp_entry_eq : forall s i k sq lt,
  snp_entry s i (k, sq, lt) = with_db s (store k (snp_new s i sq lt (lookup k (db s))) (db s)).
Proof.
  intros. unfold snp_entry, snp_new. destruct (lookup k (db s)) as [e |]; [| reflexivity].
  destruct (sq =? seq e); [reflexivity |]. destruct (sq <? seq e); reflexivity.
Qed.

Definition same_copy (e e' : entry) : Prop := seq e' = seq e /\ life e' = life e.

Lemma set_srm_fields : forall s i e,
  same_copy e (set_srm s i e) /\ ssn (set_srm s i e) = ssn e.
Proof. intros s i e. unfold set_srm, same_copy. destruct (_ && _); auto. Qed.

Lemma set_srm_all_fields : forall s l e,
  same_copy e (set_srm_all s l e) /\ ssn (set_srm_all s l e) = ssn e.
Proof.
  induction l as [| j r IH]; intros e; cbn [set_srm_all]; [unfold same_copy; auto |].
  destruct (IH (set_srm s j e)) as ([H1 H2] & H3). destruct (set_srm_fields s j e) as ([G1 G2] & G3).
  unfold same_copy. rewrite H1, H2, H3. auto.
Qed.

Lemma lsp_entry_copy : forall s i sq lt cur,
  let e' := lsp_entry s i sq lt cur in
  match cur with
  | None => seq e' = sq /\ life e' = lt
  | Some e => seq e' = N.max (seq e) sq /\ life e' = (if seq e <? sq then lt else life e)
  end.
Proof.
  intros s i sq lt cur. unfold lsp_entry, flooded.
  destruct (set_srm_all_fields s (all_ifs_except s i) (mkE sq lt [] [])) as ([H1 H2] & _).
  destruct cur as [e |]; cbn [seq life set_ssn clear_srm] in *; [| auto].
  destruct (seq e <? sq) eqn:E1; cbn [seq life set_ssn clear_srm]; [split; [lia | assumption] |].
  destruct (sq =? seq e) eqn:E2; cbn [seq life set_ssn clear_srm clear_ssn]; [split; [lia | reflexivity] |].
  destruct (set_srm_fields s i e) as ([G1 G2] & _). split; [lia | assumption].
Qed.

Lemma snp_new_copy : forall s i sq lt e, same_copy e (snp_new s i sq lt (Some e)).
Proof.
  intros. unfold snp_new. destruct (sq =? seq e); [split; reflexivity |].
  destruct (sq <? seq e); [| split; reflexivity]. apply (set_srm_fields s i (clear_ssn i e)).
Qed.

Lemma csnp_missing_cases : forall (P : lspid * entry -> Prop) s i lo hi l k e,
  P (k, e) -> P (k, set_srm s i e) -> P (csnp_missing s i lo hi l (k, e)).
Proof.
  intros P s i lo hi l k e H1 H2. unfold csnp_missing.
  destruct ((life e =? 0) || (seq e =? 0)); auto.
  destruct (negb (id_leb lo k && id_leb k hi)); auto.
  destruct (mentioned k l); auto.
Qed.

Lemma csnp_missing_key : forall s i lo hi l kv, fst (csnp_missing s i lo hi l kv) = fst kv.
Proof. intros s i lo hi l [k e]. apply csnp_missing_cases; reflexivity. Qed.

Lemma csnp_missing_copy : forall s i lo hi l k e,
  same_copy e (snd (csnp_missing s i lo hi l (k, e))).
Proof. intros. apply csnp_missing_cases; [split; reflexivity | apply set_srm_fields]. Qed.

Lemma snp_entries_db : forall l s i, exists d, snp_entries s i l = with_db s d.
Proof.
  intros l s i. apply (fold_left_invariant _ (fun s' => exists d, s' = with_db s d));
    [| exists (db s); destruct s; reflexivity].
  intros a [[k sq] lt] _ [d ->]. rewrite snp_entry_eq. eexists. reflexivity.
Qed.

Definition aged (e : entry) : option entry :=
  if life e <=? 1 then None else Some (mkE (seq e) (life e - 1) (srm e) (ssn e)).

Lemma age_eq : forall o t,
  age o t = (sweep (fun _ => aged) t,
             existsb (fun kv => id_eqb (fst kv) o && (life (snd kv) <? refresh_threshold)) t).
Proof.
  induction t as [| [k e] r IH]; [reflexivity |]. cbn [age sweep existsb fst snd]. rewrite IH. unfold aged.
  destruct (life e <=? 1); reflexivity.
Qed.

Lemma tick_eq : forall s,
  tick s = mkS (ifs s) (own s) (fst (age (local_id s) (db s))) (counter s)
               (pending s || snd (age (local_id s) (db s))).
Proof. intros. unfold tick. destruct (age _ _). reflexivity. Qed.

Definition wf (s : srv) : Prop := NoDup (map fst (db s)).

Lemma snp_entries_wf : forall l s i, wf s -> wf (snp_entries s i l).
Proof.
  intros l s i. apply (fold_left_invariant _ wf). clear s. intros s [[k sq] lt] _ H.
  rewrite snp_entry_eq. apply (put_nodup id_eqb_eq), H.
Qed.

Lemma regen_wf : forall s, wf s -> wf (regen s).
Proof. intros s H. apply (put_nodup id_eqb_eq), H. Qed.

Lemma step_wf : forall s e, wf s -> wf (step s e).
Proof.
  intros s e H. destruct e as [i k sq lt | i lo hi l | i l | | | | | |]; cbn [step]; try exact H.
  - rewrite recv_lsp_eq. destruct (local_newer s k sq); [exact H | apply (put_nodup id_eqb_eq), H].
  - unfold recv_csnp, wf. cbn [db with_db]. rewrite map_map, (map_ext _ fst) by apply csnp_missing_key.
    apply snp_entries_wf, H.
  - apply snp_entries_wf, H.
  - rewrite tick_eq, age_eq. apply sweep_nodup, H.
  - unfold service. destruct (pending s); [apply regen_wf |]; exact H.
  - apply regen_wf, H.
  - unfold wf, clear_all_ssn. cbn [db with_db]. rewrite map_map. exact H.
Qed.

Lemma init_wf : forall ifaces o, wf (init ifaces o).
Proof. intros ifaces o. apply regen_wf, regen_wf. constructor. Qed.

Lemma step_frame : forall s ev,
  local_id (step s ev) = local_id s /\
  match ev with
  | RecvLSP _ k sq _ => counter (step s ev) = if local_newer s k sq then N.max (counter s) sq else counter s
  | Service | Regen => True
  | _ => counter (step s ev) = counter s
  end.
Proof.
  intros s ev. destruct ev as [i k sq lt | i lo hi l | i l | | | | | |]; cbn [step]; try (split; reflexivity).
  - rewrite recv_lsp_eq. destruct (local_newer s k sq); split; reflexivity.
  - unfold recv_csnp. destruct (snp_entries_db l s i) as [d ->]. split; reflexivity.
  - unfold recv_psnp. destruct (snp_entries_db l s i) as [d ->]. split; reflexivity.
  - rewrite tick_eq. split; reflexivity.
  - unfold service. destruct (pending s); split; reflexivity.
Qed.

Lemma step_local_id : forall s e, local_id (step s e) = local_id s.
Proof. intros s e. apply step_frame. Qed.

Lemma run_local_id : forall evs s, local_id (run s evs) = local_id s.
Proof.
  intros evs s. apply (fold_left_invariant step (fun s' => local_id s' = local_id s)); [| reflexivity].
  intros a e _ <-. apply step_local_id.
Qed.

(* None: a copy that appears comes from an SNP entry, with sequence number 0 *)
Definition kept (o o' : option entry) : Prop :=
  match o with
  | Some e => exists e', o' = Some e' /\ same_copy e e'
  | None => forall e', o' = Some e' -> seq e' = 0
  end.

Lemma kept_refl : forall o, kept o o.
Proof. intros [e |]; cbn; [exists e; split; [| split]; reflexivity | discriminate]. Qed.

Lemma kept_trans : forall o1 o2 o3, kept o1 o2 -> kept o2 o3 -> kept o1 o3.
Proof.
  intros [e1 |] o2 o3; cbn.
  - intros (e2 & -> & S1 & L1) (e3 & -> & S2 & L2). exists e3. split; [reflexivity |]. split; congruence.
  - intros H1 H2 e3 ->. destruct o2 as [e2 |]; cbn in H2.
    + destruct H2 as (e3' & [= <-] & S2 & _). rewrite S2. apply H1. reflexivity.
    + apply H2. reflexivity.
Qed.

Lemma kept_bound : forall o o' c, kept o o' -> (forall e, o = Some e -> seq e <= c) ->
  forall e', o' = Some e' -> seq e' <= c.
Proof.
  intros [e |] o' c; cbn.
  - intros (e1 & -> & Hs & _) H e' [= <-]. rewrite Hs. apply H. reflexivity.
  - intros H _ e' He'. rewrite (H e' He'). lia.
Qed.

Lemma snp_entries_kept : forall l s i k, kept (lookup k (db s)) (lookup k (db (snp_entries s i l))).
Proof.
  induction l as [| [[k' sq] lt] r IH]; intros s i k; [apply kept_refl |].
  unfold snp_entries in *. cbn [fold_left]. eapply kept_trans; [| apply IH].
  rewrite snp_entry_eq. cbn [db with_db]. rewrite lookup_store.
  destruct (id_eqb k' k) eqn:E; [| apply kept_refl]. apply id_eqb_eq in E. subst k'.
  destruct (lookup k (db s)) as [e |]; cbn [kept].
  - eexists. split; [reflexivity | apply snp_new_copy].
  - intros e' [= <-]. reflexivity.
Qed.

Lemma map_kept : forall (f : lspid * entry -> lspid * entry) k t,
  (forall kv, fst (f kv) = fst kv) -> (forall k e, same_copy e (snd (f (k, e)))) ->
  kept (lookup k t) (lookup k (map f t)).
Proof.
  intros f k t Hk Hc. rewrite lookup_map by exact Hk.
  destruct (lookup k t) as [e |]; cbn [kept]; [| discriminate]. eexists. split; [reflexivity | apply Hc].
Qed.

Lemma step_kept : forall s ev k,
  match ev with
  | RecvLSP _ _ _ _ | Tick | Service | Regen => True
  | _ => kept (lookup k (db s)) (lookup k (db (step s ev)))
  end.
Proof.
  intros s ev k. destruct ev as [i k' sq lt | i lo hi l | i l | | | | | |]; cbn [step]; trivial;
    try apply kept_refl.
  - unfold recv_csnp. cbn [db with_db]. eapply kept_trans; [apply (snp_entries_kept l s i) |].
    apply map_kept; intros; [apply csnp_missing_key | apply csnp_missing_copy].
  - apply snp_entries_kept.
  - apply map_kept; intros; [| split]; reflexivity.
Qed.

(* a newer copy of the own LSP is not installed ([local_newer]) *)
Lemma recv_lsp_own : forall s i k sq lt,
  kept (lookup (local_id s) (db s)) (lookup (local_id s) (db (recv_lsp s i k sq lt))).
Proof.
  intros s i k sq lt. rewrite recv_lsp_lookup. destruct (local_newer s k sq) eqn:Eln; [apply kept_refl |].
  destruct (id_eqb k (local_id s)) eqn:E; [| apply kept_refl]. apply id_eqb_eq in E. subst k.
  unfold local_newer in Eln. rewrite id_eqb_refl in Eln.
  destruct (lookup (local_id s) (db s)) as [e |]; [| discriminate]. cbn in Eln.
  destruct (lsp_entry_copy s i sq lt (Some e)) as [Hs Hl]. rewrite Eln in Hl.
  eexists. split; [reflexivity |]. split; [lia | exact Hl].
Qed.

Lemma tick_lookup : forall s k, wf s ->
  lookup k (db (tick s)) =
  match lookup k (db s) with None => None | Some e => aged e end.
Proof. intros s k H. rewrite tick_eq, age_eq. exact (get_sweep id_eqb_eq _ _ k H). Qed.

Lemma regen_lookup_other : forall s k, k <> local_id s -> lookup k (db (regen s)) = lookup k (db s).
Proof.
  intros s k H. unfold regen. simpl. apply lookup_store_other. auto.
Qed.

Lemma regen_lookup_local : forall s,
  exists e, lookup (local_id s) (db (regen s)) = Some e /\ seq e = next_seq (counter s) /\
            life e = default_lifetime /\ ssn e = [].
Proof.
  intros s. unfold regen. cbn [db with_db]. rewrite lookup_store_same. eexists. split; [reflexivity |].
  set (s1 := mkS (ifs s) (own s) (db s) (next_seq (counter s)) (pending s)).
  destruct (set_srm_all_fields s1 (all_ifs s1) (mkE (next_seq (counter s)) default_lifetime [] []))
    as ([H1 H2] & H3).
  rewrite H1, H2, H3. auto.
Qed.

Lemma service_lookup_other : forall s k, k <> local_id s -> lookup k (db (service s)) = lookup k (db s).
Proof.
  intros s k H. unfold service. destruct (pending s); [| reflexivity].
  exact (regen_lookup_other (mkS (ifs s) (own s) (db s) (counter s) false) k H).
Qed.

Lemma recv_lsp_grows : forall s i k' sq lt k e, lookup k (db s) = Some e ->
  exists e', lookup k (db (recv_lsp s i k' sq lt)) = Some e' /\ seq e <= seq e'.
Proof.
  intros s i k' sq lt k e Hl. rewrite recv_lsp_lookup.
  destruct (local_newer s k' sq); [exists e; split; [exact Hl | apply N.le_refl] |].
  destruct (id_eqb k' k) eqn:E; [| exists e; split; [exact Hl | apply N.le_refl]].
  apply id_eqb_eq in E. subst k'. rewrite Hl. eexists. split; [reflexivity |].
  rewrite (proj1 (lsp_entry_copy s i sq lt (Some e))). apply N.le_max_l.
Qed.

(* over any history without aging and regeneration, the copy in the database carries the highest
   sequence number received for that id *)
Theorem highest_seq_history : forall evs s k e, quiet evs = true ->
  k <> local_id s -> lookup k (db s) = Some e ->
  exists e', lookup k (db (run s evs)) = Some e' /\ seq e' = max_recv k evs (seq e).
Proof.
  intros evs s k e Hq Hne Hl.
  refine (proj2 (fold_left_sim step (track_recv k)
    (fun s m => k <> local_id s /\ exists e, lookup k (db s) = Some e /\ seq e = m) evs _ s (seq e) _)); [| eauto].
  clear s e Hne Hl. intros s m ev Hin (Hne & e & Hl & <-). rewrite step_local_id. split; [exact Hne |].
  pose proof (proj1 (forallb_forall _ _) Hq ev Hin) as Hqe.
  pose proof (step_kept s ev k) as Hk. rewrite Hl in Hk.
  destruct ev as [i k' sq lt | | | | | | | |]; try discriminate Hqe;
    try (destruct Hk as (e1 & H1 & Hs & _); exists e1; split; [exact H1 | exact Hs]).
  cbn [step track_recv]. rewrite recv_lsp_lookup. destruct (id_eqb k' k) eqn:E.
  - apply id_eqb_eq in E. subst k'. unfold local_newer. apply id_eqb_neq in Hne. rewrite Hne, Hl.
    eexists. split; [reflexivity | apply (lsp_entry_copy s i sq lt (Some e))].
  - destruct (local_newer s k' sq); exists e; auto.
Qed.

Lemma set_srm_In : forall s i e j,
  In j (srm (set_srm s i e)) <-> In j (srm e) \/ (j = i /\ if_ok s i = true /\ seq e <> 0).
Proof.
  intros s i e j. unfold set_srm. destruct (if_ok s i) eqn:Eo; simpl.
  - destruct (seq e =? 0) eqn:Ez; simpl.
    + apply N.eqb_eq in Ez. split; [auto | intros [H | (_ & _ & H)]; [auto | contradiction]].
    + apply N.eqb_neq in Ez. rewrite set_add_In. split; intros [H | H]; auto.
      destruct H as (H & _ & _). auto.
  - split; [auto | intros [H | (_ & H & _)]; [auto | discriminate]].
Qed.

Lemma set_srm_all_In : forall s l e j,
  In j (srm (set_srm_all s l e)) <-> In j (srm e) \/ (In j l /\ if_ok s j = true /\ seq e <> 0).
Proof.
  induction l as [| i r IH]; intros e j; simpl.
  - split; [auto | intros [H | (H & _)]; [auto | contradiction]].
  - rewrite IH, set_srm_In. destruct (set_srm_fields s i e) as ([-> _] & _). split.
    + intros [[H | (H1 & H2 & H3)] | (H1 & H2 & H3)]; auto.
      subst. right. auto.
    + intros [H | ([H1 | H1] & H2 & H3)]; auto.
      subst. left. right. auto.
Qed.

Lemma all_ifs_except_In : forall s i j, In j (all_ifs_except s i) <-> (j < length (ifs s))%nat /\ j <> i.
Proof.
  intros s i j. unfold all_ifs_except, all_ifs. rewrite filter_In, in_seq, negb_true_iff, Nat.eqb_neq.
  split; intros [H1 H2]; split; auto; lia.
Qed.

(* ISO 10589 7.3.16, case by case (newer, same, older) *)
Lemma recv_lsp_newer : forall s i k sq lt,
  local_newer s k sq = false ->
  (lookup k (db s) = None \/ exists e, lookup k (db s) = Some e /\ seq e < sq) ->
  lookup k (db (recv_lsp s i k sq lt)) = Some (flooded s i sq lt).
Proof.
  intros s i k sq lt Hln Hcase. rewrite recv_lsp_lookup, Hln, id_eqb_refl. unfold lsp_entry.
  destruct Hcase as [-> | (e & -> & Hlt)]; [reflexivity |]. apply N.ltb_lt in Hlt. rewrite Hlt. reflexivity.
Qed.

Lemma recv_lsp_same : forall s i k lt e, lookup k (db s) = Some e ->
  lookup k (db (recv_lsp s i k (seq e) lt)) = Some (set_ssn i (clear_srm i e)).
Proof.
  intros s i k lt e He. rewrite recv_lsp_lookup, id_eqb_refl. unfold local_newer, lsp_entry.
  rewrite He, N.ltb_irrefl, andb_false_r, N.eqb_refl. reflexivity.
Qed.

Lemma recv_lsp_older : forall s i k sq lt e, lookup k (db s) = Some e -> sq < seq e ->
  lookup k (db (recv_lsp s i k sq lt)) = Some (clear_ssn i (set_srm s i e)).
Proof.
  intros s i k sq lt e He Hlt. rewrite recv_lsp_lookup, id_eqb_refl. unfold local_newer, lsp_entry. rewrite He.
  assert (H1 : seq e <? sq = false) by lia. assert (H2 : sq =? seq e = false) by lia.
  rewrite H1, H2, andb_false_r. reflexivity.
Qed.

Lemma if_ok_lt : forall s j, if_ok s j = true -> (j < length (ifs s))%nat.
Proof.
  intros s j H. unfold if_ok in H. destruct (nth_error (ifs s) j) eqn:E; try discriminate.
  apply nth_error_Some. rewrite E. discriminate.
Qed.

Lemma flooded_flags : forall s i sq lt,
  ssn (flooded s i sq lt) = [i] /\
  forall j, In j (srm (flooded s i sq lt)) <-> (j <> i /\ if_ok s j = true /\ sq <> 0).
Proof.
  intros s i sq lt. unfold flooded. cbn [ssn srm set_ssn clear_srm].
  destruct (set_srm_all_fields s (all_ifs_except s i) (mkE sq lt [] [])) as (_ & ->).
  split; [reflexivity |].
  intros j. rewrite set_del_In, set_srm_all_In. cbn [srm seq In]. rewrite all_ifs_except_In. split.
  - intros [[[] | ((H1 & H2) & H3' & H4)] H5]. auto.
  - intros (H1 & H2 & H3'). split; auto. right. repeat split; auto. apply if_ok_lt. auto.
Qed.

(* 7.3.15.2 b): one entry (k, sq, lt) of a CSNP or PSNP received on circuit i *)
Theorem flags_snp_entry : forall s i k sq lt,
  exists e', lookup k (db (snp_entry s i (k, sq, lt))) = Some e' /\
  match lookup k (db s) with
  | None =>                                  (* unknown: ask for it, never SRM on sequence number 0 *)
    e' = mkE 0 lt [] [i]
  | Some e =>
    same_copy e e' /\
    if sq =? seq e then                      (* same: acknowledged *)
      (forall j, In j (srm e') <-> In j (srm e) /\ j <> i) /\ ssn e' = ssn e
    else if sq <? seq e then                 (* the neighbor's copy is older: send ours *)
      (forall j, In j (srm e') <-> In j (srm e) \/ (j = i /\ if_ok s i = true /\ seq e <> 0)) /\
      (forall j, In j (ssn e') <-> In j (ssn e) /\ j <> i)
    else                                     (* the neighbor's copy is newer: ask for it *)
      (forall j, In j (srm e') <-> In j (srm e) /\ j <> i) /\
      (forall j, In j (ssn e') <-> In j (ssn e) \/ j = i)
  end.
Proof.
  intros s i k sq lt. rewrite snp_entry_eq. cbn [db with_db]. rewrite lookup_store_same.
  eexists. split; [reflexivity |]. destruct (lookup k (db s)) as [e |]; [| reflexivity].
  split; [apply snp_new_copy |]. unfold snp_new.
  destruct (sq =? seq e); [| destruct (sq <? seq e)]; cbn [srm ssn clear_srm set_ssn].
  - split; [intros j; apply set_del_In | reflexivity].
  - split; intros j.
    + rewrite set_srm_In. cbn [srm seq clear_ssn]. tauto.
    + rewrite (proj2 (set_srm_fields s i (clear_ssn i e))). apply set_del_In.
  - split; intros j; [apply set_del_In | apply set_add_In].
Qed.

(* 7.3.15.2 c): what a CSNP on circuit i does not mention within its range is flagged for i *)
Theorem flags_csnp_missing : forall s i lo hi l k e,
  let e' := snd (csnp_missing s i lo hi l (k, e)) in
  same_copy e e' /\ ssn e' = ssn e /\
  (life e <> 0 -> seq e <> 0 -> id_leb lo k = true -> id_leb k hi = true -> mentioned k l = false ->
     forall j, In j (srm e') <-> In j (srm e) \/ (j = i /\ if_ok s i = true)) /\
  (life e = 0 \/ seq e = 0 \/ id_leb lo k = false \/ id_leb k hi = false \/ mentioned k l = true ->
     e' = e).
Proof.
  intros s i lo hi l k e e'. split; [apply csnp_missing_copy |]. unfold e', csnp_missing.
  destruct (life e =? 0) eqn:E1; simpl.
  { apply N.eqb_eq in E1. repeat split; auto; intros; contradiction. }
  destruct (seq e =? 0) eqn:E2; simpl.
  { apply N.eqb_eq in E2. repeat split; auto; intros; contradiction. }
  apply N.eqb_neq in E1. apply N.eqb_neq in E2.
  destruct (id_leb lo k) eqn:E3; simpl.
  2:{ repeat split; auto; intros; discriminate. }
  destruct (id_leb k hi) eqn:E4; simpl.
  2:{ repeat split; auto; intros; discriminate. }
  destruct (mentioned k l) eqn:E5; simpl.
  { repeat split; auto; intros; discriminate. }
  split; [apply set_srm_fields |]. split.
  - intros _ _ _ _ _ j. rewrite set_srm_In. tauto.
  - intros [H | [H | [H | [H | H]]]]; try contradiction; discriminate.
Qed.

(* invariant of every reachable database: SRM is never set for a sequence number 0 entry, and only
   on active interfaces that have a neighbor *)
Definition flags_ok (s : srv) (e : entry) : Prop :=
  (seq e = 0 -> srm e = []) /\ (forall j, In j (srm e) -> if_ok s j = true).

Definition db_ok (s : srv) : Prop := Forall (fun kv => flags_ok s (snd kv)) (db s).

Lemma set_srm_ok : forall s i e, flags_ok s e -> flags_ok s (set_srm s i e).
Proof.
  intros s i e [H1 H2]. unfold set_srm. destruct (if_ok s i) eqn:Eo; simpl; [| split; auto].
  destruct (seq e =? 0) eqn:Ez; simpl; [split; auto |].
  apply N.eqb_neq in Ez. split; simpl.
  - intros H. contradiction.
  - intros j Hj. apply set_add_In in Hj. destruct Hj as [Hj | Hj]; subst; auto.
Qed.

Lemma set_srm_all_ok : forall s l e, flags_ok s e -> flags_ok s (set_srm_all s l e).
Proof.
  induction l as [| i r IH]; intros e H; simpl; auto. apply IH. apply set_srm_ok. auto.
Qed.

Lemma clear_srm_ok : forall s i e, flags_ok s e -> flags_ok s (clear_srm i e).
Proof.
  intros s i e [H1 H2]. split; simpl.
  - intros H. rewrite (H1 H). reflexivity.
  - intros j Hj. apply set_del_In in Hj. apply H2. tauto.
Qed.

Lemma empty_ok : forall s sq lt l, flags_ok s (mkE sq lt [] l).
Proof. intros. split; simpl; auto; try (intros j []). Qed.

Lemma lsp_entry_ok : forall s i sq lt cur,
  (forall e, cur = Some e -> flags_ok s e) -> flags_ok s (lsp_entry s i sq lt cur).
Proof.
  intros s i sq lt cur H. unfold lsp_entry.
  assert (Hnew : flags_ok s (flooded s i sq lt)) by apply (clear_srm_ok s i), set_srm_all_ok, empty_ok.
  destruct cur as [e |]; [| exact Hnew]. specialize (H e eq_refl).
  destruct (seq e <? sq); [exact Hnew |].
  destruct (sq =? seq e); [apply (clear_srm_ok s i), H | apply (set_srm_ok s i), H].
Qed.

Lemma snp_new_ok : forall s i sq lt cur,
  (forall e, cur = Some e -> flags_ok s e) -> flags_ok s (snp_new s i sq lt cur).
Proof.
  intros s i sq lt cur H. unfold snp_new. destruct cur as [e |]; [| apply empty_ok].
  specialize (H e eq_refl). destruct (sq =? seq e); [apply clear_srm_ok, H |].
  destruct (sq <? seq e); [apply set_srm_ok, H | apply (clear_srm_ok s i), H].
Qed.

Lemma csnp_missing_ok : forall s i lo hi l kv,
  flags_ok s (snd kv) -> flags_ok s (snd (csnp_missing s i lo hi l kv)).
Proof. intros s i lo hi l [k e] H. apply csnp_missing_cases; [exact H | apply set_srm_ok, H]. Qed.

Lemma db_ok_lookup : forall s k, db_ok s -> forall e, lookup k (db s) = Some e -> flags_ok s e.
Proof. intros s k H e Hl. exact (proj1 (Forall_forall _ _) H (k, e) (get_in id_eqb_eq _ _ _ Hl)). Qed.

Lemma store_ok : forall s k v, db_ok s -> flags_ok s v -> db_ok (with_db s (store k v (db s))).
Proof. intros s k v. exact (put_Forall id_eqb (flags_ok s) k v (db s)). Qed.

Lemma snp_entries_ok : forall l s i, db_ok s -> db_ok (snp_entries s i l).
Proof.
  intros l s i. apply (fold_left_invariant _ db_ok). clear s. intros s [[k sq] lt] _ H.
  rewrite snp_entry_eq. apply store_ok; [exact H |]. apply snp_new_ok, db_ok_lookup, H.
Qed.

Lemma regen_ok : forall s, db_ok s -> db_ok (regen s).
Proof.
  intros s Hok. apply (store_ok (mkS (ifs s) (own s) (db s) (next_seq (counter s)) (pending s))); [exact Hok |].
  apply set_srm_all_ok, empty_ok.
Qed.

Lemma step_db_ok : forall s e, db_ok s -> db_ok (step s e).
Proof.
  intros s e Hok. destruct e as [i k sq lt | i lo hi l | i l | | | | | |]; cbn [step]; try exact Hok.
  - rewrite recv_lsp_eq. destruct (local_newer s k sq); [exact Hok |].
    apply store_ok; [exact Hok |]. apply lsp_entry_ok, db_ok_lookup, Hok.
  - apply Forall_map. eapply Forall_impl; [| exact (snp_entries_ok l s i Hok)]. exact (csnp_missing_ok (snp_entries s i l) i lo hi l).
  - apply snp_entries_ok, Hok.
  - rewrite tick_eq, age_eq. apply Forall_forall. intros [k e] Hin.
    destruct (sweep_in _ _ _ _ Hin) as (e0 & H0 & Ha). pose proof (proj1 (Forall_forall _ _) Hok _ H0) as H.
    unfold aged in Ha. destruct (life e0 <=? 1); [discriminate |]. injection Ha as <-. exact H.
  - unfold service. destruct (pending s); [| exact Hok]. apply regen_ok. exact Hok.
  - apply regen_ok, Hok.
  - apply Forall_map, Hok.
Qed.

Lemma run_db_ok : forall evs s, db_ok s -> db_ok (run s evs).
Proof. intros evs. apply (fold_left_invariant _ db_ok). intros s e _. apply step_db_ok. Qed.

Lemma init_db_ok : forall ifaces o, db_ok (init ifaces o).
Proof. intros ifaces o. apply regen_ok, regen_ok. constructor. Qed.

(* 299 = refresh_threshold - 1: a tick that finds 300 or more leaves 299 or more; one that finds less
   requests the refresh, and the updater's turn restores 1800 *)
Definition fresh (s : srv) : Prop :=
  exists e, lookup (local_id s) (db s) = Some e /\ 299 <= life e.

Lemma regen_fresh : forall s, fresh (regen s).
Proof.
  intros s. destruct (regen_lookup_local s) as (e & He & _ & Hl & _).
  exists e. split; [exact He |]. rewrite Hl. unfold default_lifetime. lia.
Qed.

Lemma age_req : forall o t e, lookup o t = Some e -> life e < refresh_threshold ->
  snd (age o t) = true.
Proof.
  intros o t e Hl Hlt. rewrite age_eq. apply existsb_exists. exists (o, e). split; [apply (get_in id_eqb_eq), Hl |].
  cbn [fst snd]. rewrite id_eqb_refl. apply N.ltb_lt, Hlt.
Qed.

Lemma tick_service_fresh : forall s, wf s -> fresh s -> fresh (service (tick s)).
Proof.
  intros s Hwf (e & He & Hl). unfold service. destruct (pending (tick s)) eqn:Ep; [apply regen_fresh |].
  unfold fresh. rewrite (step_local_id s Tick : local_id (tick s) = _), tick_lookup, He by exact Hwf. unfold aged.
  assert (H1 : (life e <=? 1) = false) by lia. rewrite H1. eexists. split; [reflexivity |]. cbn [life].
  destruct (N.lt_ge_cases (life e) 300) as [Hlt | Hge]; [| lia].
  rewrite tick_eq in Ep. cbn [pending] in Ep. rewrite (age_req _ _ e He Hlt), orb_true_r in Ep. discriminate.
Qed.

Lemma kept_fresh : forall s s', local_id s' = local_id s ->
  kept (lookup (local_id s) (db s)) (lookup (local_id s) (db s')) -> fresh s -> fresh s'.
Proof.
  intros s s' Hid Hk (e & He & Hl). rewrite He in Hk. destruct Hk as (e' & He' & _ & Hl').
  exists e'. rewrite Hid. split; [exact He' | lia].
Qed.

Lemma step_fresh : forall s ev, fresh s -> match ev with Tick => True | _ => fresh (step s ev) end.
Proof.
  intros s ev Hf. pose proof (step_kept s ev (local_id s)) as Hk.
  destruct ev as [i k sq lt | | | | | | | |]; trivial;
    try (apply (kept_fresh s); [apply step_local_id | exact Hk | exact Hf]).
  - apply (kept_fresh s); [apply step_local_id | apply recv_lsp_own | exact Hf].
  - cbn [step]. unfold service. destruct (pending s); [apply regen_fresh | exact Hf].
  - apply regen_fresh.
Qed.

(* [serviced] consumes Tick :: Service :: r two events at a time: the second half is the claim after the Tick *)
Lemma serviced_fresh : forall evs s, wf s -> fresh s ->
  (serviced evs = true -> fresh (run s evs)) /\
  (serviced (Tick :: evs) = true -> fresh (run (tick s) evs)).
Proof.
  induction evs as [| ev r IH]; intros s Hwf Hf; [split; [intros _; exact Hf | discriminate] |].
  split; intros Hs.
  - pose proof (step_fresh s ev Hf) as Hsf.
    destruct ev; try exact (proj1 (IH _ (step_wf s _ Hwf) Hsf) Hs). exact (proj2 (IH s Hwf Hf) Hs).
  - destruct ev; try discriminate Hs.
    exact (proj1 (IH (service (tick s)) (step_wf _ Service (step_wf s Tick Hwf)) (tick_service_fresh s Hwf Hf)) Hs).
Qed.

Theorem run_fresh : forall evs s, wf s -> fresh s -> serviced evs = true -> fresh (run s evs).
Proof. intros evs s Hwf Hf. exact (proj1 (serviced_fresh evs s Hwf Hf)). Qed.

(* m: highest sequence number of a copy of the own LSP received so far *)
Definition dominated (s : srv) (m : N) : Prop :=
  m <= counter s /\ (forall e, lookup (local_id s) (db s) = Some e -> seq e <= counter s).

Lemma next_seq_nowrap : forall c, c < last_seq -> next_seq c = c + 1.
Proof.
  intros c H. unfold next_seq, last_seq, two32 in *.
  rewrite N.mod_small by lia.
  destruct (c + 1 =? 0) eqn:E; auto. apply N.eqb_eq in E. lia.
Qed.

Lemma regen_installs : forall s m, counter s < last_seq -> m <= counter s ->
  exists e, lookup (local_id s) (db (regen s)) = Some e /\ seq e = counter s + 1 /\ m < seq e.
Proof.
  intros s m Hc Hm. destruct (regen_lookup_local s) as (e & He & Hs & _). exists e. split; [exact He |].
  rewrite Hs, next_seq_nowrap by exact Hc. split; lia.
Qed.

Lemma regen_dominated : forall s m, counter s < last_seq -> m <= counter s -> dominated (regen s) m.
Proof.
  intros s m Hc H1. destruct (regen_installs s m Hc H1) as (e & He & Hs & _).
  assert (Hcnt : counter (regen s) = counter s + 1) by (apply next_seq_nowrap, Hc).
  split; [lia |]. intros e0 He0. change (local_id (regen s)) with (local_id s) in He0.
  rewrite He in He0. injection He0 as <-. lia.
Qed.

Lemma step_dominated : forall s ev m, wf s -> counter s < last_seq -> dominated s m ->
  dominated (step s ev) (track_recv (local_id s) m ev).
Proof.
  intros s ev m Hwf Hc [H1 H2]. unfold dominated. rewrite step_local_id.
  pose proof (proj2 (step_frame s ev)) as Hcnt. pose proof (step_kept s ev (local_id s)) as Hk.
  destruct ev as [i k sq lt | i lo hi l | i l | | | | | |]; cbn [track_recv];
    try (rewrite Hcnt; split; [exact H1 | exact (kept_bound _ _ _ Hk H2)]); cbn [step].
  - (* an LSP PDU: a newer copy of the own LSP raises the counter, any other one is not above ours *)
    rewrite (Hcnt : counter (recv_lsp s i k sq lt) = _).
    split; [| intros e He; apply (kept_bound _ _ _ (recv_lsp_own s i k sq lt) H2) in He;
              destruct (local_newer s k sq); lia].
    unfold local_newer. destruct (id_eqb k (local_id s)) eqn:E; cbn [andb]; [| exact H1].
    apply id_eqb_eq in E. subst k. destruct (lookup (local_id s) (db s)) as [e |]; [| lia].
    specialize (H2 e eq_refl). destruct (seq e <? sq) eqn:El; lia.
  - rewrite (Hcnt : counter (tick s) = _). split; [exact H1 |]. intros e0. rewrite tick_lookup by exact Hwf.
    destruct (lookup (local_id s) (db s)) as [e |]; [| discriminate]. unfold aged.
    destruct (life e <=? 1); [discriminate |]. intros [= <-]. exact (H2 e eq_refl).
  - unfold service. destruct (pending s); [| split; assumption].
    exact (regen_dominated (mkS (ifs s) (own s) (db s) (counter s) false) m Hc H1).
  - exact (regen_dominated s m Hc H1).
Qed.

Lemma run_dominated : forall evs s m, wf s -> nowrap_from s evs -> dominated s m ->
  dominated (run s evs) (max_recv (local_id s) evs m) /\ counter (run s evs) < last_seq.
Proof.
  induction evs as [| ev r IH]; intros s m Hwf Hnw Hd.
  - simpl in *. destruct Hnw as [Hc _]. auto.
  - simpl in Hnw. destruct Hnw as [Hc Hr].
    pose proof (step_dominated s ev m Hwf Hc Hd) as Hd1.
    destruct (IH (step s ev) _ (step_wf s ev Hwf) Hr Hd1) as [H1 H2].
    rewrite step_local_id in H1. unfold max_recv in *. simpl. auto.
Qed.

Theorem originates_above : forall s evs m0, wf s -> nowrap_from s evs -> dominated s m0 ->
  let s' := run s evs in
  let m := max_recv (local_id s) evs m0 in
  m <= counter s' /\
  (exists e, lookup (local_id s) (db (step s' Regen)) = Some e /\ seq e = counter s' + 1 /\ m < seq e) /\
  (pending s' = true ->
   exists e, lookup (local_id s) (db (step s' Service)) = Some e /\ seq e = counter s' + 1 /\ m < seq e).
Proof.
  intros s evs m0 Hwf Hnw Hd s' m.
  destruct (run_dominated evs s m0 Hwf Hnw Hd) as [[H1 _] Hc]. fold s' in H1, Hc. fold m in H1.
  split; [exact H1 |]. rewrite <- (run_local_id evs s). split.
  - exact (regen_installs s' m Hc H1).
  - intros Hp. cbn [step]. unfold service. rewrite Hp.
    exact (regen_installs (mkS (ifs s') (own s') (db s') (counter s') false) m Hc H1).
Qed.
