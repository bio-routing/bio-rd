(* C18: the packing of one queue entry into UPDATE messages (`pack_go`, sizes, what `emit_all` writes).
   Also what the C10 proofs share with it: equality of prefixes, sums of NLRI lengths. *)
From Coq Require Import List ZArith Bool Lia Permutation.
Import ListNotations.
From BioVerif Require Import Lib.ListFacts Model.UpdateSender Spec.UpdateSenderSpec.

Lemma pfx_eqb_eq : forall a b, pfx_eqb a b = true <-> a = b.
Proof.
  intros [a1 a2] [b1 b2]. unfold pfx_eqb. cbn [x_addr x_len].
  rewrite andb_true_iff, !N.eqb_eq. split.
  - intros [H1 H2]. subst. reflexivity.
  - intros H. inversion H. auto.
Qed.

Lemma pfx_eqb_refl : forall a, pfx_eqb a a = true.
Proof. intros a. apply pfx_eqb_eq. reflexivity. Qed.

Lemma pfx_eqb_sym : forall a b, pfx_eqb a b = pfx_eqb b a.
Proof. exact (eqb_sym_of pfx_eqb_eq). Qed.

Lemma sumZ_app : forall a b, sumZ (a ++ b) = sumZ a + sumZ b.
Proof.
  induction a as [|x a IH]; intros b; [reflexivity|].
  change (x + sumZ (a ++ b) = x + sumZ a + sumZ b). rewrite IH. lia.
Qed.

Lemma nlri_sum_app : forall c a b, nlri_sum c (a ++ b) = nlri_sum c a + nlri_sum c b.
Proof. intros. unfold nlri_sum. rewrite map_app. apply sumZ_app. Qed.

Lemma nlri_sum_cons : forall c x l, nlri_sum c (x :: l) = nlri_len c x + nlri_sum c l.
Proof. reflexivity. Qed.

Lemma nlri_sum_nil : forall c, nlri_sum c [] = 0.
Proof. reflexivity. Qed.

Lemma nlri_sum_rev : forall c l, nlri_sum c (rev l) = nlri_sum c l.
Proof.
  intros c l. induction l as [|x l IH]; [reflexivity|].
  cbn [rev]. rewrite nlri_sum_app, IH, !nlri_sum_cons, nlri_sum_nil. lia.
Qed.

Lemma pack_go_concat : forall c xs full b rcur,
  concat (pack_go c full b rcur xs) = rev rcur ++ xs.
Proof.
  intros c xs. induction xs as [|x r IH]; intros full b rcur; cbn [pack_go].
  - destruct rcur as [|y rc]; cbn [concat rev app]; [reflexivity|].
    rewrite !app_nil_r. reflexivity.
  - destruct (b - nlri_len c x <? 0) eqn:E.
    + cbn [concat]. rewrite IH. reflexivity.
    + rewrite IH. cbn [rev]. rewrite <- app_assoc. reflexivity.
Qed.

Lemma pack_concat : forall c p xs, concat (pack c p xs) = xs.
Proof. intros. unfold pack. rewrite pack_go_concat. reflexivity. Qed.

Lemma rev_cons_nonnil : forall (A : Type) (y : A) l, rev (y :: l) <> [].
Proof. intros A y l H. cbn [rev] in H. symmetry in H. exact (app_cons_not_nil _ _ _ H). Qed.

Lemma pack_go_sum : forall c xs full b rcur,
  (forall x, In x xs -> nlri_len c x <= full) ->
  b = full - nlri_sum c rcur -> (rcur <> [] -> 0 <= b) ->
  forall l, In l (pack_go c full b rcur xs) -> l <> [] /\ nlri_sum c l <= full.
Proof.
  intros c xs. induction xs as [|x r IH]; intros full b rcur Hfit Hb Hpos l Hin; cbn [pack_go] in Hin.
  - destruct rcur as [|y rc]; [contradiction|]. destruct Hin as [<-|[]].
    split; [apply rev_cons_nonnil|rewrite nlri_sum_rev; specialize (Hpos ltac:(discriminate)); lia].
  - assert (Hx : nlri_len c x <= full) by (apply Hfit; now left).
    assert (Hr : forall y, In y r -> nlri_len c y <= full) by (intros y Hy; apply Hfit; now right).
    destruct (b - nlri_len c x <? 0) eqn:E.
    + apply Z.ltb_lt in E. destruct Hin as [<-|Hin].
      * destruct rcur as [|y rc]; [rewrite nlri_sum_nil in Hb; lia|].
        split; [apply rev_cons_nonnil|rewrite nlri_sum_rev; specialize (Hpos ltac:(discriminate)); lia].
      * apply (IH full (full - nlri_len c x) [x] Hr); [rewrite nlri_sum_cons, nlri_sum_nil; lia|lia|exact Hin].
    + apply Z.ltb_ge in E.
      apply (IH full (b - nlri_len c x) (x :: rcur) Hr); [rewrite nlri_sum_cons; lia|intros _; exact E|exact Hin].
Qed.

Lemma pack_sum : forall c p xs,
  all_fit_list c p xs ->
  forall l, In l (pack c p xs) -> l <> [] /\ nlri_sum c l <= budget c p.
Proof.
  intros c p xs Hfit. apply pack_go_sum; [exact Hfit|rewrite nlri_sum_nil; lia|congruence].
Qed.

Lemma reserved_covers : forall c p, enc_attrs c p <= reserved c p.
Proof. intros. unfold reserved. lia. Qed.

Lemma mp_attr_le : forall c l, mp_attr c l <= 4 + mp_value c l.
Proof. intros c l. unfold mp_attr. destruct (255 <? mp_value c l); lia. Qed.

(* what updateOverhead stands for: header, lengths, attributes, NLRI, and the multiprotocol wrapping *)
Lemma msg_total_le : forall c p l, msg_total c p l <= 23 + enc_attrs c p + nlri_sum c l + overhead c.
Proof.
  intros c p l. pose proof (mp_attr_le c l) as Hm.
  unfold msg_total, overhead, mp_value, enc_nexthop, nh_len in *. destruct (c_fam c); lia.
Qed.

Lemma msg_total_bound : forall c p l,
  nlri_sum c l <= budget c p -> msg_total c p l <= 4096.
Proof.
  intros c p l H. pose proof (reserved_covers c p). pose proof (msg_total_le c p l).
  assert (budget c p = 4073 - reserved c p - overhead c) by (unfold budget; lia). lia.
Qed.

Lemma pack_msg_ok : forall c p xs,
  all_fit_list c p xs ->
  forall l, In l (pack c p xs) -> msg_ok c p l = true.
Proof. intros c p xs Hfit l Hin. apply Z.leb_le, msg_total_bound. exact (proj2 (pack_sum c p xs Hfit l Hin)). Qed.

Lemma emit_all_eq : forall c p ms w,
  emit_all c p ms w = rev (map (ann_of c p) (filter (msg_ok c p) ms)) ++ w.
Proof.
  intros c p ms. induction ms as [|l r IH]; intros w; cbn [emit_all filter]; [reflexivity|].
  rewrite IH. unfold emit. destruct (msg_ok c p l); [|reflexivity].
  cbn [map rev]. now rewrite <- app_assoc.
Qed.

Lemma batch_wire_eq : forall c p xs, batch_wire c p xs = map (ann_of c p) (filter (msg_ok c p) (pack c p xs)).
Proof. intros. unfold batch_wire. now rewrite emit_all_eq, app_nil_r, rev_involutive. Qed.

Lemma wire_order_perm : forall c l, Permutation (wire_order c l) l.
Proof.
  intros c l. unfold wire_order. destruct (c_fam c); try apply Permutation_refl.
  apply Permutation_sym, Permutation_rev.
Qed.

Lemma announced_map_ann : forall c p ms,
  Permutation (announced (map (ann_of c p) ms)) (concat ms).
Proof.
  intros c p ms. induction ms as [|l r IH]; cbn [map announced flat_map concat]; [apply Permutation_refl|].
  apply Permutation_app; [apply wire_order_perm | exact IH].
Qed.

Lemma lossless : forall c p xs,
  all_fit_list c p xs ->
  batch_wire c p xs = map (ann_of c p) (pack c p xs) /\
  Permutation (announced (batch_wire c p xs)) xs.
Proof.
  intros c p xs Hfit. rewrite batch_wire_eq, filter_all by (apply pack_msg_ok, Hfit).
  split; [reflexivity|]. rewrite <- (pack_concat c p xs) at 2. apply announced_map_ann.
Qed.
