(* C08: the guards are met by real sessions and policies; the unguarded statement is false: three known
   findings, four witnesses (K1 twice: a rewriting session, a redistributed route). *)
From Coq Require Import List NArith Bool Lia.
Import ListNotations.
From BioVerif Require Import Model.AdjRIBOut Model.LocView Spec.ExportViewSpec Proofs.AroIDsProofs.

Local Open Scope N_scope.

Lemma transparent_ibgp_nonclient : forall s,
  s_ibgp s = true -> s_rrclient s = false -> forall r b b', rewrite s r b = Some b' -> b' = b.
Proof.
  intros s Hi Hr r b b' H. unfold rewrite, rewrite_ibgp in H. rewrite Hi, Hr in H.
  destruct (negb (N.eqb r 0)); [congruence|].
  destruct (negb (b_ebgp b) && negb false); [discriminate|congruence].
Qed.

Lemma transparent_rs_client_no_roles : forall s,
  s_ibgp s = false -> s_rsclient s = true -> s_role_on s = false ->
  forall r b b', rewrite s r b = Some b' -> b' = b.
Proof.
  intros s Hi Hrs Hro r b b' H. unfold rewrite, rewrite_ebgp in H. rewrite Hi, Hrs, Hro in H.
  cbn [negb] in H. congruence.
Qed.

Lemma do_action_bgp : forall a r b,
  match do_action a (PBgp r b) with
  | RCont q | RAccept q => exists r' b', q = PBgp r' b'
  | RReject => True
  end.
Proof. intros [v|v|ip|asn t| |] r b; cbn [do_action]; eauto. Qed.

Lemma do_actions_bgp : forall l r b,
  match do_actions l (PBgp r b) with
  | RCont q | RAccept q => exists r' b', q = PBgp r' b'
  | RReject => True
  end.
Proof.
  induction l as [|a l IH]; intros r b; cbn [do_actions]; [eauto|].
  pose proof (do_action_bgp a r b) as H.
  destruct (do_action a (PBgp r b)) as [q|q|]; [|exact H|exact I].
  destruct H as [r' [b' ->]]. apply IH.
Qed.

Lemma do_terms_bgp : forall ts pfx r b,
  match do_terms ts pfx (PBgp r b) with
  | RCont q | RAccept q => exists r' b', q = PBgp r' b'
  | RReject => True
  end.
Proof.
  induction ts as [|t ts IH]; intros pfx r b; cbn [do_terms]; [eauto|].
  destruct (term_matches t pfx); [|apply IH].
  pose proof (do_actions_bgp (t_then t) r b) as H.
  destruct (do_actions (t_then t) (PBgp r b)) as [q|q|]; [|exact H|exact I].
  destruct H as [r' [b' ->]]. apply IH.
Qed.

Lemma interp_bgp : forall c pfx r b q, interp c pfx (PBgp r b) = Some q -> exists r' b', q = PBgp r' b'.
Proof.
  induction c as [|fl c IH]; intros pfx r b q H; cbn [interp] in H.
  - inversion H. eauto.
  - pose proof (do_terms_bgp fl pfx r b) as HT.
    destruct (do_terms fl pfx (PBgp r b)) as [q'|q'|]; [| |discriminate].
    + destruct HT as [r' [b' ->]]. eapply IH; eassumption.
    + inversion H; subst. exact HT.
Qed.

Definition single_bgp (l : list path) : bool :=
  match l with [] | [PBgp 0 _] => true | _ => false end.

Lemma guards_best_only : forall f s (h : list (N * list path)),
  s_addpath s = false ->
  (forall r b b', rewrite s r b = Some b' -> b' = b) ->
  (forall pfx r b q, f pfx (PBgp r b) = Some q -> exists r' b', q = PBgp r' b') ->
  forallb (fun e => single_bgp (snd e)) h = true ->
  guards f s h.
Proof.
  intros f s h HA HT HF HS.
  assert (G : forall pfx l, In (pfx, l) h -> l = [] \/ exists b, l = [PBgp 0 b]).
  { intros pfx l HI. apply (proj1 (forallb_forall _ h) HS) in HI. cbn [snd] in HI.
    destruct l as [|[snh|[|r] b] [|y l']]; try discriminate; eauto. }
  constructor; try (rewrite HA; discriminate); try assumption.
  - intros pfx l p HI HP. destruct (G pfx l HI) as [->|[b ->]]; [destruct HP|]. destruct HP as [<-|[]]. eauto.
  - intros pfx l HI. destruct (G pfx l HI) as [->|[b ->]]; repeat constructor. intros [].
  - intros _ pfx l HI. destruct (G pfx l HI) as [->|[b ->]]; cbn; lia.
Qed.

(* well-formed history: duplicate-free views, one path at most for a best-only session *)
Definition wf_history (s : sess) (h : list (N * list path)) : Prop :=
  (forall pfx l, In (pfx, l) h -> NoDup l) /\
  (s_addpath s = false -> forall pfx l, In (pfx, l) h -> (length l <= 1)%nat).

Definition full_statement (s : sess) (c : chain) (h : list (N * list path)) : Prop :=
  let st := feed chain interp s c h in
  errs (snd st) = 0 -> ribout_is_export_view (interp c) s (fst st) (snd st).

Definition mk_sess (ibgp rs rr ap : bool) : sess := mkSess ibgp rs rr ap 65000 16843009 33686018 9 false 0.
Definition mk_path (src otc : N) (ebgp : bool) (cs : option (list N)) : bgp :=
  mkBgp src src 100 0 src 0 None ebgp false 0 otc [(true, [65001])] 1 None cs None [] 0.

(* wf_history of a literal history; NoDup of a literal list: each `~ In` is a disjunction of closed equations *)
Ltac wf_hist :=
  split;
  [ intros pfx l HI; cbn [In] in HI;
    repeat (destruct HI as [HI|HI]; [inversion HI; subst; repeat constructor; cbn; intuition discriminate|]);
    destruct HI
  | intros Hbo pfx l HI; cbn in Hbo; try discriminate Hbo; cbn [In] in HI;
    repeat (destruct HI as [HI|HI]; [inversion HI; subst; cbn; lia|]); destruct HI ].

(* K1: an eBGP session (prepend, next-hop-self): the route stays after the Loc-RIB withdrew it *)
Definition k1_h : list (N * list path) := [(0, [PBgp 0 (mk_path 50529027 0 true None)]); (0, [])].

(* K1, redistribution: a static route towards an iBGP peer stays after it was withdrawn *)
Definition k1s_h : list (N * list path) := [(0, [PStatic (Some 84215045)]); (0, [])].

(* K2: add-path session; the peer's own path becomes the best: the other, exportable path is withdrawn *)
Definition k2_h : list (N * list path) :=
  [(0, [PBgp 0 (mk_path 50529027 0 true None)]);
   (0, [PBgp 0 (mk_path 33686018 0 true None); PBgp 0 (mk_path 50529027 0 true None)])].

(* K3: add-path session; two paths that Compare cannot tell apart (they differ in OTC): withdrawing the
   second one removes the first *)
Definition k3_h : list (N * list path) :=
  [(0, [PBgp 0 (mk_path 50529027 0 true None); PBgp 0 (mk_path 50529027 7 true None)]);
   (0, [PBgp 0 (mk_path 50529027 0 true None)])].

(* the history of C08_example_guards: a second path arrives, another prefix changes, the first path is withdrawn *)
Definition ex_h : list (N * list path) :=
  [(0, [PBgp 0 (mk_path 50529027 0 true None)]);
   (0, [PBgp 0 (mk_path 67372036 0 true (Some [100])); PBgp 0 (mk_path 50529027 0 true None)]);
   (1, [PBgp 0 (mk_path 67372036 0 true (Some [100]))]);
   (0, [PBgp 0 (mk_path 67372036 0 true (Some [100]))])].

(* two paths in all, from different sources *)
Lemma ex_h_paths : forall pfx l p, In (pfx, l) ex_h -> In p l ->
  p = PBgp 0 (mk_path 50529027 0 true None) \/ p = PBgp 0 (mk_path 67372036 0 true (Some [100])).
Proof.
  intros pfx l p HI HP. cbn [In ex_h] in HI.
  repeat (destruct HI as [HI|HI]; [inversion HI; subst; cbn [In] in HP; intuition (subst; auto)|]). destruct HI.
Qed.

Lemma ex_wf : wf_history (mk_sess true false false true) ex_h.
Proof. wf_hist. Qed.

Lemma ex_guards : guards (interp []) (mk_sess true false false true) ex_h.
Proof.
  constructor.
  - apply transparent_ibgp_nonclient; reflexivity.
  - intros pfx l p HI HP. destruct (ex_h_paths pfx l p HI HP) as [->| ->]; eauto.
  - intros _ pfx l p HI HP. destruct (ex_h_paths pfx l p HI HP) as [->| ->]; reflexivity.
  - intros _ pfx l1 l2 p1 p2 q1 q2 H1 H2 P1 P2 F1 F2 C.
    cbn [interp] in F1, F2. inversion F1; subst q1. inversion F2; subst q2.
    destruct (ex_h_paths pfx l1 p1 H1 P1) as [->| ->], (ex_h_paths pfx l2 p2 H2 P2) as [->| ->];
      try reflexivity; apply bgp_compare_key in C; destruct C as [C _]; discriminate C.
  - exact (proj1 ex_wf).
  - discriminate.
  - intros pfx r b q H. eapply interp_bgp; eassumption.
Qed.
