(* C02's order independence, composed.
   Route.PathSelection is a parameter of the Loc-RIB model (sel); sel_decides says it ranks like the decision
   process of C02/C03: what it returns is a result sort.Slice may return for less = (Path.Select == 1) on the same
   paths, and its count is updateEqualPathCount's.  Under it every route the Loc-RIB of the composed model holds is
   sorted, so two pipelines (any histories, any arrival order across sessions) whose candidates of a prefix are
   the same multiset for the decision process hold them with the same key list and the same ECMP count
   (Proofs.PathSelProofs.order_independent as a black box); if no two candidates tie, the two Loc-RIBs show every
   client the same paths. *)
From Coq Require Import List NArith Arith Permutation Sorted.
Import ListNotations.
From BioVerif Require Import Lib.ListFacts Model.Pipeline Proofs.PipelineLoc Proofs.PipelineProofs.
From BioVerif Require Model.LocRIBClients Model.AdjRIBOut Model.PathSel Spec.PathSelSpec Proofs.PathSelProofs.

(* what Path.Select / Path.ECMP read of a route.Path value *)
Definition wp_of (p : AdjRIBOut.path) : PathSelSpec.wpath :=
  match p with
  | AdjRIBOut.PBgp _ b =>
    PathSelSpec.WBGP (PathSel.mkbgp (AdjRIBOut.b_lp b) (AdjRIBOut.b_aslen b) (AdjRIBOut.b_origin b) (AdjRIBOut.b_med b)
                        (AdjRIBOut.b_ebgp b) (AdjRIBOut.b_bgpid b) (AdjRIBOut.b_oid b) (AdjRIBOut.b_cl b)
                        (PathSel.mkip 0 (AdjRIBOut.b_src b)) (PathSel.mkip 0 (AdjRIBOut.b_nh b)) (AdjRIBOut.b_pid b) 0)
  | AdjRIBOut.PStatic (Some n) => PathSelSpec.WStatic (PathSel.mkstatic (PathSel.mkip 0 n))
  | AdjRIBOut.PStatic None => PathSelSpec.WStatic (PathSel.mkstatic (PathSel.mkip 0 0))
  end.

Definition ps_of (p : AdjRIBOut.path) : PathSel.path := PathSelSpec.embed (wp_of p).

Import LocRIBClients.

Local Notation path := AdjRIBOut.path.

Definition sel_decides (sel : nat -> list (entry path) -> list (entry path) * nat) : Prop :=
  forall t l,
    PathSelSpec.sort_admits (map ps_of (map snd l)) (map ps_of (map snd (fst (sel t l)))) /\
    PathSel.ecmp_count (map ps_of (map snd (fst (sel t l)))) = PathSel.Ok (N.of_nat (snd (sel t l))).

(* every stored route is in selection order, with the ECMP count of that order *)
Definition LSorted (loc : state path) : Prop :=
  forall p, Sorted PathSelSpec.not_less_than_pred (map ps_of (vals loc p)) /\
            PathSel.ecmp_count (map ps_of (vals loc p)) = PathSel.Ok (N.of_nat (ecmp (route_at loc p))).

Lemma nil_sorted : Sorted PathSelSpec.not_less_than_pred (map ps_of []) /\
                   PathSel.ecmp_count (map ps_of []) = PathSel.Ok (N.of_nat 0).
Proof. split; [constructor|reflexivity]. Qed.

Section Order.
  Variable sel : nat -> list (entry path) -> list (entry path) * nat.
  Hypothesis Hdec : sel_decides sel.

  Notation lstep := (step path AdjRIBOut.path_compare AdjRIBOut.path_equal sel).

  Lemma selected_sorted : forall t pre,
    Sorted PathSelSpec.not_less_than_pred (map ps_of (map snd (paths (selected path sel t pre)))) /\
    PathSel.ecmp_count (map ps_of (map snd (paths (selected path sel t pre)))) =
    PathSel.Ok (N.of_nat (ecmp (selected path sel t pre))).
  Proof.
    intros t pre. unfold selected. destruct (Hdec t pre) as [[_ HS] HE]. destruct (sel t pre) as [srt e]. cbn in *. auto.
  Qed.

  Lemma lstep_sorted : forall loc o loc' cbs, LSorted loc -> lstep loc o = Ok loc' cbs -> LSorted loc'.
  Proof.
    intros loc o loc' cbs HL Hs.
    destruct (LocRIBClientsProofs.step_does _ _ _ _ _ _ _ _ Hs) as [o p pre v rest _ _|o _|c oc d _|c|c d _];
      try exact HL.   (* the routes are untouched *)
    intros p'. unfold vals. rewrite route_at_store. destruct (p =? p'); [|apply HL].
    destruct pre as [|e pre]; [apply nil_sorted|]. cbn [LocRIBClientsProofs.reselect].
    destruct (paths (selected path sel (clock loc) (e :: pre))); [apply nil_sorted|apply selected_sorted].
  Qed.
End Order.

Lemma LSorted_run : forall (P : Type) apply sel tagf (cfgs : list (scfg P)) evs, sel_decides sel ->
  LSorted (ps_loc P (Pipeline.run P apply sel tagf cfgs evs)).
Proof.
  intros P apply sel tagf cfgs evs D.
  apply (loc_inv_run P apply sel tagf cfgs LSorted (fun loc o loc' cbs => lstep_sorted sel D loc o loc' cbs)). intros q. apply nil_sorted.
Qed.

Lemma map_inj_on : forall (A K : Type) (f : A -> K) (U l1 l2 : list A),
  NoDup (map f U) -> incl l1 U -> incl l2 U -> map f l1 = map f l2 -> l1 = l2.
Proof.
  intros A K f U l1. induction l1 as [|a l1 IH]; intros [|b l2] ND I1 I2 E; try discriminate; [reflexivity|].
  injection E as Eab E. apply incl_cons_inv in I1 as [Ha I1]. apply incl_cons_inv in I2 as [Hb I2].
  f_equal; [exact (NoDup_map_inj_in f U a b ND Ha Hb Eab)|now apply IH].
Qed.

(* C02 composed.  Stated of two sorted Loc-RIBs, not of two runs: configurations, histories, arrival orders and
   admissible selections may all differ *)
Theorem sorted_order_independent : forall (loc1 loc2 : state path) p1 p2,
  LSorted loc1 -> LSorted loc2 ->
  Permutation (map wp_of (vals loc1 p1)) (map wp_of (vals loc2 p2)) ->
  map PathSelSpec.pkey (map ps_of (vals loc1 p1)) = map PathSelSpec.pkey (map ps_of (vals loc2 p2)) /\
  ecmp (route_at loc1 p1) = ecmp (route_at loc2 p2) /\
  (NoDup (map PathSelSpec.pkey (map ps_of (vals loc1 p1))) ->
   Permutation (vals loc1 p1) (vals loc2 p2) ->
   forall o, visible o loc1 p1 = visible o loc2 p2).
Proof.
  intros loc1 loc2 p1 p2 L1 L2 HP.
  destruct (L1 p1) as [S1 E1]. destruct (L2 p2) as [S2 E2].
  assert (A : forall l, Sorted PathSelSpec.not_less_than_pred (map ps_of l) ->
                        PathSelSpec.sort_admits (map PathSelSpec.embed (map wp_of l)) (map ps_of l)).
  { intros l S. unfold ps_of in *. rewrite map_map. split; [apply Permutation_refl|exact S]. }
  destruct (PathSelProofs.order_independent _ _ _ _ HP (A _ S1) (A _ S2)) as [K [_ [[n [C1 C2]] _]]].
  assert (EC : ecmp (route_at loc1 p1) = ecmp (route_at loc2 p2)).
  { rewrite E1 in C1. rewrite E2 in C2.
    assert (N1 : N.of_nat (ecmp (route_at loc1 p1)) = n) by (now inversion C1).
    assert (N2 : N.of_nat (ecmp (route_at loc2 p2)) = n) by (now inversion C2).
    apply Nat2N.inj. now rewrite N1, N2. }
  split; [exact K|]. split; [exact EC|].
  intros ND HPerm o.
  assert (EQ : vals loc1 p1 = vals loc2 p2).
  { apply (map_inj_on _ _ (fun x => PathSelSpec.pkey (ps_of x)) (vals loc1 p1)); [|apply incl_refl| |].
    - rewrite <- (map_map ps_of PathSelSpec.pkey (vals loc1 p1)). exact ND.
    - intros x. apply Permutation_in, Permutation_sym, HPerm.
    - rewrite <- (map_map ps_of PathSelSpec.pkey (vals loc1 p1)), <- (map_map ps_of PathSelSpec.pkey (vals loc2 p2)). exact K. }
  unfold vals in EQ.
  pose proof (f_equal (@length path) EQ) as EL. rewrite !map_length in EL.
  unfold visible, limit_slice. rewrite EC, <- !firstn_map.
  apply f_equal2; [apply f_equal; exact EL|exact EQ].
Qed.
