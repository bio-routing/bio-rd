(* C02/C03 proofs. The key comparison [rfc_cmp] is the lexicographic order [lex] on the integer
   vectors [vec] of the keys, and [vec] is injective: so it is a total order on keys. The model's
   Select on well-formed paths is [rfc_cmp] of their keys ([select_is_rfc]); everything C02 says about
   Select, [less] and the sort is carried over that equation from facts about [rfc_cmp], and ECMP
   likewise from [ecmp_key]. *)
From Coq Require Import List NArith ZArith Bool Lia Sorting.Permutation Sorting.Sorted.
Import ListNotations.
From BioVerif Require Import Lib.ListFacts Model.PathSel Spec.PathSelSpec.

Fixpoint lex (u v : list Z) : Z :=
  match u, v with
  | [], [] => 0%Z
  | [], _ :: _ => (-1)%Z
  | _ :: _, [] => 1%Z
  | x :: u', y :: v' =>
    match (x ?= y)%Z with Gt => 1%Z | Lt => (-1)%Z | Eq => lex u' v' end
  end.

Lemma lex_range : forall u v, lex u v = 1%Z \/ lex u v = 0%Z \/ lex u v = (-1)%Z.
Proof.
  induction u as [|x u IH]; destruct v as [|y v]; cbn; auto.
  destruct (x ?= y)%Z; auto.
Qed.

Lemma lex_antisym : forall u v, lex u v = (- lex v u)%Z.
Proof.
  induction u as [|x u IH]; destruct v as [|y v]; cbn; auto.
  rewrite (Z.compare_antisym y x). destruct (y ?= x)%Z; cbn; auto.
Qed.

Lemma lex_eq : forall u v, lex u v = 0%Z <-> u = v.
Proof.
  induction u as [|x u IH]; destruct v as [|y v]; cbn; split; intro H; try discriminate; auto.
  - destruct (Z.compare_spec x y) as [E|L|G]; try discriminate.
    subst. f_equal. apply IH; assumption.
  - injection H as -> ->. rewrite Z.compare_refl. apply IH. reflexivity.
Qed.

Lemma lex_cons : forall x y u v,
  lex (x :: u) (y :: v) = 1%Z <-> (y < x)%Z \/ x = y /\ lex u v = 1%Z.
Proof. intros. cbn [lex]. destruct (Z.compare_spec x y); lia. Qed.

Lemma lex_trans : forall u v w, lex u v = 1%Z -> lex v w = 1%Z -> lex u w = 1%Z.
Proof.
  induction u as [|x u IH]; destruct v as [|y v]; destruct w as [|z w]; try easy.
  rewrite !lex_cons. intros [H1|[-> H1]] [H2|[-> H2]]; [lia..|]. right. eauto.
Qed.

Definition b2z (b : bool) : Z := if b then 1%Z else 0%Z.

(* one component per decision step, in their order; negated where the lower value is preferred *)
Definition vec_bgp (k : bgp_key) : list Z :=
  [ Z.of_N (k_lp k); (- Z.of_N (k_aslen k))%Z; (- Z.of_N (k_origin k))%Z; (- Z.of_N (k_med k))%Z;
    b2z (k_ebgp k); (- Z.of_N (k_id k))%Z; (- Z.of_N (k_cl k))%Z;
    (- Z.of_N (ip_hi (k_src k)))%Z; (- Z.of_N (ip_lo (k_src k)))%Z;
    Z.of_N (ip_hi (k_nh k)); Z.of_N (ip_lo (k_nh k)) ].

Definition vec (k : key) : list Z :=
  match k with
  | KStatic a => [1%Z; Z.of_N (ip_hi a); Z.of_N (ip_lo a)]
  | KBGP b => 2%Z :: vec_bgp b
  end.

Lemma andthen_0_r : forall c, (c ;; 0%Z) = c.
Proof. intros. unfold andthen. destruct (Z.eqb_spec c 0); auto. Qed.

Lemma andthen_assoc : forall a b c, ((a ;; b) ;; c) = (a ;; b ;; c).
Proof. intros. unfold andthen. destruct (Z.eqb_spec a 0); auto. destruct (a =? 0)%Z eqn:E; auto. lia. Qed.

Lemma andthen_ne1 : forall c d, (c ;; d) <> 1%Z -> c <> 1%Z.
Proof. intros c d H E. subst. apply H. reflexivity. Qed.

Lemma andthen_opp : forall c d, (- (c ;; d))%Z = ((- c)%Z ;; (- d)%Z).
Proof.
  intros. unfold andthen. destruct (Z.eqb_spec c 0) as [E|NE].
  - subst. reflexivity.
  - destruct (Z.eqb_spec (- c) 0); [lia | reflexivity].
Qed.

Lemma andthen_range : forall c d,
  (c = 1 \/ c = 0 \/ c = -1)%Z -> (d = 1 \/ d = 0 \/ d = -1)%Z ->
  ((c ;; d) = 1 \/ (c ;; d) = 0 \/ (c ;; d) = -1)%Z.
Proof. intros c d Hc Hd. destruct Hc as [Hc|[Hc|Hc]]; subst; cbn; auto. Qed.

Lemma andthen_0 : forall c d, (c ;; d) = 0%Z <-> c = 0%Z /\ d = 0%Z.
Proof.
  intros. unfold andthen. destruct (Z.eqb_spec c 0); split; intro H; try tauto; try lia.
Qed.

Lemma prefer_high_range : forall x y,
  prefer_high x y = 1%Z \/ prefer_high x y = 0%Z \/ prefer_high x y = (-1)%Z.
Proof. intros. unfold prefer_high. destruct (x ?= y); auto. Qed.

Lemma prefer_high_antisym : forall x y, prefer_high x y = (- prefer_high y x)%Z.
Proof.
  intros. unfold prefer_high. rewrite (N.compare_antisym y x). destruct (y ?= x); reflexivity.
Qed.

Lemma prefer_high_0 : forall x y, prefer_high x y = 0%Z <-> x = y.
Proof.
  intros. unfold prefer_high. destruct (N.compare_spec x y); split; intro H0; try discriminate; try lia; auto.
Qed.

Lemma prefer_high_refl : forall x, prefer_high x x = 0%Z.
Proof. intros. apply prefer_high_0. reflexivity. Qed.

Lemma prefer_high_gt : forall x y, y < x -> prefer_high x y = 1%Z.
Proof. intros x y H. unfold prefer_high. apply N.compare_gt_iff in H. rewrite H. reflexivity. Qed.

Lemma hi_lex : forall x y r,
  (prefer_high x y ;; r) =
  match (Z.of_N x ?= Z.of_N y)%Z with Gt => 1%Z | Lt => (-1)%Z | Eq => r end.
Proof.
  intros. unfold andthen, prefer_high. rewrite N2Z.inj_compare.
  destruct (x ?= y); reflexivity.
Qed.

Lemma lo_lex : forall x y r,
  (prefer_low x y ;; r) =
  match (- Z.of_N x ?= - Z.of_N y)%Z with Gt => 1%Z | Lt => (-1)%Z | Eq => r end.
Proof.
  intros. unfold andthen, prefer_low, prefer_high. rewrite Z.compare_opp, N2Z.inj_compare.
  destruct (y ?= x); reflexivity.
Qed.

Lemma bool_lex : forall x y r,
  (prefer_true x y ;; r) =
  match (b2z x ?= b2z y)%Z with Gt => 1%Z | Lt => (-1)%Z | Eq => r end.
Proof. intros. destruct x, y; reflexivity. Qed.

Lemma rfc_cmp_bgp_lex : forall a b, rfc_cmp_bgp a b = lex (vec_bgp a) (vec_bgp b).
Proof.
  intros. unfold rfc_cmp_bgp, prefer_low_ip, prefer_high_ip, vec_bgp.
  rewrite <- (andthen_0_r (prefer_high (ip_lo (k_nh a)) (ip_lo (k_nh b)))).
  rewrite !andthen_assoc.
  cbn [lex].
  rewrite !hi_lex, !lo_lex, bool_lex, !Z.compare_opp.
  reflexivity.
Qed.

Lemma rfc_cmp_lex : forall a b, rfc_cmp a b = lex (vec a) (vec b).
Proof.
  intros [x|x] [y|y]; cbn [rfc_cmp vec]; try reflexivity.
  - unfold prefer_high_ip.
    rewrite <- (andthen_0_r (prefer_high (ip_lo x) (ip_lo y))).
    cbn [lex]. rewrite !hi_lex. reflexivity.
  - rewrite rfc_cmp_bgp_lex. cbn [lex]. reflexivity.
Qed.

Lemma vec_inj : forall a b, vec a = vec b -> a = b.
Proof.
  intros [[xh xl]|x] [[yh yl]|y]; cbn; intro H; try discriminate.
  - injection H as ->%N2Z.inj ->%N2Z.inj. reflexivity.
  - destruct x as [a1 a2 a3 a4 a5 a6 a7 [a8 a9] [a10 a11]];
      destruct y as [b1 b2 b3 b4 b5 b6 b7 [b8 b9] [b10 b11]].
    injection H as ->%N2Z.inj ->%Z.opp_inj%N2Z.inj ->%Z.opp_inj%N2Z.inj ->%Z.opp_inj%N2Z.inj
      ->%Z.b2z_inj ->%Z.opp_inj%N2Z.inj ->%Z.opp_inj%N2Z.inj ->%Z.opp_inj%N2Z.inj ->%Z.opp_inj%N2Z.inj
      ->%N2Z.inj ->%N2Z.inj.
    reflexivity.
Qed.

Theorem rfc_cmp_range : forall a b, rfc_cmp a b = 1%Z \/ rfc_cmp a b = 0%Z \/ rfc_cmp a b = (-1)%Z.
Proof. intros. rewrite rfc_cmp_lex. apply lex_range. Qed.

Theorem rfc_cmp_antisym : forall a b, rfc_cmp a b = (- rfc_cmp b a)%Z.
Proof. intros. rewrite !rfc_cmp_lex. apply lex_antisym. Qed.

Theorem rfc_cmp_eq : forall a b, rfc_cmp a b = 0%Z <-> a = b.
Proof.
  intros. rewrite rfc_cmp_lex, lex_eq. split; [apply vec_inj | intros ->; reflexivity].
Qed.

Theorem rfc_cmp_trans : forall a b c, rfc_cmp a b = 1%Z -> rfc_cmp b c = 1%Z -> rfc_cmp a c = 1%Z.
Proof. intros a b c. rewrite !rfc_cmp_lex. apply lex_trans. Qed.

(* [Rkey a b]: a is at least as good as b; the order a sorted path list is in *)
Definition Rkey (ka kb : key) : Prop := rfc_cmp kb ka <> 1%Z.

Lemma Rkey_trans : Relations_1.Transitive Rkey.
Proof.
  unfold Rkey. intros x y z H1 H2 E.
  destruct (rfc_cmp_range y x) as [F|[F|F]]; [contradiction| |].
  - apply rfc_cmp_eq in F. subst. contradiction.
  - apply H2, (rfc_cmp_trans z x y E). rewrite rfc_cmp_antisym, F. reflexivity.
Qed.

Lemma Rkey_antisym : forall a b, Rkey a b -> Rkey b a -> a = b.
Proof.
  unfold Rkey. intros a b H1 H2. apply rfc_cmp_eq.
  rewrite (rfc_cmp_antisym b a) in H1.
  destruct (rfc_cmp_range a b) as [E|[E|E]]; lia.
Qed.

Lemma eff_id_id' : forall b, eff_id b = id' b.
Proof. intros. unfold eff_id, id'. destruct (origid b); reflexivity. Qed.

Lemma hi_step : forall x y k,
  (if y <? x then 1%Z else if x <? y then (-1)%Z else k) = (prefer_high x y ;; k).
Proof.
  intros. destruct (N.ltb_spec y x) as [G|G]; [now rewrite (prefer_high_gt _ _ G)|].
  destruct (N.ltb_spec x y) as [L|L]; [now rewrite prefer_high_antisym, (prefer_high_gt _ _ L)|].
  replace y with x by lia. now rewrite prefer_high_refl.
Qed.

Lemma lo_step : forall x y k,
  (if x <? y then 1%Z else if y <? x then (-1)%Z else k) = (prefer_low x y ;; k).
Proof. intros. unfold prefer_low. apply hi_step. Qed.

(* the steps that test the losing side first (identifier, CLUSTER_LIST length) *)
Lemma lo_step' : forall x y k,
  (if y <? x then (-1)%Z else if x <? y then 1%Z else k) = (prefer_low x y ;; k).
Proof.
  intros. rewrite <- lo_step. destruct (N.ltb_spec y x), (N.ltb_spec x y); try reflexivity; lia.
Qed.

Lemma bool_step : forall b c k,
  (if c && negb b then (-1)%Z else if negb c && b then 1%Z else k) = (prefer_true b c ;; k).
Proof. intros. destruct b, c; reflexivity. Qed.

Lemma ip_compare_spec : forall a b, ip_compare a b = prefer_high_ip a b.
Proof.
  intros. unfold ip_compare, prefer_high_ip. rewrite hi_step.
  f_equal. rewrite <- (andthen_0_r (prefer_high (ip_lo a) (ip_lo b))). apply hi_step.
Qed.

Lemma prefer_high_ip_antisym : forall a b, prefer_high_ip a b = (- prefer_high_ip b a)%Z.
Proof. intros. unfold prefer_high_ip. rewrite andthen_opp, <- !prefer_high_antisym. reflexivity. Qed.

Lemma prefer_high_ip_range : forall a b,
  prefer_high_ip a b = 1%Z \/ prefer_high_ip a b = 0%Z \/ prefer_high_ip a b = (-1)%Z.
Proof. intros. apply andthen_range; apply prefer_high_range. Qed.

Lemma src_step : forall b c k,
  (if (ip_compare c b =? -1)%Z then (-1)%Z else if (ip_compare c b =? 1)%Z then 1%Z else k)
  = (prefer_low_ip b c ;; k).
Proof.
  intros. unfold prefer_low_ip. rewrite ip_compare_spec. unfold andthen.
  destruct (prefer_high_ip_range c b) as [E|[E|E]]; rewrite E; reflexivity.
Qed.

Lemma nh_step : forall b c,
  (if (ip_compare c b =? -1)%Z then 1%Z else if (ip_compare c b =? 1)%Z then (-1)%Z else 0%Z)
  = prefer_high_ip b c.
Proof.
  intros. rewrite ip_compare_spec, (prefer_high_ip_antisym b c).
  destruct (prefer_high_ip_range c b) as [E|[E|E]]; rewrite E; reflexivity.
Qed.

Theorem bgp_select_is_rfc : forall b c,
  bgp_select b c = rfc_cmp_bgp (bgp_key_of b) (bgp_key_of c).
Proof.
  intros. unfold bgp_select, rfc_cmp_bgp, bgp_key_of.
  cbn [k_lp k_aslen k_origin k_med k_ebgp k_id k_cl k_src k_nh].
  rewrite nh_step, src_step, !eff_id_id'.
  rewrite hi_step, !lo_step, bool_step, !lo_step'.
  reflexivity.
Qed.

Lemma prefer_low_refl : forall x, prefer_low x x = 0%Z.
Proof. intros. apply prefer_high_refl. Qed.

Lemma prefer_true_refl : forall x, prefer_true x x = 0%Z.
Proof. destruct x; reflexivity. Qed.

Lemma prefer_low_lt : forall x y, x < y -> prefer_low x y = 1%Z.
Proof. intros. apply prefer_high_gt. assumption. Qed.

Lemma prefer_low_ip_lt : forall a b, ip_lt a b -> prefer_low_ip a b = 1%Z.
Proof.
  intros a b [H|[E H]]; unfold prefer_low_ip, prefer_high_ip.
  - rewrite (prefer_high_gt _ _ H). reflexivity.
  - rewrite E, prefer_high_refl, (prefer_high_gt _ _ H). reflexivity.
Qed.

Definition better_at_first_difference (a b : bgp_path) : Prop :=
  lp b < lp a \/ lp a = lp b /\
  (aslen a < aslen b \/ aslen a = aslen b /\
  (origin a < origin b \/ origin a = origin b /\
  (med a < med b \/ med a = med b /\
  (ebgp a = true /\ ebgp b = false \/ ebgp a = ebgp b /\
  (id' a < id' b \/ id' a = id' b /\
  (cluster_len a < cluster_len b \/ cluster_len a = cluster_len b /\
   ip_lt (src a) (src b))))))).

Theorem first_difference_decides : forall a b,
  better_at_first_difference a b -> bgp_select a b = 1%Z.
Proof.
  intros a b H. rewrite bgp_select_is_rfc. unfold rfc_cmp_bgp, bgp_key_of.
  cbn [k_lp k_aslen k_origin k_med k_ebgp k_id k_cl k_src k_nh].
  destruct H as [H|[-> H]]; [now rewrite (prefer_high_gt _ _ H)|rewrite prefer_high_refl].
  destruct H as [H|[-> H]]; [now rewrite (prefer_low_lt _ _ H)|rewrite prefer_low_refl].
  destruct H as [H|[-> H]]; [now rewrite (prefer_low_lt _ _ H)|rewrite prefer_low_refl].
  destruct H as [H|[-> H]]; [now rewrite (prefer_low_lt _ _ H)|rewrite prefer_low_refl].
  destruct H as [[-> ->]|[-> H]]; [reflexivity|rewrite prefer_true_refl].
  destruct H as [H|[-> H]]; [now rewrite (prefer_low_lt _ _ H)|rewrite prefer_low_refl].
  destruct H as [H|[-> H]]; [now rewrite (prefer_low_lt _ _ H)|rewrite prefer_low_refl].
  now rewrite (prefer_low_ip_lt _ _ H).
Qed.

Lemma Ok_inj : forall (A : Type) (x y : A), Ok x = Ok y <-> x = y.
Proof. split; [intros [= ->] | intros ->]; reflexivity. Qed.

Lemma view_embed : forall w, view (embed w) = Some w.
Proof. destruct w; reflexivity. Qed.

Lemma pkey_embed : forall w, pkey (embed w) = Some (key_of w).
Proof. intros. unfold pkey. rewrite view_embed. reflexivity. Qed.

Lemma view_inv : forall p w, view p = Some w -> p = embed w.
Proof.
  intros [t s b] w. unfold view; cbn.
  destruct t as [|[| [] |]]; try discriminate; destruct s, b; try discriminate;
    intro H; injection H as <-; reflexivity.
Qed.

Theorem select_is_rfc : forall a b,
  path_select (embed a) (embed b) = Ok (rfc_cmp (key_of a) (key_of b)).
Proof.
  intros [s|b] [t|c]; cbn; try reflexivity.
  - unfold static_select. rewrite ip_compare_spec. reflexivity.
  - rewrite bgp_select_is_rfc. reflexivity.
Qed.

Lemma less_embed : forall a b,
  less (embed a) (embed b) = Ok (rfc_cmp (key_of a) (key_of b) =? 1)%Z.
Proof. intros. unfold less. rewrite select_is_rfc. reflexivity. Qed.

Theorem select_total : forall a b, exists z, path_select (embed a) (embed b) = Ok z.
Proof. intros. eexists. apply select_is_rfc. Qed.

Theorem tie_iff_key_eq : forall a b, tied a b <-> key_of a = key_of b.
Proof. intros. unfold tied. rewrite select_is_rfc, Ok_inj. apply rfc_cmp_eq. Qed.

Lemma prefers_Rkey : forall a b, prefers a b <-> Rkey (key_of a) (key_of b).
Proof.
  intros. unfold prefers, Rkey. rewrite select_is_rfc, !Ok_inj, (rfc_cmp_antisym (key_of b)).
  destruct (rfc_cmp_range (key_of a) (key_of b)) as [E|[E|E]]; lia.
Qed.

Theorem prefers_total : forall a b, prefers a b \/ prefers b a.
Proof. intros. rewrite !prefers_Rkey. unfold Rkey. rewrite (rfc_cmp_antisym (key_of b)). lia. Qed.

Theorem prefers_trans : forall a b c, prefers a b -> prefers b c -> prefers a c.
Proof. intros a b c. rewrite !prefers_Rkey. apply Rkey_trans. Qed.

Theorem tied_equiv :
  (forall a, tied a a) /\ (forall a b, tied a b -> tied b a) /\
  (forall a b c, tied a b -> tied b c -> tied a c).
Proof.
  repeat split; intros *; rewrite !tie_iff_key_eq; congruence.
Qed.

Lemma not_less_Rkey : forall a b,
  not_less_than_pred (embed a) (embed b) <-> Rkey (key_of a) (key_of b).
Proof.
  intros. unfold not_less_than_pred, Rkey. rewrite less_embed, Ok_inj. apply Z.eqb_neq.
Qed.

Lemma sorted_perm_unique : forall (A : Type) (R : A -> A -> Prop),
  (forall a b, R a b -> R b a -> a = b) ->
  forall l1 l2, StronglySorted R l1 -> StronglySorted R l2 -> Permutation l1 l2 -> l1 = l2.
Proof.
  intros A R anti. induction l1 as [|a l1 IH]; intros l2 S1 S2 P.
  - apply Permutation_nil in P. subst. reflexivity.
  - destruct l2 as [|b l2].
    + apply Permutation_sym, Permutation_nil in P. discriminate.
    + apply StronglySorted_inv in S1 as [S1 F1]. apply StronglySorted_inv in S2 as [S2 F2].
      assert (E : a = b).
      { assert (Ia : In a (b :: l2)) by (eapply Permutation_in; [exact P | left; reflexivity]).
        assert (Ib : In b (a :: l1)) by (eapply Permutation_in; [apply Permutation_sym; exact P | left; reflexivity]).
        destruct Ia as [->|Ia]; [reflexivity|]. destruct Ib as [->|Ib]; [reflexivity|].
        rewrite Forall_forall in F1, F2. apply anti; auto. }
      subst b. f_equal. apply IH; auto. eapply Permutation_cons_inv; eassumption.
Qed.

Lemma sorted_embed : forall ws,
  Sorted not_less_than_pred (map embed ws) <-> Sorted Rkey (map key_of ws).
Proof.
  induction ws as [|a ws IH]; cbn; [split; constructor|].
  split; intro S; apply Sorted_inv in S as [S H]; (constructor; [apply IH; assumption|]);
    destruct ws as [|b ws]; cbn in *; constructor;
    apply HdRel_inv in H; apply not_less_Rkey; assumption.
Qed.

Lemma keys_sorted_paths : forall ws,
  Sorted Rkey (map key_of ws) -> Sorted not_less_than_pred (map embed ws).
Proof. intros ws. apply sorted_embed. Qed.

Lemma sorted_keys_strong : forall ws,
  Sorted not_less_than_pred (map embed ws) -> StronglySorted Rkey (map key_of ws).
Proof. intros ws S. apply Sorted_StronglySorted; [exact Rkey_trans | apply sorted_embed, S]. Qed.

Theorem ecmp_is_key : forall a b, path_ecmp (embed a) (embed b) = Ok (ecmp_key (key_of a) (key_of b)).
Proof.
  intros [s|b] [t|c]; cbn; try reflexivity.
  f_equal. unfold bgp_ecmp.
  destruct (lp b =? lp c), (aslen b =? aslen c), (med b =? med c), (origin b =? origin c); reflexivity.
Qed.

Theorem ecmp_pair_total : forall a b, exists e, path_ecmp (embed a) (embed b) = Ok e.
Proof. intros. eexists. apply ecmp_is_key. Qed.

Theorem ecmp_count_is_keys : forall ws,
  ecmp_count (map embed ws) = Ok (ecmp_count_keys (map key_of ws)).
Proof.
  induction ws as [|a ws IH]; [reflexivity|].
  destruct ws as [|b ws]; [reflexivity|].
  cbn [map] in *. cbn [ecmp_count ecmp_count_keys].
  rewrite ecmp_is_key. destruct (ecmp_key (key_of a) (key_of b)); [|reflexivity].
  cbn [ecmp_count] in IH. rewrite IH. reflexivity.
Qed.

Lemma map_pkey_embed : forall ws, map pkey (map embed ws) = map Some (map key_of ws).
Proof. intros. rewrite !map_map. apply map_ext, pkey_embed. Qed.

Definition arranges (c : list wpath) (o : list path) : Prop :=
  exists w, o = map embed w /\ Permutation c w /\ Sorted not_less_than_pred o.

Lemma admits_embed : forall c o, sort_admits (map embed c) o -> arranges c o.
Proof.
  intros c o [P S]. apply Permutation_sym, Permutation_map_inv in P as [w [-> P]].
  exists w. auto.
Qed.

(* what two sorted arrangements of the same candidates have in common *)
Definition same_selection (o1 o2 : list path) : Prop :=
  map pkey o1 = map pkey o2 /\
  option_map pkey (best o1) = option_map pkey (best o2) /\
  (exists n, ecmp_count o1 = Ok n /\ ecmp_count o2 = Ok n) /\
  map pkey (ecmp_set o1) = map pkey (ecmp_set o2).

Lemma same_selection_embed : forall w1 w2,
  map key_of w1 = map key_of w2 -> same_selection (map embed w1) (map embed w2).
Proof.
  intros w1 w2 E. unfold same_selection.
  assert (K : map pkey (map embed w1) = map pkey (map embed w2)) by (rewrite !map_pkey_embed, E; reflexivity).
  split; [exact K|]. split; [|split].
  - unfold best. destruct w1 as [|a w1], w2 as [|b w2]; try discriminate; [reflexivity|].
    cbn in *. injection K as K _. rewrite K. reflexivity.
  - exists (ecmp_count_keys (map key_of w1)). rewrite !ecmp_count_is_keys, E. auto.
  - unfold ecmp_set. rewrite !ecmp_count_is_keys, E.
    rewrite <- !firstn_map, K. reflexivity.
Qed.

Lemma same_selection_sorted : forall c1 c2 o1 o2,
  Permutation c1 c2 -> arranges c1 o1 -> arranges c2 o2 -> same_selection o1 o2.
Proof.
  intros c1 c2 o1 o2 P [w1 [-> [P1 S1]]] [w2 [-> [P2 S2]]].
  apply same_selection_embed, (sorted_perm_unique key Rkey Rkey_antisym); auto using sorted_keys_strong.
  apply Permutation_map. rewrite <- P1, P. exact P2.
Qed.

Theorem order_independent : forall c1 c2 o1 o2,
  Permutation c1 c2 ->
  sort_admits (map embed c1) o1 -> sort_admits (map embed c2) o2 ->
  same_selection o1 o2.
Proof. intros c1 c2 o1 o2 P A1 A2. eapply same_selection_sorted; eauto using admits_embed. Qed.

Lemma ip_eqb_eq : forall a b, ip_eqb a b = true <-> a = b.
Proof.
  intros. unfold ip_eqb. rewrite Z.eqb_eq, ip_compare_spec.
  change (prefer_high_ip a b) with (rfc_cmp (KStatic a) (KStatic b)). rewrite rfc_cmp_eq.
  split; [intros [= ->] | intros ->]; reflexivity.
Qed.

Lemma list_eqb_eq : forall l m, list_eqb l m = true <-> l = m.
Proof. exact (list_eqb_by_eq N.eqb_eq). Qed.

Lemma clist_eqb_eq : forall a b, clist_eqb a b = true <-> a = b.
Proof. exact (option_eqb_eq list_eqb_eq). Qed.

Lemma bgp_compare_eq : forall b c, bgp_compare b c = true <-> b = c.
Proof.
  intros b c. unfold bgp_compare. rewrite !andb_true_iff, !N.eqb_eq, !ip_eqb_eq, clist_eqb_eq, Bool.eqb_true_iff.
  destruct b, c; cbn. split.
  - intros [[[[[[[[[[[? ?] ?] ?] ?] ?] ?] ?] ?] ?] ?] ?]. subst. reflexivity.
  - intro H. injection H. intros. subst. repeat split.
Qed.

Lemma compare_embed : forall x w,
  path_compare (embed x) (embed w) = Ok (if wpath_eq_dec x w then true else false).
Proof.
  intros x w. destruct (wpath_eq_dec x w) as [E|NE].
  - subst. destruct w as [t|c]; cbn; f_equal.
    + apply ip_eqb_eq. reflexivity.
    + apply bgp_compare_eq. reflexivity.
  - destruct x as [s|b], w as [t|c]; cbn; try reflexivity; f_equal.
    + destruct (static_equal s t) eqn:SE; [|reflexivity].
      exfalso. apply NE. apply ip_eqb_eq in SE. destruct s, t; cbn in *. subst. reflexivity.
    + destruct (bgp_compare b c) eqn:BE; [|reflexivity].
      exfalso. apply NE. apply bgp_compare_eq in BE. subst. reflexivity.
Qed.

Lemma remove_embed : forall w ws,
  remove_path (map embed ws) (embed w) = Ok (map embed (remove1 w ws)).
Proof.
  induction ws as [|x ws IH]; [reflexivity|].
  cbn [map remove_path remove1]. rewrite compare_embed.
  destruct (wpath_eq_dec x w); [reflexivity|]. rewrite IH. reflexivity.
Qed.

Lemma remove1_rm1 : forall w l, remove1 w l = rm1 wpath_eq_dec w l.
Proof.
  induction l as [|x l IH]; cbn [remove1 rm1 drop_first]; [reflexivity|].
  destruct (wpath_eq_dec x w); [|rewrite IH]; reflexivity.
Qed.

Lemma remove1_perm : forall x l l', Permutation l l' -> Permutation (remove1 x l) (remove1 x l').
Proof. intros x l l'. rewrite !remove1_rm1. apply rm1_perm. Qed.

Theorem history_state : forall h s s' c,
  runs s (map embed_op h) s' -> arranges c s -> arranges (fold_left bag_step h c) s'.
Proof.
  induction h as [|o h IH]; intros s s' c R A.
  - inversion R; subst. exact A.
  - destruct A as [ws [-> [P _]]].
    destruct o as [w|w]; cbn [map embed_op] in R; cbn [fold_left bag_step];
      inversion R as [|? ? o ? ? [Pa So] R'|? ? r o ? ? Er [Pa So] R']; subst;
      apply (IH o); try assumption; apply admits_embed; split; try assumption; rewrite <- Pa.
    + rewrite map_app. apply Permutation_app_tail, Permutation_map, P.
    + rewrite remove_embed in Er. injection Er as <-. apply Permutation_map, remove1_perm, P.
Qed.

Lemma isort_perm : forall l, Permutation l (isort l).
Proof. intros l. exact (Permutation_sym (insert_sort_perm lessb l)). Qed.

Lemma lessb_embed : forall a b,
  lessb (embed a) (embed b) = (rfc_cmp (key_of a) (key_of b) =? 1)%Z.
Proof.
  intros. unfold lessb. rewrite less_embed.
  destruct (rfc_cmp (key_of a) (key_of b) =? 1)%Z; reflexivity.
Qed.

Lemma HdRel_insert : forall a p l,
  HdRel not_less_than_pred a l -> not_less_than_pred a p -> HdRel not_less_than_pred a (insert p l).
Proof.
  intros a p [|x l] H Hp; cbn; [constructor; assumption|].
  destruct (lessb p x); constructor; [assumption|]. apply HdRel_inv in H. assumption.
Qed.

Lemma insert_sorted : forall w ws,
  Sorted not_less_than_pred (map embed ws) ->
  Sorted not_less_than_pred (insert (embed w) (map embed ws)).
Proof.
  induction ws as [|x ws IH]; cbn [map insert]; intro S.
  - repeat constructor.
  - rewrite lessb_embed. destruct (Z.eqb_spec (rfc_cmp (key_of w) (key_of x)) 1) as [E|NE].
    + constructor; [assumption|]. constructor. apply not_less_Rkey. unfold Rkey.
      rewrite rfc_cmp_antisym. lia.
    + apply Sorted_inv in S as [S H]. constructor; [apply IH; assumption|].
      apply HdRel_insert; [assumption|]. apply not_less_Rkey. exact NE.
Qed.

Lemma isort_embed : forall ws, exists ws', isort (map embed ws) = map embed ws'.
Proof.
  intros. destruct (Permutation_map_inv _ _ (Permutation_sym (isort_perm (map embed ws)))) as [ws' [E _]].
  exists ws'. exact E.
Qed.

Lemma isort_sorted : forall ws, Sorted not_less_than_pred (isort (map embed ws)).
Proof.
  induction ws as [|a ws IH]; cbn; [constructor|].
  fold (isort (map embed ws)). destruct (isort_embed ws) as [ws' E].
  rewrite E in *. apply insert_sorted. assumption.
Qed.

Theorem isort_admits : forall c, sort_admits (map embed c) (isort (map embed c)).
Proof. intros. split; [apply isort_perm | apply isort_sorted]. Qed.

Theorem run_exec_runs : forall h c,
  exists s, run_exec (map embed c) (map embed_op h) = Ok s /\ runs (map embed c) (map embed_op h) s.
Proof.
  induction h as [|o h IH]; intro c.
  - exists (map embed c). split; [reflexivity | constructor].
  - destruct o as [w|w]; cbn [map embed_op run_exec step].
    + pose proof (isort_admits (c ++ [w])) as A. destruct (isort_embed (c ++ [w])) as [c' E].
      rewrite map_app in A, E. cbn [map] in A, E.
      destruct (IH c') as [s [X R]]. exists s. rewrite E. split; [assumption|].
      econstructor; [|exact R]. rewrite <- E. exact A.
    + rewrite remove_embed. destruct (isort_embed (remove1 w c)) as [c' E].
      destruct (IH c') as [s [X R]]. exists s. rewrite E. split; [assumption|].
      econstructor; [apply remove_embed | | exact R]. rewrite <- E. apply isort_admits.
Qed.

(* The ECMP count is exact. Two keys are equal-cost iff they agree once the attributes of the later steps are
   blanked ([cost_key]); blanking keeps the order of a sorted list, so by antisymmetry the keys equal-cost with
   the head form a prefix ([ecmp_convex]). *)
Definition ip0 : ip := mkip 0 0.

Definition cost_key (k : key) : key :=
  match k with
  | KStatic _ => KStatic ip0
  | KBGP x => KBGP (mkkey (k_lp x) (k_aslen x) (k_origin x) (k_med x) false 0 0 ip0 ip0)
  end.

Lemma ecmp_key_cost : forall a b, ecmp_key a b = true <-> cost_key a = cost_key b.
Proof.
  intros [x|x] [y|y]; cbn; try easy.
  rewrite !andb_true_iff, !N.eqb_eq. split; [intros [[[-> ->] ->] ->]; reflexivity|intros [= -> -> -> ->]; auto].
Qed.

Lemma cost_key_mono : forall a b, Rkey a b -> Rkey (cost_key a) (cost_key b).
Proof.
  unfold Rkey. intros [x|x] [y|y] H; cbn in *; try easy.
  (* on blanked keys the chain is its first four steps; on the keys themselves they come first *)
  unfold rfc_cmp_bgp in *. cbn. rewrite andthen_0_r. rewrite <- !andthen_assoc in *.
  now do 5 apply andthen_ne1 in H.
Qed.

Lemma ecmp_key_refl : forall a, ecmp_key a a = true.
Proof. intros. now apply ecmp_key_cost. Qed.

Lemma ecmp_key_sym : forall a b, ecmp_key a b = ecmp_key b a.
Proof. intros. apply eq_true_iff_eq. rewrite !ecmp_key_cost. easy. Qed.

Lemma ecmp_key_trans_eq : forall a b, ecmp_key a b = true -> forall c, ecmp_key a c = ecmp_key b c.
Proof. intros a b H c. apply eq_true_iff_eq. rewrite !ecmp_key_cost, (proj1 (ecmp_key_cost a b) H). easy. Qed.

Lemma ecmp_convex : forall a b c,
  Rkey a b -> Rkey b c -> ecmp_key a c = true -> ecmp_key a b = true.
Proof.
  intros a b c H1 H2 H. apply ecmp_key_cost in H. apply ecmp_key_cost.
  apply cost_key_mono in H1, H2. rewrite <- H in H2. now apply Rkey_antisym.
Qed.

Lemma ecmp_count_keys_cons2 : forall a b t,
  ecmp_count_keys (a :: b :: t) = if ecmp_key a b then N.succ (ecmp_count_keys (b :: t)) else 1.
Proof. reflexivity. Qed.

(* at [f := key_of] the filter is the one by [equal_cost], by conversion *)
Lemma ecmp_count_keys_exact : forall (A : Type) (f : A -> key) a l, StronglySorted Rkey (map f (a :: l)) ->
  ecmp_count_keys (map f (a :: l)) = N.of_nat (length (filter (fun y => ecmp_key (f a) (f y)) (a :: l))).
Proof.
  intros A f a l. revert a. induction l as [|b t IH]; intros a S; cbn [map filter]; rewrite ecmp_key_refl; [reflexivity|].
  apply StronglySorted_inv in S as [S Fa]. specialize (IH b S). cbn [map filter] in IH. rewrite ecmp_key_refl in IH.
  rewrite ecmp_count_keys_cons2. destruct (ecmp_key (f a) (f b)) eqn:E.
  - rewrite IH, (filter_ext _ _ (fun y => ecmp_key_trans_eq _ _ E (f y)) t). cbn [length].
    rewrite <- !Nat2N.inj_succ. reflexivity.
  - rewrite filter_none; [reflexivity|].
    intros c Hc. destruct (ecmp_key (f a) (f c)) eqn:Ec; [|reflexivity].
    apply StronglySorted_inv in S as [_ Fb]. rewrite Forall_forall in Fa, Fb.
    rewrite <- E. symmetry. eapply ecmp_convex; [apply Fa; left; reflexivity | apply Fb, in_map, Hc | exact Ec].
Qed.

