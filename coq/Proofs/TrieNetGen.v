(* C01: the regenerated definitions of the four prefix operations the trie calls (Gen/NetGen.v)
   agree with the hand-written transcription (Model/NetArith.v).  Only the trie-relevant functions
   (Equal, Contains, GetSupernet, BitAtPosition and what they call) are compared here, so a change
   of meaning of one of THEM in net/prefix.go or net/ip.go stops this file from compiling, while
   unrelated functions of package net (Compare, masks, base address, text) do not concern C01.
   (C15's Proofs/NetGenEquiv.v covers all translated functions.) *)
From Coq Require Import ZArith.
From BioVerif Require Import Lib.Word Model.NetArith Gen.NetGen Model.TrieNet.
Open Scope Z_scope.

Lemma tg_Equal_eq p x : g_Prefix_Equal p x = pfx_equal p x.
Proof. reflexivity. Qed.

Lemma tg_BitAtPosition_eq a pos : g_IP_BitAtPosition a pos = BitAtPosition a pos.
Proof. reflexivity. Qed.

Lemma tg_containsIPv6_eq p x : g_Prefix_containsIPv6 p x = containsIPv6 p x.
Proof. unfold g_Prefix_containsIPv6, containsIPv6. destruct (plen p <=? 64); reflexivity. Qed.

Lemma tg_Contains_eq p x : g_Prefix_Contains p x = Contains p x.
Proof. unfold g_Prefix_Contains, Contains. rewrite tg_containsIPv6_eq. reflexivity. Qed.

Lemma tg_supernet4_loop_eq fuel : forall a b m,
  g_Prefix_supernetIPv4_loop1 fuel a b m =
  match supernet4_loop fuel a b m with Some (a', m') => Some (a', a', m') | None => None end.
Proof.
  induction fuel as [|f IH]; intros a b m; [reflexivity|].
  cbn [g_Prefix_supernetIPv4_loop1 supernet4_loop].
  destruct (Z.eqb_spec a b) as [->|NE]; cbn [negb]; [reflexivity | apply IH].
Qed.

Lemma tg_supernetIPv4_eq p x : g_Prefix_supernetIPv4 p x = supernetIPv4 p x.
Proof.
  unfold g_Prefix_supernetIPv4, supernetIPv4. rewrite tg_supernet4_loop_eq.
  change (g_min (plen p) (plen x)) with (wminu (plen p) (plen x)).
  change g_IP_ToUint32 with ToUint32.
  destruct (supernet4_loop 34 _ _ _) as [[a' m']|]; reflexivity.
Qed.

Lemma tg_supernet6_loop_eq fuel : forall M p x a b n mask,
  match g_Prefix_supernetIPv6_loop1 fuel M p x a b n mask with
  | Some (_, _, n', mask') => Some (n', mask')
  | None => None
  end = supernet6_loop fuel (addr p) (addr x) M a b n mask.
Proof.
  induction fuel as [|f IH]; intros M p x a b n mask; [reflexivity|].
  cbn [g_Prefix_supernetIPv6_loop1 supernet6_loop].
  destruct (Bool.eqb a b && (n <? M)); [|reflexivity].
  rewrite IH. reflexivity.
Qed.

Lemma tg_supernetIPv6_eq p x : g_Prefix_supernetIPv6 p x = supernetIPv6 p x.
Proof.
  unfold g_Prefix_supernetIPv6, supernetIPv6.
  rewrite <- (tg_supernet6_loop_eq 257 (wminu (plen p) (plen x)) p x).
  change (g_min (plen p) (plen x)) with (wminu (plen p) (plen x)).
  change g_IP_BitAtPosition with BitAtPosition.
  destruct (g_Prefix_supernetIPv6_loop1 257 _ p x _ _ 0 0) as [[[[a' b'] n'] mask']|]; reflexivity.
Qed.

Lemma tg_GetSupernet_eq p x : g_Prefix_GetSupernet p x = GetSupernet p x.
Proof.
  unfold g_Prefix_GetSupernet, GetSupernet. rewrite tg_supernetIPv4_eq, tg_supernetIPv6_eq. reflexivity.
Qed.

Lemma tg_supernet_eq p x : g_supernet p x = n_supernet p x.
Proof. unfold g_supernet, n_supernet. rewrite tg_GetSupernet_eq. reflexivity. Qed.

Lemma tg_bitAt_eq p pos : g_bitAt p pos = n_bitAt p pos.
Proof. reflexivity. Qed.
