(* C01: the trie over the machine-word prefixes of package net (Model/TrieNet.v) is simulated by
   the trie over their bit strings, so the refinement theorems of Proofs/TrieProofs.v hold for it
   (sim_refines).  The interface obligations of Proofs/TrieSim.v are discharged from the C15
   theorems, for canonical prefixes (Valid: no host bit set) of one family; likewise for the
   functions regenerated from the Go source (the obg_ lemmas).  Equal and Contains are read on the
   common length of the two addresses' bits (Equal_lcp, Contains_lcp), as is_pre reads the two bit
   strings (is_pre_bits_of).  Trap: Spec.NetSpec and Lib.BitPfx each define bits and lcp; the bare
   names are BitPfx's by the order of the two import lines (lcp_list_nat, is_pre_lcp relate them). *)
From Coq Require Import List Bool ZArith Lia Permutation.
From BioVerif Require Import Model.NetArith Spec.NetSpec Gen.NetGen
  Proofs.NetBits Proofs.NetProofs Proofs.NetSupernet.
From BioVerif Require Import Lib.ListFacts Lib.BitPfx Model.Trie Model.TrieNet Spec.TrieSpec
  Proofs.BitPfxFacts Proofs.TrieSim Proofs.TrieProofs Proofs.TrieNetGen.
Import ListNotations.

(* the significant bits of a prefix: the first len bits of the address (NetSpec.pbits) *)
Definition bits_of (p : pfx) : BitPfx.bits := firstn (plen_nat p) (pbits p).

(* canonical prefix of family fam (true = IPv4): well formed words, len <= 32/128, no host bits *)
Definition canon (fam : bool) (p : pfx) : Prop :=
  wf_pfx p /\ legacy (addr p) = fam /\ Valid p = true.

Lemma lcp_list_nat : forall l l' : list bool, BitPfx.lcp l l' = firstn (NetSpec.lcp l l') l.
Proof.
  induction l as [|a l IH]; intros [|b l']; simpl; auto.
  destruct (Bool.eqb a b); simpl; [rewrite IH|]; reflexivity.
Qed.

Lemma lcp_nat_firstn : forall (l l' : list bool) a b,
  NetSpec.lcp (firstn a l) (firstn b l') = Nat.min (NetSpec.lcp l l') (Nat.min a b).
Proof.
  induction l as [|x l IH]; intros l' a b.
  - rewrite firstn_nil. reflexivity.
  - destruct a as [|a]; [simpl; lia|].
    destruct l' as [|y l']; [rewrite firstn_nil; simpl; lia|].
    destruct b as [|b]; [simpl; lia|].
    simpl. destruct (Bool.eqb x y); [rewrite IH; lia|reflexivity].
Qed.

Lemma is_pre_lcp : forall s t, is_pre s t = true <-> (length s <= NetSpec.lcp s t)%nat.
Proof. intros s t. rewrite is_pre_firstn, lcp_ge_iff, firstn_all. intuition. Qed.

Section Canon.
  Variable fam : bool.

  Lemma bits_of_length : forall p, canon fam p -> length (bits_of p) = plen_nat p.
  Proof.
    intros p ((_ & Hl) & _). unfold bits_of, pbits, plen_nat. rewrite firstn_length, length_ip_bits. lia.
  Qed.

  Lemma pbits_decomp : forall p, canon fam p ->
    pbits p = bits_of p ++ repeat false (length (pbits p) - plen_nat p).
  Proof.
    intros p (W & F & V). apply (Valid_correct p W) in V. unfold valid_spec in V.
    rewrite <- V. unfold bits_of. symmetry. apply firstn_skipn.
  Qed.

  Lemma is_pre_bits_of : forall p x, canon fam p ->
    (is_pre (bits_of p) (bits_of x) = true <->
     (plen_nat p <= Nat.min (plen_nat x) (NetSpec.lcp (pbits p) (pbits x)))%nat).
  Proof.
    intros p x Hp. rewrite is_pre_lcp, (bits_of_length p Hp). unfold bits_of. rewrite lcp_nat_firstn. lia.
  Qed.

  Lemma ob_equal : forall p x, canon fam p -> canon fam x ->
    pfx_equal p x = beq (bits_of p) (bits_of x).
  Proof.
    intros p x Hp Hx. apply Bool.eq_true_iff_eq. rewrite beq_is_pre, andb_true_iff, Nat.eqb_eq.
    rewrite (is_pre_bits_of p x Hp), (bits_of_length p Hp), (bits_of_length x Hx).
    destruct Hp as (Wp & Fp & Vp), Hx as (Wx & Fx & Vx).
    rewrite (Equal_lcp p x Wp Wx) by (auto; unfold same_family; congruence). lia.
  Qed.

  Lemma ob_contains : forall p x, canon fam p -> canon fam x ->
    Contains p x = bcontains (bits_of p) (bits_of x).
  Proof.
    intros p x Hp Hx. apply Bool.eq_true_iff_eq. unfold bcontains. rewrite andb_true_iff, Nat.ltb_lt.
    rewrite (is_pre_bits_of p x Hp), (bits_of_length p Hp), (bits_of_length x Hx).
    destruct Hp as (Wp & Fp & _), Hx as (Wx & Fx & _).
    rewrite (Contains_lcp p x Wp Wx) by (unfold same_family; congruence). lia.
  Qed.

  Lemma ob_len : forall p, canon fam p -> n_len p = blen (bits_of p).
  Proof. intros p H. unfold blen. rewrite (bits_of_length p H). reflexivity. Qed.

  Lemma ob_bit : forall p c, canon fam p -> canon fam c ->
    n_bitAt p (n_len c + 1) = bitAt (bits_of p) (n_len c + 1).
  Proof.
    intros p c Hp Hc. pose proof Hp as ((Wa & Wl) & Fp & Vp).
    assert (Hk : (n_len c <= 128)%nat).
    { destruct Hc as ((_ & Hl) & _). unfold n_len, width in *. destruct (legacy (addr c)); lia. }
    unfold n_bitAt. rewrite BitAtPosition_correct by (auto; lia).
    rewrite bit_spec_nth by lia.
    replace (Z.to_nat (Z.of_nat (n_len c + 1) - 1)) with (n_len c) by lia.
    rewrite Nat.add_1_r. cbn [bitAt].
    change (ip_bits (addr p)) with (pbits p). rewrite (pbits_decomp p Hp).
    destruct (Nat.lt_ge_cases (n_len c) (length (bits_of p))) as [L|L].
    - rewrite app_nth1 by exact L. reflexivity.
    - rewrite app_nth2 by exact L. rewrite nth_repeat. symmetry. apply nth_overflow. exact L.
  Qed.

  Lemma ob_supernet : forall p c, canon fam p -> canon fam c ->
    pfx_equal c p = false -> Contains c p = false -> Contains p c = false ->
    canon fam (n_supernet p c) /\ bits_of (n_supernet p c) = BitPfx.lcp (bits_of p) (bits_of c).
  Proof.
    intros p c Hp Hc E C1 C2.
    pose proof Hp as (Wp & Fp & Vp). pose proof Hc as (Wc & Fc & Vc).
    rewrite (eqb_sym_of pfx_equal_eq) in E.
    assert (SF : same_family (addr p) (addr c)) by (unfold same_family; congruence).
    destruct (GetSupernet_trie p c Wp Wc SF Vp Vc E C2 C1) as (s & Hs & Hl & Hb & Ws & Fs & _ & _ & Vs & _).
    (* the precondition once more, in nat, for the last lia *)
    assert (Hk : (NetSpec.lcp (pbits p) (pbits c) < Nat.min (plen_nat p) (plen_nat c))%nat).
    { pose proof (proj1 (trie_precondition_iff p c Wp Wc SF Vp Vc) (conj E (conj C2 C1))) as K.
      destruct Wp as (_ & ?), Wc as (_ & ?). unfold plen_nat.
      rewrite Z2Nat.inj_min in K. exact K. }
    unfold n_supernet. rewrite Hs. split.
    - split; [exact Ws|]. split; [unfold same_family in Fs; congruence | exact Vs].
    - set (k := NetSpec.lcp (pbits p) (pbits c)) in *.
      unfold bits_of at 1. unfold plen_nat at 1. rewrite Hl, Nat2Z.id, Hb. unfold supernet_bits.
      rewrite firstn_keep_first by (auto; apply lcp_le_length).
      rewrite lcp_list_nat. unfold bits_of. rewrite lcp_nat_firstn. fold k.
      rewrite firstn_firstn. f_equal. lia.
  Qed.
End Canon.

Section CanonGen.
  Variable fam : bool.

  Lemma obg_equal : forall p x, canon fam p -> canon fam x ->
    g_Prefix_Equal p x = beq (bits_of p) (bits_of x).
  Proof. intros. rewrite tg_Equal_eq. apply (ob_equal fam); auto. Qed.

  Lemma obg_contains : forall p x, canon fam p -> canon fam x ->
    g_Prefix_Contains p x = bcontains (bits_of p) (bits_of x).
  Proof. intros. rewrite tg_Contains_eq. apply (ob_contains fam); auto. Qed.

  Lemma obg_bit : forall p c, canon fam p -> canon fam c ->
    g_bitAt p (n_len c + 1) = bitAt (bits_of p) (n_len c + 1).
  Proof. intros. rewrite tg_bitAt_eq. apply (ob_bit fam); auto. Qed.

  Lemma obg_supernet : forall p c, canon fam p -> canon fam c ->
    g_Prefix_Equal c p = false -> g_Prefix_Contains c p = false -> g_Prefix_Contains p c = false ->
    canon fam (g_supernet p c) /\ bits_of (g_supernet p c) = BitPfx.lcp (bits_of p) (bits_of c).
  Proof.
    intros p c Hp Hc. rewrite tg_Equal_eq, !tg_Contains_eq, tg_supernet_eq. apply (ob_supernet fam); auto.
  Qed.
End CanonGen.

Section SimRefines.
  Variable P : Type.
  Variable peq : P -> P -> bool.
  Hypothesis peq_refl : forall a, peq a a = true.
  Variable fam : bool.
  Variables (eqX contX : pfx -> pfx -> bool) (supX : pfx -> pfx -> pfx) (bitX : pfx -> nat -> bool).
  Hypothesis Oeq : forall p x, canon fam p -> canon fam x -> eqX p x = beq (bits_of p) (bits_of x).
  Hypothesis Ocont : forall p x, canon fam p -> canon fam x ->
    contX p x = bcontains (bits_of p) (bits_of x).
  Hypothesis Obit : forall p c, canon fam p -> canon fam c ->
    bitX p (n_len c + 1) = bitAt (bits_of p) (n_len c + 1).
  Hypothesis Osup : forall p c, canon fam p -> canon fam c ->
    eqX c p = false -> contX c p = false -> contX p c = false ->
    canon fam (supX p c) /\ bits_of (supX p c) = BitPfx.lcp (bits_of p) (bits_of c).

  Definition canon_op (o : op pfx P) : Prop := okop pfx P (canon fam) o.
  Definition bits_op : op pfx P -> bop P := mapop pfx bits P bits_of.
  Definition bits_route : route pfx P -> broute P := fr pfx bits P bits_of.

  Local Notation runX := (run pfx P peq eqX contX supX bitX n_len).

  Theorem sim_refines : forall (ops : list (op pfx P)) (q : pfx),
    Forall canon_op ops -> canon fam q ->
    let t := runX ops in
    let m := spec_run P peq (map bits_op ops) in
    option_map bits_route (t_get pfx P eqX bitX n_len t q) = spec_get P m (bits_of q) /\
    Permutation (map bits_route (t_lpm pfx P eqX contX t q)) (spec_lpm P m (bits_of q)) /\
    Permutation (map bits_route (t_getLonger pfx P eqX contX bitX n_len t q))
                (spec_longer P m (bits_of q)) /\
    Permutation (map bits_route (t_dump pfx P t)) m /\
    NoDup (map fst (t_dump pfx P t)) /\
    count pfx P t = Z.of_nat (length m).
  Proof.
    intros ops q Hops Hq t m.
    destruct (run_sim pfx BitPfx.bits P peq eqX contX supX bitX n_len beq bcontains BitPfx.lcp bitAt blen
                bits_of (canon fam) Oeq Ocont (ob_len fam) Obit Osup ops Hops) as (R & K).
    destruct (observations_sim pfx BitPfx.bits P eqX contX bitX n_len beq bcontains bitAt blen
                bits_of (canon fam) Oeq Ocont (ob_len fam) Obit t q K Hq) as (G & L & M & D & C).
    destruct (Inv_refines P (mapt pfx BitPfx.bits P bits_of t) m (bits_of q)) as (IG & IL & IM & ID & IN & IC).
    { unfold t. rewrite R. exact (Inv_run P peq peq_refl (map bits_op ops)). }
    unfold bits_route, broute, route in *. rewrite G, L, M, D, C.
    repeat split; try assumption.
    unfold bt_dump in IN. rewrite <- D, map_map in IN. cbn [fr fst] in IN.
    rewrite <- (map_map fst bits_of) in IN. exact (NoDup_map_inv _ _ IN).
  Qed.
End SimRefines.

Definition w_ten8 : pfx := mkpfx (IPv4 167772160) 8.        (* 10.0.0.0/8 *)
Definition w_ten9 : pfx := mkpfx (IPv4 167772160) 9.        (* 10.0.0.0/9 *)
Definition w_ten9b : pfx := mkpfx (IPv4 176160768) 9.       (* 10.128.0.0/9 *)
Definition w_doc32 : pfx := mkpfx (IPv6 2306139568115548160 0) 32.   (* 2001:db8::/32 *)
Definition w_zero6 : pfx := mkpfx (IPv6 0 0) 0.             (* ::/0 *)

Definition net_example_statement : Prop :=
  canon true w_ten8 /\ canon true w_ten9 /\ canon true w_ten9b /\ canon false w_doc32 /\ canon false w_zero6 /\
  let t := n_run N N.eqb [Add _ _ w_ten9 1%N; Add _ _ w_ten9b 2%N; Remove _ _ w_ten9 1%N; Add _ _ w_ten9 3%N] in
  nt_get N t w_ten8 = None /\
  nt_getLonger N t w_ten8 = [(w_ten9, [3%N]); (w_ten9b, [2%N])] /\
  nt_count N t = 2%Z /\
  let t6 := n_run N N.eqb [Add _ _ w_doc32 1%N; Add _ _ w_zero6 2%N] in
  nt_lpm N t6 w_doc32 = [(w_zero6, [2%N]); (w_doc32, [1%N])].
