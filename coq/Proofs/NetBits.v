(* C15: the bit list of a number splits where the number does (bits_split); firstn, skipn and keep_first
   of it are read off that equation as quotient, remainder and cleared value, and the order of the
   numbers is lex_cmp of their bits. *)
From Coq Require Import ZArith Lia Bool List.
From BioVerif Require Import Lib.ListFacts Lib.WordLemmas Model.NetArith Spec.NetSpec.

Lemma length_keep_first k (l : list bool) : (k <= length l)%nat -> length (keep_first k l) = length l.
Proof. intros; unfold keep_first. rewrite app_length, firstn_length, repeat_length. lia. Qed.

Lemma lcp_ge_iff (l l' : list bool) (k : nat) :
  ((k <= lcp l l')%nat <-> (k <= length l)%nat /\ firstn k l = firstn k l').
Proof.
  revert l' k. induction l as [|a l IH]; intros l' k.
  - cbn. rewrite firstn_nil. destruct k; cbn; [tauto | lia].
  - destruct k as [|k]; [cbn; split; [intros _; split; [lia | reflexivity] | lia]|].
    destruct l' as [|b l']; [cbn; split; [lia | intros [_ H]; discriminate]|].
    cbn [lcp length firstn]. destruct (Bool.eqb a b) eqn:E.
    + apply eqb_prop in E. subst b. rewrite <- Nat.succ_le_mono, (IH l' k). split.
      * intros [H1 H2]; split; [lia | f_equal; exact H2].
      * intros [H1 H2]; split; [lia | injection H2; auto].
    + split; [lia|]. intros [_ H2]. injection H2 as H2 _. subst b. rewrite eqb_reflx in E. discriminate.
Qed.

Lemma lcp_le_length (l l' : list bool) : (lcp l l' <= length l)%nat.
Proof. apply (lcp_ge_iff l l'), le_n. Qed.

Lemma lex_cmp_app (l1 l1' l2 l2' : list bool) :
  length l1 = length l1' ->
  lex_cmp (l1 ++ l2) (l1' ++ l2') =
  match lex_cmp l1 l1' with Eq => lex_cmp l2 l2' | c => c end.
Proof.
  revert l1'. induction l1 as [|a l1 IH]; intros [|b l1'] HL; try discriminate.
  - reflexivity.
  - cbn in HL. injection HL as HL. cbn. destruct a, b; auto.
Qed.

Lemma keep_first_app_l (l1 l2 : list bool) k :
  (k <= length l1)%nat -> keep_first k (l1 ++ l2) = keep_first k l1 ++ repeat false (length l2).
Proof.
  intros H. unfold keep_first. rewrite firstn_app, app_length. replace (k - length l1)%nat with O by lia.
  cbn [firstn]. rewrite app_nil_r.
  replace (length l1 + length l2 - k)%nat with ((length l1 - k) + length l2)%nat by lia.
  rewrite repeat_app, app_assoc. reflexivity.
Qed.

Lemma keep_first_app_r (l1 l2 : list bool) k :
  (length l1 <= k)%nat -> keep_first k (l1 ++ l2) = l1 ++ keep_first (k - length l1) l2.
Proof.
  intros H. unfold keep_first. rewrite firstn_app, firstn_all2, app_length by lia.
  replace (length l1 + length l2 - k)%nat with (length l2 - (k - length l1))%nat by lia.
  rewrite app_assoc. reflexivity.
Qed.

Lemma firstn_keep_first (l : list bool) k j :
  (j <= k)%nat -> (k <= length l)%nat -> firstn j (keep_first k l) = firstn j l.
Proof.
  intros Hj Hk. unfold keep_first. rewrite firstn_app, firstn_firstn, firstn_length.
  replace (j - Nat.min k (length l))%nat with O by lia. rewrite app_nil_r. f_equal. lia.
Qed.

Lemma skipn_keep_first (l : list bool) k :
  (k <= length l)%nat -> skipn k (keep_first k l) = repeat false (length l - k).
Proof.
  intros Hk. unfold keep_first. rewrite skipn_app, skipn_all2, firstn_length by (rewrite firstn_length; lia).
  replace (k - Nat.min k (length l))%nat with O by lia. reflexivity.
Qed.

Lemma keep_first_eq_iff (l l' : list bool) k : length l = length l' ->
  (keep_first k l = keep_first k l' <-> firstn k l = firstn k l').
Proof.
  intros HL. unfold keep_first. rewrite HL.
  split; [apply app_inv_tail | intros ->; reflexivity].
Qed.

Lemma keep_first_id_iff (l : list bool) k :
  keep_first k l = l <-> skipn k l = repeat false (length l - k).
Proof.
  unfold keep_first. split.
  - intros E. rewrite <- (firstn_skipn k l) in E at 3. symmetry. exact (app_inv_head _ _ _ E).
  - intros <-. apply firstn_skipn.
Qed.

Lemma lcp_lt_iff (l l' : list bool) (n : nat) :
  length l = length l' -> (n <= lcp l l')%nat -> (n < length l)%nat ->
  (nth n l false = nth n l' false <-> (n < lcp l l')%nat).
Proof.
  revert l' n. induction l as [|a l IH]; intros [|b l'] n HL Hn Hlen; try discriminate; cbn in *; [lia|].
  destruct (Bool.eqb a b) eqn:E, n as [|n]; cbn; try lia.
  - apply eqb_prop in E. split; [lia | intros _; exact E].
  - rewrite IH; lia.
  - split; [intros ->; rewrite eqb_reflx in E; discriminate | lia].
Qed.

Lemma length_bits w a : length (bits w a) = w.
Proof. induction w; cbn; auto. Qed.

Lemma nth_bits w a i : (i < w)%nat -> nth i (bits w a) false = Z.testbit a (Z.of_nat (w - 1 - i)).
Proof.
  revert i. induction w as [|w IH]; intros i Hi; [lia|].
  cbn [bits]. destruct i as [|i].
  - cbn [nth]. f_equal. lia.
  - cbn [nth]. rewrite IH by lia. f_equal. lia.
Qed.

Lemma bits_mod w a : bits w (a mod 2 ^ Z.of_nat w) = bits w a.
Proof.
  apply (nth_ext _ _ false false); [rewrite !length_bits; reflexivity|].
  rewrite length_bits. intros i Hi. rewrite !nth_bits by lia.
  apply Z.mod_pow2_bits_low. lia.
Qed.

Lemma bits_zero w : bits w 0 = repeat false w.
Proof. induction w; cbn [bits repeat]; [reflexivity|]. rewrite IHw, Z.bits_0. reflexivity. Qed.

Lemma bits_eq_mod w a b : bits w a = bits w b <-> a mod 2 ^ Z.of_nat w = b mod 2 ^ Z.of_nat w.
Proof.
  split; [|intros E; rewrite <- (bits_mod w a), E; apply bits_mod].
  induction w as [|w IH]; [intros _; rewrite !Z.mod_1_r; reflexivity|].
  cbn [bits]. intros E. injection E as Eb E. rewrite Nat2Z.inj_succ, <- Z.add_1_r, !testbit_decomp, Eb, (IH E) by lia.
  reflexivity.
Qed.

Lemma bits_inj (w : nat) (a b : Z) :
  0 <= a < 2 ^ Z.of_nat w -> 0 <= b < 2 ^ Z.of_nat w -> bits w a = bits w b -> a = b.
Proof. intros Ha Hb E. apply bits_eq_mod in E. rewrite !Z.mod_small in E by assumption. exact E. Qed.

Lemma bits_split (k n : nat) a : bits (k + n) a = bits k (a / 2 ^ Z.of_nat n) ++ bits n a.
Proof.
  induction k as [|k IH]; cbn [Nat.add bits app]; [reflexivity|].
  rewrite IH, Nat2Z.inj_add, <- Z.shiftr_div_pow2, Z.shiftr_spec by lia. reflexivity.
Qed.

Lemma firstn_bits (w k : nat) a : (k <= w)%nat ->
  firstn k (bits w a) = bits k (a / 2 ^ (Z.of_nat w - Z.of_nat k)).
Proof.
  intros H. replace w with (k + (w - k))%nat at 1 by lia. rewrite bits_split.
  rewrite <- (length_bits k (a / 2 ^ Z.of_nat (w - k))) at 1. rewrite firstn_app_length. do 3 f_equal. lia.
Qed.

Lemma skipn_bits (w k : nat) a : (k <= w)%nat -> skipn k (bits w a) = bits (w - k) a.
Proof.
  intros H. replace w with (k + (w - k))%nat at 1 by lia. rewrite bits_split.
  rewrite <- (length_bits k (a / 2 ^ Z.of_nat (w - k))) at 1. apply skipn_app_length.
Qed.

Lemma firstn_bits_div (w k : nat) (a b : Z) :
  (k <= w)%nat -> 0 <= a < 2 ^ Z.of_nat w -> 0 <= b < 2 ^ Z.of_nat w ->
  (firstn k (bits w a) = firstn k (bits w b) <->
   a / 2 ^ (Z.of_nat w - Z.of_nat k) = b / 2 ^ (Z.of_nat w - Z.of_nat k)).
Proof.
  intros Hk Ha Hb. rewrite !firstn_bits by exact Hk. split; [|intros ->; reflexivity].
  pose proof (div_pow2_range (Z.of_nat w) a (Z.of_nat w - Z.of_nat k) ltac:(lia) Ha).
  pose proof (div_pow2_range (Z.of_nat w) b (Z.of_nat w - Z.of_nat k) ltac:(lia) Hb).
  replace (Z.of_nat w - (Z.of_nat w - Z.of_nat k)) with (Z.of_nat k) in * by lia. apply bits_inj; assumption.
Qed.

Lemma div_agree_lcp (w : nat) A B j :
  0 <= A < 2 ^ Z.of_nat w -> 0 <= B < 2 ^ Z.of_nat w -> 0 <= j <= Z.of_nat w ->
  (A / 2 ^ (Z.of_nat w - j) = B / 2 ^ (Z.of_nat w - j) <-> (Z.to_nat j <= lcp (bits w A) (bits w B))%nat).
Proof.
  intros RA RB Hj. rewrite lcp_ge_iff.
  rewrite length_bits, (firstn_bits_div w (Z.to_nat j)) by (auto; lia).
  replace (Z.of_nat w - Z.of_nat (Z.to_nat j)) with (Z.of_nat w - j) by lia.
  split; [intros E; split; [lia | exact E] | intros [_ E]; exact E].
Qed.

Lemma skipn_bits_mod (w k : nat) (a : Z) :
  (k <= w)%nat -> 0 <= a ->
  (skipn k (bits w a) = repeat false (w - k) <-> a mod 2 ^ (Z.of_nat w - Z.of_nat k) = 0).
Proof.
  (* bits reads the low w bits only, so the sign of a plays no part *)
  intros Hk _. rewrite skipn_bits, <- bits_zero, bits_eq_mod, Z.mod_0_l, Nat2Z.inj_sub by (try apply Z.pow_nonzero; lia).
  reflexivity.
Qed.

Lemma bits_clear_low (w k : nat) (a : Z) :
  (k <= w)%nat ->
  bits w (a / 2 ^ (Z.of_nat w - Z.of_nat k) * 2 ^ (Z.of_nat w - Z.of_nat k)) = keep_first k (bits w a).
Proof.
  intros Hk. unfold keep_first. rewrite firstn_bits, length_bits by exact Hk.
  replace w with (k + (w - k))%nat at 1 by lia. rewrite bits_split, <- Nat2Z.inj_sub by exact Hk.
  rewrite Z.div_mul, <- (bits_mod (w - k)), Z.mod_mul, bits_zero by (apply Z.pow_nonzero; lia). reflexivity.
Qed.

Lemma lex_cmp_bits (w : nat) (a b : Z) :
  lex_cmp (bits w a) (bits w b) = (a mod 2 ^ Z.of_nat w ?= b mod 2 ^ Z.of_nat w).
Proof.
  induction w as [|w IH].
  - cbn. rewrite !Z.mod_1_r. reflexivity.
  - cbn [bits lex_cmp]. rewrite Nat2Z.inj_succ, <- Z.add_1_r.
    rewrite !testbit_decomp by lia.
    pose proof (Z.mod_pos_bound a (2 ^ Z.of_nat w) (pow2_pos (Z.of_nat w) ltac:(lia))) as Ba.
    pose proof (Z.mod_pos_bound b (2 ^ Z.of_nat w) (pow2_pos (Z.of_nat w) ltac:(lia))) as Bb.
    destruct (Z.testbit a (Z.of_nat w)), (Z.testbit b (Z.of_nat w)); cbn [Z.b2z].
    + rewrite IH. symmetry. rewrite Z.add_compare_mono_l. reflexivity.
    + symmetry. apply Z.compare_gt_iff. lia.
    + symmetry. apply Z.compare_lt_iff. lia.
    + rewrite IH. rewrite !Z.mul_0_l, !Z.add_0_l. reflexivity.
Qed.

Definition ipbit (a : ip) (i : nat) : bool :=
  if legacy a then Z.testbit (lo a) (Z.of_nat (31 - i))
  else if (i <? 64)%nat then Z.testbit (hi a) (Z.of_nat (63 - i))
  else Z.testbit (lo a) (Z.of_nat (127 - i)).

Lemma length_ip_bits a : length (ip_bits a) = Z.to_nat (width a).
Proof.
  unfold ip_bits, width. destruct (legacy a).
  - rewrite length_bits. reflexivity.
  - rewrite app_length, !length_bits. reflexivity.
Qed.

Lemma nth_ip_bits a i : (i < length (ip_bits a))%nat -> nth i (ip_bits a) false = ipbit a i.
Proof.
  rewrite length_ip_bits. unfold ip_bits, width, ipbit. destruct (legacy a); intros Hi.
  - rewrite nth_bits by lia. f_equal.
  - destruct (Nat.ltb_spec i 64) as [L | L].
    + rewrite app_nth1 by (rewrite length_bits; lia). rewrite nth_bits by lia. f_equal.
    + rewrite app_nth2 by (rewrite length_bits; lia). rewrite length_bits.
      rewrite nth_bits by lia. f_equal. lia.
Qed.

Lemma bit_spec_nth a i : 1 <= i -> bit_spec a i = nth (Z.to_nat (i - 1)) (ip_bits a) false.
Proof. intros H. unfold bit_spec. destruct (Z.leb_spec i 0); [lia | reflexivity]. Qed.
