(* C20: process_update is the fold of message_ops.  The specification looks an attribute up from the end of the
   list (last_some_snoc), so the code's left folds "last attribute wins" meet it by induction from the right
   (fold_last_some, process_attrs_eq); the per-NLRI loops are folds of step over a mapped list (fold_left_map). *)
From Coq Require Import List NArith Bool.
Import ListNotations.
From BioVerif Require Import Lib.ListFacts Model.AdjRIBIn Model.UpdateApply Spec.UpdateApplySpec.
Open Scope N_scope.

Lemma last_some_snoc : forall {A B} (f : A -> option B) l a,
  last_some f (l ++ [a]) = match f a with Some b => Some b | None => last_some f l end.
Proof. intros A B f l a. induction l as [|x l IH]; cbn [app last_some]; [|rewrite IH]; destruct (f a); reflexivity. Qed.

Lemma fold_last_some : forall {A B} (f : A -> option B) (g : option B -> A -> option B),
  (forall acc a, g acc a = match f a with Some b => Some b | None => acc end) ->
  forall l, fold_left g l None = last_some f l.
Proof.
  intros A B f g Hg l. induction l as [|a l IH] using rev_ind; [reflexivity|].
  rewrite fold_left_app, last_some_snoc. cbn [fold_left]. now rewrite Hg, IH.
Qed.

Lemma last_reach_the : forall l, last_reach l = the_reach l.
Proof. apply (fold_last_some (fun a => match a with AReach _ r => Some r | _ => None end)). intros acc []; reflexivity. Qed.

Lemma last_unreach_the : forall l, last_unreach l = the_unreach l.
Proof. apply (fold_last_some (fun a => match a with AUnreach _ r => Some r | _ => None end)). intros acc []; reflexivity. Qed.

Lemma attr_value_snoc : forall {B} (f : attr -> option B) d l a,
  attr_value f d (l ++ [a]) = match f a with Some b => b | None => attr_value f d l end.
Proof. intros. unfold attr_value. rewrite last_some_snoc. destruct (f a); reflexivity. Qed.

Lemma process_attrs_eq : forall l, process_attrs l = message_path l.
Proof.
  unfold process_attrs. induction l as [|a l IH] using rev_ind; [reflexivity|].
  rewrite fold_left_app, IH. unfold message_path. rewrite !attr_value_snoc. destruct a; reflexivity.
Qed.

Lemma mp_update_ops : forall afi safi base r s,
  mp_update afi safi base r s =
  fold_left step (if (afi =? mr_afi r) && (safi =? mr_safi r) then announce_each (set_nhop base (mr_nh r)) (mr_nlri r) else []) s.
Proof.
  intros afi safi base r s. unfold mp_update.
  destruct ((afi =? mr_afi r) && (safi =? mr_safi r)); [symmetry; apply fold_left_map | reflexivity].
Qed.

Lemma mp_withdraw_ops : forall afi safi w s,
  mp_withdraw afi safi w s =
  fold_left step (if (afi =? mu_afi w) && (safi =? mu_safi w) then withdraw_each (mu_nlri w) else []) s.
Proof.
  intros afi safi w s. unfold mp_withdraw.
  destruct ((afi =? mu_afi w) && (safi =? mu_safi w)); [symmetry; apply fold_left_map | reflexivity].
Qed.

Theorem per_nlri : forall (afi : N) (u : update) (s : st),
  well_typed u ->
  process_update afi 1 u s = Done (fold_left step (message_ops afi u) s).
Proof.
  intros afi u s Hwt. unfold process_update, message_ops. cbv zeta.
  rewrite N.eqb_refl, (proj2 (forallb_forall _ _) Hwt), last_reach_the, last_unreach_the, process_attrs_eq.
  cbn [negb]. rewrite !fold_left_app.
  destruct (the_reach (u_attrs u)) as [r|]; rewrite ?mp_update_ops; cbn [fold_left];
    (destruct (the_unreach (u_attrs u)) as [w|]; rewrite ?mp_withdraw_ops; cbn [fold_left]);
    (destruct (afi =? 1); [|reflexivity]);
    unfold withdraw_each, announce_each; rewrite fold_left_app, !fold_left_map; reflexivity.
Qed.

Theorem other_safi_ignored : forall afi safi u s, safi <> 1 -> process_update afi safi u s = Done s.
Proof.
  intros afi safi u s H. unfold process_update. apply N.eqb_neq in H. rewrite H. reflexivity.
Qed.

Theorem no_panic : forall afi safi u s, well_typed u -> exists s', process_update afi safi u s = Done s'.
Proof.
  intros afi safi u s Hwt. destruct (N.eq_dec safi 1) as [->|Hne].
  - eexists. apply per_nlri, Hwt.
  - eexists. apply other_safi_ignored, Hne.
Qed.

Lemma process_updates_ops : forall afi us s, (forall u, In u us -> well_typed u) ->
  process_updates afi 1 us s = Done (fold_left step (flat_map (message_ops afi) us) s).
Proof.
  intros afi. unfold process_updates. induction us as [|u us IH]; intros s Hwt; cbn [fold_left flat_map]; [reflexivity|].
  rewrite per_nlri, fold_left_app by (apply Hwt; left; reflexivity). apply IH. intros x Hx. apply Hwt. right. exact Hx.
Qed.

Definition annwd (o : op) : Prop := match o with Announce _ _ | Withdraw _ _ => True | _ => False end.

Lemma message_ops_annwd : forall afi u, Forall annwd (message_ops afi u).
Proof.
  intros afi u. unfold message_ops.
  assert (A : forall b l, Forall annwd (announce_each b l)) by (intros; apply Forall_map, Forall_forall; intros n _; exact I).
  assert (W : forall l, Forall annwd (withdraw_each l)) by (intros; apply Forall_map, Forall_forall; intros n _; exact I).
  apply Forall_app. split; [|apply Forall_app; split].
  - destruct (the_reach _); [|constructor]. destruct (_ && _); [apply A|constructor].
  - destruct (the_unreach _); [|constructor]. destruct (_ && _); [apply W|constructor].
  - destruct (afi =? 1); [|constructor]. apply Forall_app. split; [apply W|apply A].
Qed.
