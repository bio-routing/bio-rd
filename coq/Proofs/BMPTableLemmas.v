(* C28: lemmas about the tables of the BMP router model (Model/BMPRouter.v): the VRF list and the
   neighbor list read as association lists (first match), how Loc-RIB additions/removals change the
   multiplicity of an entry in each VRF table, and what they leave untouched. Shared by the mirror
   and the observer proofs. *)
From Coq Require Import List NArith Bool Lia.
Import ListNotations.
From BioVerif Require Import Lib.ListFacts Model.BMPCodec Model.BMPRouter.

Lemma prefix_eqb_eq : forall a b, prefix_eqb a b = true <-> a = b.
Proof. exact (prod_eqb_eq N.eqb_eq N.eqb_eq). Qed.

Lemma src_eqb_eq : forall a b, src_eqb a b = true <-> a = b.
Proof. exact (prod_eqb_eq Bool.eqb_true_iff N.eqb_eq). Qed.

Lemma rkey_eqb_eq : forall a b, rkey_eqb a b = true <-> a = b.
Proof. exact (prod_eqb_eq prefix_eqb_eq N.eqb_eq). Qed.

Lemma entry_eqb_eq : forall a b, entry_eqb a b = true <-> a = b.
Proof. exact (prod_eqb_eq (prod_eqb_eq src_eqb_eq prefix_eqb_eq) N.eqb_eq). Qed.

Lemma nkey_eqb_eq : forall a b, nkey_eqb a b = true <-> a = b.
Proof. exact (prod_eqb_eq N.eqb_eq N.eqb_eq). Qed.

Lemma nkey_eqb_refl : forall a, nkey_eqb a a = true.
Proof. exact (eqb_refl_of nkey_eqb_eq). Qed.

Lemma nkey_eqb_sym : forall a b, nkey_eqb a b = nkey_eqb b a.
Proof. exact (eqb_sym_of nkey_eqb_eq). Qed.
Lemma entry_eqb_sym : forall a b, entry_eqb a b = entry_eqb b a.
Proof. exact (eqb_sym_of entry_eqb_eq). Qed.

Definition b2n (b : bool) : nat := if b then 1%nat else 0%nat.

Fixpoint cnt (e : entry) (l : list entry) : nat :=
  match l with [] => 0%nat | x :: r => (b2n (entry_eqb x e) + cnt e r)%nat end.

Fixpoint cntk (x : rkey) (l : list rkey) : nat :=
  match l with [] => 0%nat | y :: r => (b2n (rkey_eqb y x) + cntk x r)%nat end.

Lemma cntk_app : forall e a b, cntk e (a ++ b) = (cntk e a + cntk e b)%nat.
Proof. induction a as [|x a IH]; intros; cbn [app cntk]; [reflexivity|rewrite IH; lia]. Qed.

Lemma cnt_remove1 : forall e x l, cnt e (remove1 x l) = (cnt e l - b2n (entry_eqb x e))%nat.
Proof.
  intros e x. induction l as [|y l IH]; cbn [remove1 cnt]; [lia|].
  destruct (entry_eqb y x) eqn:E1.
  - apply entry_eqb_eq in E1. subst y. destruct (entry_eqb x e); cbn [b2n]; lia.
  - cbn [cnt]. rewrite IH. destruct (entry_eqb x e) eqn:E2; cbn [b2n]; [|lia].
    apply entry_eqb_eq in E2. subst x. rewrite E1. cbn [b2n]. lia.
Qed.

Lemma cnt_pos_iff : forall e l, (cnt e l > 0)%nat <-> In e l.
Proof.
  intros e. induction l as [|x l IH]; cbn [cnt In]; [lia|]. rewrite <- IH, <- (entry_eqb_eq x e).
  destruct (entry_eqb x e); cbn [b2n]; intuition (discriminate || lia).
Qed.

Lemma remove1_absent : forall e t, mem_entry e t = false -> remove1 e t = t.
Proof.
  intros e. induction t as [|x t IH]; cbn [mem_entry remove1]; [reflexivity|].
  destruct (entry_eqb x e); [discriminate|]. intros H. rewrite IH by exact H. reflexivity.
Qed.

Lemma cntk_zero_iff : forall y l, cntk y l = 0%nat <-> ~ In y l.
Proof.
  intros y. induction l as [|x l IH]; cbn [cntk In]; [tauto|]. rewrite <- (rkey_eqb_eq x y).
  destruct (rkey_eqb x y); cbn [b2n]; [intuition (discriminate || lia)|].
  rewrite IH. intuition discriminate.
Qed.

Lemma cntk_filter : forall (f : rkey -> bool) y l,
  cntk y (filter f l) = if f y then cntk y l else 0%nat.
Proof.
  intros f y. induction l as [|x l IH]; cbn [filter cntk]; [destruct (f y); reflexivity|].
  destruct (rkey_eqb x y) eqn:E.
  - apply rkey_eqb_eq in E. subst x. destruct (f y); cbn [cntk]; rewrite IH, ?(eqb_refl_of rkey_eqb_eq); reflexivity.
  - destruct (f x); cbn [cntk b2n]; rewrite IH, ?E; destruct (f y); reflexivity.
Qed.

Lemma cnt_map_tag : forall s s' p i xs,
  cnt (s', p, i) (map (tag s) xs) = if src_eqb s s' then cntk (p, i) xs else 0%nat.
Proof.
  intros s s' p i. induction xs as [|y xs IH]; cbn [map cnt cntk]; [destruct (src_eqb s s'); reflexivity|].
  rewrite IH. unfold tag at 1, entry_eqb, rkey_eqb. cbn [fst snd].
  destruct (src_eqb s s'); reflexivity.
Qed.

(* find_vrf / put_vrf are kfind / kput for the key v_rd, find_nbr / put_nbr for key_of, by conversion:
   the lemmas apply to them as they stand. Stated again under the model's names are only the equations
   that proofs rewrite with. *)
Section Keyed.
  Variables A K : Type.
  Variable key : A -> K.
  Variable eqb : K -> K -> bool.
  Hypothesis eqb_eq : forall a b, eqb a b = true <-> a = b.

  Fixpoint kfind (k : K) (l : list A) : option A :=
    match l with
    | [] => None
    | x :: r => if eqb (key x) k then Some x else kfind k r
    end.

  Fixpoint kput (a : A) (l : list A) : list A :=
    match l with
    | [] => []
    | x :: r => if eqb (key x) (key a) then a :: r else x :: kput a r
    end.

  Lemma kfind_key k l a : kfind k l = Some a -> key a = k.
  Proof.
    induction l as [|x l IH]; cbn [kfind]; intros H; [discriminate|].
    destruct (eqb (key x) k) eqn:E; [|auto]. injection H as <-. apply eqb_eq, E.
  Qed.

  Lemma kfind_in k l a : kfind k l = Some a -> In a l.
  Proof.
    induction l as [|x l IH]; cbn [kfind]; intros H; [discriminate|].
    destruct (eqb (key x) k); [injection H as <-; left; reflexivity|right; auto].
  Qed.

  Lemma kfind_none k l : kfind k l = None -> ~ In k (map key l).
  Proof.
    induction l as [|x l IH]; cbn [kfind map]; intros H Hin; [exact Hin|].
    destruct Hin as [Hx|Hx].
    - rewrite Hx, (eqb_refl_of eqb_eq) in H. discriminate.
    - destruct (eqb (key x) k); [discriminate|exact (IH H Hx)].
  Qed.

  Lemma in_kfind l a : NoDup (map key l) -> In a l -> kfind (key a) l = Some a.
  Proof.
    intros Hd Ha. destruct (kfind (key a) l) as [x|] eqn:F.
    - f_equal. eapply NoDup_map_inj_in; eauto using kfind_in, kfind_key.
    - exfalso. apply (kfind_none _ _ F), in_map, Ha.
  Qed.

  Lemma kfind_app k a b :
    kfind k (a ++ b) = match kfind k a with Some v => Some v | None => kfind k b end.
  Proof.
    induction a as [|x a IH]; cbn [app kfind]; [reflexivity|].
    destruct (eqb (key x) k); [reflexivity|apply IH].
  Qed.

  (* kput is only ever given a new version of an element that was found *)
  Lemma kfind_put a l k x k' : kfind k l = Some x -> key a = key x ->
    kfind k' (kput a l) = if eqb k k' then Some a else kfind k' l.
  Proof.
    intros F Ha. destruct (kfind_key _ _ _ F). rewrite <- Ha in *. clear Ha.
    induction l as [|y l IH]; cbn [kput kfind] in *; [discriminate|].
    destruct (eqb (key y) (key a)) eqn:E1; cbn [kfind].
    - apply eqb_eq in E1. rewrite E1. destruct (eqb (key a) k'); reflexivity.
    - destruct (eqb (key y) k') eqn:E2; [|exact (IH F)].
      apply eqb_eq in E2. rewrite <- E2, (eqb_sym_of eqb_eq), E1. reflexivity.
  Qed.

  Lemma kput_keys a l : map key (kput a l) = map key l.
  Proof.
    induction l as [|x l IH]; cbn [kput map]; [reflexivity|].
    destruct (eqb (key x) (key a)) eqn:E; cbn [map].
    - apply eqb_eq in E. rewrite E. reflexivity.
    - rewrite IH. reflexivity.
  Qed.
End Keyed.
Arguments kfind {A K}.
Arguments kput {A K}.
Arguments kfind_key {A K} key {eqb}.
Arguments kfind_in {A K} key eqb.
Arguments kfind_none {A K} key {eqb}.
Arguments in_kfind {A K} key {eqb}.
Arguments kfind_app {A K} key eqb.
Arguments kfind_put {A K} key {eqb}.
Arguments kput_keys {A K} key {eqb}.

Lemma find_vrf_app : forall rd a b,
  find_vrf rd (a ++ b) = match find_vrf rd a with Some v => Some v | None => find_vrf rd b end.
Proof. exact (kfind_app v_rd N.eqb). Qed.

Lemma find_nbr_snoc : forall k l n,
  find_nbr k (l ++ [n]) =
  match find_nbr k l with Some m => Some m | None => if nkey_eqb (key_of n) k then Some n else None end.
Proof. intros k l n. exact (kfind_app key_of nkey_eqb k l [n]). Qed.

Lemma find_put_nbr : forall n' l k n k', find_nbr k l = Some n -> key_of n' = key_of n ->
  find_nbr k' (put_nbr n' l) = if nkey_eqb k k' then Some n' else find_nbr k' l.
Proof. exact (kfind_put key_of nkey_eqb_eq). Qed.

Lemma del_nbr_drop : forall k l, del_nbr k l = drop_first (fun x => nkey_eqb (key_of x) k) l.
Proof.
  intros k. induction l as [|x l IH]; cbn [del_nbr drop_first]; [|rewrite IH]; reflexivity.
Qed.

Lemma del_nbr_in : forall k l m, In m (del_nbr k l) -> In m l.
Proof. intros k l m. rewrite del_nbr_drop. apply drop_first_In. Qed.

Lemma del_nbr_keys : forall k l, NoDup (map key_of l) -> NoDup (map key_of (del_nbr k l)).
Proof. intros k l. rewrite del_nbr_drop. apply drop_first_NoDup. Qed.

Lemma find_del_nbr : forall k l k', NoDup (map key_of l) ->
  find_nbr k' (del_nbr k l) = if nkey_eqb k k' then None else find_nbr k' l.
Proof.
  intros k l k'. induction l as [|x l IH]; cbn [del_nbr find_nbr map]; intros Hd; [destruct (nkey_eqb k k'); reflexivity|].
  inversion Hd as [|? ? Hx Hd']; subst. destruct (nkey_eqb (key_of x) k) eqn:E1.
  - apply nkey_eqb_eq in E1. subst k. destruct (nkey_eqb (key_of x) k') eqn:E2; [|reflexivity].
    apply nkey_eqb_eq in E2. subst k'. destruct (find_nbr (key_of x) l) as [m|] eqn:F; [|reflexivity].
    exfalso. apply Hx. rewrite <- (kfind_key key_of nkey_eqb_eq _ _ _ F). apply in_map. eapply (kfind_in key_of nkey_eqb), F.
  - cbn [find_nbr]. destruct (nkey_eqb (key_of x) k') eqn:E2; [|auto].
    apply nkey_eqb_eq in E2. subst k'. rewrite nkey_eqb_sym, E1. reflexivity.
Qed.

Lemma del_nbr_none : forall k l, find_nbr k l = None -> del_nbr k l = l.
Proof.
  intros k. induction l as [|x l IH]; cbn [find_nbr del_nbr]; intros H; [reflexivity|].
  destruct (nkey_eqb (key_of x) k); [discriminate|]. rewrite IH by exact H. reflexivity.
Qed.

Lemma set_tab_rd : forall v6 t v, v_rd (set_tab v6 t v) = v_rd v.
Proof. intros [] t v; reflexivity. Qed.
Lemma tab_set_tab : forall v6 v6' t v, tab v6' (set_tab v6 t v) = if Bool.eqb v6 v6' then t else tab v6' v.
Proof. intros [] [] t v; reflexivity. Qed.
Lemma obs_set_tab : forall v6 v6' t v, obs v6' (set_tab v6 t v) = obs v6' v.
Proof. intros [] [] t v; reflexivity. Qed.

Lemma set_obs_rd : forall w o v, v_rd (set_obs w o v) = v_rd v.
Proof. intros [] o v; reflexivity. Qed.
Lemma tab_set_obs : forall w w' o v, tab w' (set_obs w o v) = tab w' v.
Proof. intros [] [] o v; reflexivity. Qed.
Lemma obs_set_obs : forall w w' o v, obs w' (set_obs w o v) = if Bool.eqb w w' then o else obs w' v.
Proof. intros [] [] o v; reflexivity. Qed.

(* The VRF list is read through three observables: table, vrf_exists and the observers of a table. *)
Definition vrf_exists (rd : N) (st : rstate) : bool :=
  match find_vrf rd (r_vrfs st) with Some _ => true | None => false end.

Definition observers (st : rstate) (rd : N) (w : bool) : list N :=
  match find_vrf rd (r_vrfs st) with Some v => obs w v | None => [] end.

Definition here (rd : N) (w : bool) (rd' : N) (w' : bool) : bool := (rd =? rd') && Bool.eqb w w'.

Lemma here_true : forall rd w rd' w', here rd w rd' w' = true -> rd' = rd /\ w' = w.
Proof.
  intros rd w rd' w' H. apply andb_true_iff in H. destruct H as (H1 & H2).
  apply N.eqb_eq in H1. apply Bool.eqb_prop in H2. auto.
Qed.

Lemma here_refl : forall rd w, here rd w rd w = true.
Proof. intros. unfold here. rewrite N.eqb_refl, Bool.eqb_reflx. reflexivity. Qed.

Definition loc_frame (st st' : rstate) : Prop :=
  r_nbrs st' = r_nbrs st /\ r_ignored st' = r_ignored st /\ r_closed st' = r_closed st /\
  forall rd, vrf_exists rd st' = vrf_exists rd st.

Lemma loc_frame_refl : forall st, loc_frame st st.
Proof. intros st. repeat split. Qed.

Definition after_event (ev : oevent) (t : list entry) : list entry :=
  match ev with OAdd e => e :: t | ORemove e => remove1 e t | _ => t end.

(* the common form of what loc_add and loc_remove do *)
Definition table_event (w : bool) (v : vrf) (ev : oevent) (st : rstate) : rstate :=
  set_log (tell (obs w v) ev (r_log st)) (set_vrfs (put_vrf (set_tab w (after_event ev (tab w v)) v) (r_vrfs st)) st).

Lemma table_event_reads : forall rd w v ev st, find_vrf rd (r_vrfs st) = Some v ->
  let st' := table_event w v ev st in
  loc_frame st st' /\ map v_rd (r_vrfs st') = map v_rd (r_vrfs st) /\
  (forall rd' w', table st' rd' w' = if here rd w rd' w' then after_event ev (table st rd w) else table st rd' w') /\
  (forall rd' w', observers st' rd' w' = observers st rd' w') /\
  r_log st' = tell (observers st rd w) ev (r_log st).
Proof.
  intros rd w v ev st F st'. set (v' := set_tab w (after_event ev (tab w v)) v).
  assert (R : forall rd', find_vrf rd' (r_vrfs st') = if rd =? rd' then Some v' else find_vrf rd' (r_vrfs st))
    by (intros; apply (kfind_put v_rd N.eqb_eq _ _ _ v); [exact F|apply set_tab_rd]).
  split; [repeat split|split; [apply (kput_keys v_rd N.eqb_eq)|split; [|split; [|unfold observers; rewrite F; reflexivity]]]];
    intros rd'; unfold vrf_exists, table, observers, here;
    try intros w'; rewrite R; (destruct (rd =? rd') eqn:E; [|reflexivity]); apply N.eqb_eq in E; subst rd'; rewrite F; unfold v'.
  - reflexivity.
  - rewrite tab_set_tab. destruct (Bool.eqb w w'); reflexivity.
  - apply obs_set_tab.
Qed.

Lemma observe_reads : forall id rd w st,
  loc_frame st (observe id rd w st) /\ map v_rd (r_vrfs (observe id rd w st)) = map v_rd (r_vrfs st) /\
  (forall rd' w', table (observe id rd w st) rd' w' = table st rd' w') /\
  (observe id rd w st = st \/
   (forall rd' w', observers (observe id rd w st) rd' w' =
                   if here rd w rd' w' then id :: observers st rd w else observers st rd' w') /\
   r_log (observe id rd w st) = (id, OEndOfRIB) :: rev (map (fun e => (id, OAdd e)) (table st rd w)) ++ r_log st).
Proof.
  intros id rd w st. unfold observe. destruct (find_vrf rd (r_vrfs st)) as [v|] eqn:F; [|repeat split; auto].
  set (v' := set_obs w (id :: obs w v) v).
  assert (R : forall rd' l, find_vrf rd' (r_vrfs (set_log l (set_vrfs (put_vrf v' (r_vrfs st)) st))) =
                            if rd =? rd' then Some v' else find_vrf rd' (r_vrfs st))
    by (intros; apply (kfind_put v_rd N.eqb_eq _ _ _ v); [exact F|apply set_obs_rd]).
  split; [repeat split|split; [apply (kput_keys v_rd N.eqb_eq)|split; [|right; split; [|unfold table; rewrite F; reflexivity]]]];
    intros rd'; unfold vrf_exists, table, observers, here;
    try intros w'; rewrite R; (destruct (rd =? rd') eqn:E; [|reflexivity]); apply N.eqb_eq in E; subst rd'; rewrite F; unfold v'.
  - reflexivity.
  - apply tab_set_obs.
  - rewrite obs_set_obs. destruct (Bool.eqb w w'); reflexivity.
Qed.

Lemma create_vrf_reads : forall rd st,
  r_nbrs (create_vrf rd st) = r_nbrs st /\ r_ignored (create_vrf rd st) = r_ignored st /\
  r_closed (create_vrf rd st) = r_closed st /\ r_log (create_vrf rd st) = r_log st /\
  (forall rd', vrf_exists rd' (create_vrf rd st) = (rd =? rd') || vrf_exists rd' st) /\
  (forall rd' w, table (create_vrf rd st) rd' w = table st rd' w) /\
  (forall rd' w, observers (create_vrf rd st) rd' w = observers st rd' w) /\
  (NoDup (map v_rd (r_vrfs st)) -> NoDup (map v_rd (r_vrfs (create_vrf rd st)))).
Proof.
  intros rd st. unfold create_vrf, vrf_exists, table, observers.
  destruct (find_vrf rd (r_vrfs st)) as [v|] eqn:F.
  - repeat split; auto. intros rd'. destruct (rd =? rd') eqn:E; [|reflexivity]. apply N.eqb_eq in E. subst rd'. rewrite F. reflexivity.
  - cbn [r_nbrs r_ignored r_closed r_log r_vrfs set_vrfs]. repeat split;
      try (intros rd' w; rewrite find_vrf_app; destruct (find_vrf rd' (r_vrfs st)); [reflexivity|];
           cbn [find_vrf v_rd]; destruct (rd =? rd'); [destruct w|]; reflexivity).
    + intros rd'. rewrite find_vrf_app. destruct (find_vrf rd' (r_vrfs st)); [apply eq_sym, orb_true_r|].
      cbn [find_vrf v_rd]. destruct (rd =? rd'); reflexivity.
    + intros R. rewrite map_app. apply NoDup_snoc; [exact R|apply (kfind_none v_rd N.eqb_eq), F].
Qed.

Lemma table_loc_add : forall rd v6 e st rd' v6' x,
  cnt x (table (loc_add rd v6 e st) rd' v6') =
  (cnt x (table st rd' v6') + b2n (vrf_exists rd st && here rd v6 rd' v6' && entry_eqb e x))%nat.
Proof.
  intros rd v6 e st rd' v6' x. unfold loc_add, vrf_exists.
  destruct (find_vrf rd (r_vrfs st)) as [v|] eqn:F; cbn [andb b2n]; [|lia].
  rewrite (proj1 (proj2 (proj2 (table_event_reads rd v6 v (OAdd e) st F)))).
  destruct (here rd v6 rd' v6') eqn:E; cbn [andb b2n after_event cnt]; [|lia].
  apply here_true in E. destruct E as (-> & ->). lia.
Qed.

(* RemovePath's test for presence changes nothing for the table: remove1 of an absent entry is the identity *)
Lemma table_loc_remove : forall rd v6 e st rd' v6',
  table (loc_remove rd v6 e st) rd' v6' =
  if here rd v6 rd' v6' then remove1 e (table st rd v6) else table st rd' v6'.
Proof.
  intros rd v6 e st rd' v6'. unfold loc_remove. destruct (find_vrf rd (r_vrfs st)) as [v|] eqn:F.
  - destruct (mem_entry e (tab v6 v)) eqn:M; [apply (table_event_reads rd v6 v (ORemove e) st F)|].
    destruct (here rd v6 rd' v6') eqn:E; [|reflexivity]. apply here_true in E. destruct E as (-> & ->).
    unfold table. rewrite F, remove1_absent by exact M. reflexivity.
  - destruct (here rd v6 rd' v6') eqn:E; [|reflexivity]. apply here_true in E. destruct E as (-> & ->).
    unfold table. rewrite F. reflexivity.
Qed.

Lemma table_loc_remove_all : forall rd v6 s xs st rd' v6' x,
  cnt x (table (loc_remove_all rd v6 s xs st) rd' v6') =
  (cnt x (table st rd' v6') - (if here rd v6 rd' v6' then cnt x (map (tag s) xs) else 0))%nat.
Proof.
  intros rd v6 s xs. unfold loc_remove_all. induction xs as [|y xs IH]; intros st rd' v6' x; cbn [fold_left map cnt].
  - destruct (here rd v6 rd' v6'); lia.
  - rewrite IH, table_loc_remove. destruct (here rd v6 rd' v6') eqn:E; [|reflexivity].
    apply here_true in E. destruct E as (-> & ->). rewrite cnt_remove1. lia.
Qed.

(* loc_add, loc_remove and what is folded from them are runs of table events on VRFs that are found: what every
   such event keeps, they keep. *)
Section Events.
Variable P : rstate -> Prop.
Hypothesis P_event : forall rd w v ev st, find_vrf rd (r_vrfs st) = Some v -> P st -> P (table_event w v ev st).

Lemma loc_add_keeps : forall rd w e st, P st -> P (loc_add rd w e st).
Proof.
  intros rd w e st H. unfold loc_add. destruct (find_vrf rd (r_vrfs st)) as [v|] eqn:F; [|exact H].
  exact (P_event rd w v (OAdd e) st F H).
Qed.

Lemma loc_remove_keeps : forall rd w e st, P st -> P (loc_remove rd w e st).
Proof.
  intros rd w e st H. unfold loc_remove. destruct (find_vrf rd (r_vrfs st)) as [v|] eqn:F; [|exact H].
  destruct (mem_entry e (tab w v)); [|exact H]. exact (P_event rd w v (ORemove e) st F H).
Qed.

Lemma loc_remove_all_keeps : forall rd w s xs st, P st -> P (loc_remove_all rd w s xs st).
Proof. intros rd w s xs st. apply fold_left_invariant. intros a x _. apply loc_remove_keeps. Qed.

Lemma dispose_nbr_keeps : forall n st, P st -> P (dispose_nbr n st).
Proof. intros n st H. apply loc_remove_all_keeps, loc_remove_all_keeps, H. Qed.
End Events.

Lemma frame_event : forall st0 rd w v ev st, find_vrf rd (r_vrfs st) = Some v ->
  loc_frame st0 st -> loc_frame st0 (table_event w v ev st).
Proof.
  intros st0 rd w v ev st F (A1 & A2 & A3 & A4). destruct (table_event_reads rd w v ev st F) as ((B1 & B2 & B3 & B4) & _).
  repeat split; congruence.
Qed.

Lemma dispose_all_no_vrfs : forall st, r_vrfs st = [] -> dispose_all st = set_nbrs [] st.
Proof.
  intros st H. unfold dispose_all. f_equal.
  apply fold_left_invariant with (P := fun st' => st' = st); [|reflexivity].
  intros a n _ ->. apply (dispose_nbr_keeps (fun st' => st' = st)); [|reflexivity].
  intros rd w v ev st' F ->. rewrite H in F. discriminate.
Qed.

(* dispose_all comes after dispose_vrfs: its neighbors have no table left to withdraw from *)
Lemma cleanup_eq : forall st, cleanup st = set_nbrs [] (dispose_vrfs st).
Proof. intros st. exact (dispose_all_no_vrfs (dispose_vrfs st) eq_refl). Qed.

Lemma initiation_eq : forall ts st,
  exists name, initiation ts st = set_name name (bump 4 st).
Proof.
  intros ts st. unfold initiation.
  apply fold_left_invariant with (P := fun st' => exists name, st' = set_name name (bump 4 st)).
  - intros a t _ (name & ->). destruct (t_type t =? 2); [exists (t_info t)|exists name]; reflexivity.
  - exists (r_name st). destruct st. reflexivity.
Qed.
