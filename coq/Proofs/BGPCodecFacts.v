From Coq Require Import List NArith Bool Lia.
Import ListNotations.
From BioVerif Require Import Model.BGPCodec.
Local Open Scope N_scope.

Lemma len_nil : forall A, len (@nil A) = 0.
Proof. reflexivity. Qed.
Lemma len_cons : forall A (x : A) l, len (x :: l) = len l + 1.
Proof. intros. unfold len. simpl length. lia. Qed.
Lemma len_firstn : forall A n (l : list A), len (firstn n l) = N.min (N.of_nat n) (len l).
Proof. intros. unfold len. rewrite firstn_length. lia. Qed.
Lemma len_skipn : forall A n (l : list A), len (skipn n l) = len l - N.of_nat n.
Proof. intros. unfold len. rewrite skipn_length. lia. Qed.
Lemma len_map : forall A B (f : A -> B) l, len (map f l) = len l.
Proof. intros. unfold len. rewrite map_length. reflexivity. Qed.
Lemma len_app : forall A (l1 l2 : list A), len (l1 ++ l2) = len l1 + len l2.
Proof. intros. unfold len. rewrite app_length. lia. Qed.
Lemma len_repeat : forall A (x : A) n, len (repeat x n) = N.of_nat n.
Proof. intros. unfold len. rewrite repeat_length. reflexivity. Qed.
Lemma to_nat_len : forall A (l : list A), N.to_nat (len l) = length l.
Proof. intros. apply Nat2N.id. Qed.

Lemma existsb_rev : forall A (f : A -> bool) l, existsb f (rev l) = existsb f l.
Proof.
  intros A f l. induction l as [|x l IH]; [reflexivity|].
  cbn [rev existsb]. rewrite existsb_app, IH. cbn [existsb]. rewrite orb_false_r. apply orb_comm.
Qed.
Lemma hasAttr_rev : forall t l, hasAttr t (rev l) = hasAttr t l.
Proof. intros. apply existsb_rev. Qed.
Lemma hasAttr_cons : forall t a l, hasAttr t (a :: l) = hasAttr t l || (a_type a =? t).
Proof. intros. apply orb_comm. Qed.
Lemma orb_swap_inner : forall a b c d, a || b || c || d = (a || c) || (b || d).
Proof. intros [] [] [] []; reflexivity. Qed.

Lemma byte_lt : forall x, byte x < 256.
Proof. intros. unfold byte. apply N.mod_lt. lia. Qed.

(* buf.Read into n bytes followed by the check that n were read is binary.Read of n bytes *)
Lemma bufReadFull_binRead : forall n b al, bufReadFull n b al = binRead n b al.
Proof.
  intros n b al. unfold bufReadFull, bind, bufRead, binRead.
  destruct (n =? 0) eqn:E0; [apply N.eqb_eq in E0; subst n; reflexivity|].
  destruct b as [|x t]; [rewrite firstn_nil, len_nil, N.eqb_sym, E0; reflexivity|]. set (b := x :: t).
  destruct (N.eqb_spec (len (firstn (N.to_nat n) b)) n) as [E|E].
  - rewrite E, N.ltb_irrefl, N.sub_diag. cbn. rewrite app_nil_r. reflexivity.
  - rewrite (proj2 (N.ltb_lt _ n)) by (rewrite len_firstn in *; lia). reflexivity.
Qed.
