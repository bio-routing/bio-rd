(* Every speaker step is a fold of pipeline events (sstep_pipe), so a speaker run is a pipeline run (srun_is_run) and the
   Pipeline theorems apply.  Receiving side: one frame through C16 / C19 / C20 and what its per-NLRI events do to the
   session's record and to the other receiving halves (recv_ops).  Sending side: message by message through `written`,
   the peer's table from the decoded UPDATEs (decoded_view). *)
From Coq Require Import List NArith Bool.
Import ListNotations.
From BioVerif Require Import Lib.ListFacts Model.Pipeline Model.Speaker Spec.SpeakerSpec
  Proofs.PipelineLoc Proofs.PipelineProofs.
From BioVerif Require Proofs.BGPUpdateProofs Proofs.BGPRoundtripProofs Proofs.UpdateApplyProofs Proofs.UpdateSenderPackProofs.

Section Speaker.
  Variable P : Type.
  Variable apply : P -> N -> AdjRIBOut.path -> option AdjRIBOut.path.
  Variable sel : nat -> list (LocRIBClients.entry AdjRIBOut.path) -> list (LocRIBClients.entry AdjRIBOut.path) * nat.
  Variable tagf : AdjRIBOut.bgp -> N.
  Variable cs : list (spcfg P).

  Notation cfgs := (cfgs_of P cs).
  Notation pstep := (Pipeline.step P apply sel tagf cfgs).
  Notation prun := (Pipeline.run P apply sel tagf cfgs).
  Notation sstep := (Speaker.sstep P apply sel tagf cs).
  Notation srun := (Speaker.srun P apply sel tagf cs).
  Notation in_op := (Pipeline.in_op P apply sel tagf cfgs).

  Lemma sstep_pipe : forall st ev, exists pevs, sp_pipe P (sstep st ev) = fold_left pstep pevs (sp_pipe P st).
  Proof.
    intros st ev.
    destruct ev as [k|k|k b|k key|k];
      [exists [EUp k]|exists [EDown k]| |exists [EDequeue k key]|exists [EEmit k]]; try reflexivity.
    cbn [Speaker.sstep]. destruct (nth_error cs k) as [c|]; [|exists []; reflexivity].
    destruct (_ && _); [|exists []; reflexivity]. unfold recv.
    destruct (recv_decode _ b) as [m r| |s|]; [|exists [EDown k]|exists []|exists []]; try reflexivity.
    destruct (BGPCodec.m_body m) as [o|u| |nc ns];
      [exists [EDown k]|exists (update_events k u)|exists []|exists [EDown k]]; reflexivity.
  Qed.

  Theorem srun_is_run : forall evs, exists pevs, sp_pipe P (srun evs) = prun pevs.
  Proof.
    intros evs. unfold Speaker.srun. apply fold_left_invariant; [|exists []; reflexivity].
    intros st ev _ [pevs E]. destruct (sstep_pipe st ev) as [l El]. exists (pevs ++ l).
    rewrite El, E. symmetry. apply fold_left_app.
  Qed.

  Lemma recv_ops : forall ops st k c s,
    nth_error cfgs k = Some c -> Forall UpdateApplyProofs.annwd ops -> nth_error (ps_sess P st) k = Some s -> ss_up P s = true ->
    let st' := fold_left pstep (flat_map (op_event k) ops) st in
    exists s', nth_error (ps_sess P st') k = Some s' /\ ss_up P s' = true /\
      ss_in P s' = fold_left AdjRIBIn.step ops (ss_in P s) /\ ss_ops P s' = ss_ops P s ++ ops /\
      forall j, j <> k -> option_map (inpart P) (nth_error (ps_sess P st') j) = option_map (inpart P) (nth_error (ps_sess P st) j).
  Proof.
    induction ops as [|o ops IH]; intros st k c s Hc HA Hs HU; cbn zeta.
    - exists s. rewrite app_nil_r. auto.
    - inversion HA as [|? ? Ho HA']; subst.
      assert (E : fold_left pstep (flat_map (op_event k) (o :: ops)) st =
                  fold_left pstep (flat_map (op_event k) ops) (in_op k st o)).
      { cbn [flat_map]. rewrite fold_left_app. f_equal.
        destruct o; try contradiction; cbn [op_event fold_left Pipeline.step]; unfold is_up; now rewrite Hs, HU. }
      rewrite E.
      assert (H1 : nth_error (map (inpart P) (ps_sess P (in_op k st o))) k = Some (tstep o (inpart P s))).
      { rewrite (in_op_inpart P apply sel tagf cfgs k c s o st Hc Hs). now apply nth_error_upd_same, map_nth_error. }
      rewrite nth_error_map in H1. destruct (nth_error (ps_sess P (in_op k st o)) k) as [s1|] eqn:Hs1; [|discriminate].
      injection H1 as U1 I1 O1.
      destruct (IH (in_op k st o) k c s1 Hc HA' Hs1 (eq_trans U1 HU)) as [s' [Hs' [U' [I' [O' F]]]]].
      exists s'. rewrite I', O', I1, O1, <- app_assoc. repeat split; auto.
      intros j NE. rewrite (F j NE), <- !nth_error_map. now apply in_op_other.
  Qed.

  Lemma conv_well_typed : forall u, UpdateApplySpec.well_typed (conv_update u).
  Proof.
    intros u a Ha. unfold conv_update in Ha. cbn [UpdateApply.u_attrs] in Ha. apply in_map_iff in Ha.
    destruct Ha as [x [<- _]]. unfold conv_attr.
    destruct (BGPCodec.a_val x); try reflexivity.
    destruct (N.eqb (BGPCodec.a_type x) 5); [reflexivity|].
    destruct (N.eqb (BGPCodec.a_type x) 4); [reflexivity|].
    destruct (N.eqb (BGPCodec.a_type x) 9); reflexivity.
  Qed.

  Lemma cfgs_nth : forall k c, nth_error cs k = Some c -> nth_error cfgs k = Some (sp_c P c).
  Proof. intros k c H. unfold cfgs_of. now apply map_nth_error. Qed.

  Lemma down_is_down : forall st k c, nth_error cs k = Some c -> is_up P (pstep st (EDown k)) k = false.
  Proof.
    intros st k c Hc. cbn [Pipeline.step]. rewrite (cfgs_nth k c Hc).
    destruct (is_up P st k) eqn:U; cbn [negb]; [|exact U].
    match goal with |- is_up P (with_sess P ?s3 _) k = false => set (st3 := s3) end.
    unfold is_up. cbn [with_sess ps_sess]. rewrite nth_error_upd. now destruct (nth_error (ps_sess P st3) k).
  Qed.

  (* Properties/Speaker.v 1: what one received frame does to a session in Established, in any state of the speaker *)
  Theorem installs_any_state : forall (st : spst P) k c s b,
    nth_error cs k = Some c ->
    nth_error (ps_sess P (sp_pipe P st)) k = Some s -> ss_up P s = true -> frame_ok b = true ->
    let st' := sstep st (SRecv k b) in
    match recv_decode (sp_dec P c) b with
    | BGPCodec.Ok m rest =>
      match BGPCodec.m_body m with
      | BGPCodec.BUpdate u =>
        let ops := UpdateApplySpec.message_ops 1 (conv_update u) in
        (exists consumed, padded b = consumed ++ rest /\ BGPUpdateSpec.wellformed false (BGPCodec.m_len m) u consumed) /\
        UpdateApplySpec.well_typed (conv_update u) /\
        exists s', nth_error (ps_sess P (sp_pipe P st')) k = Some s' /\ ss_up P s' = true /\
          UpdateApply.process_update 1 1 (conv_update u) (ss_in P s) = UpdateApply.Done (ss_in P s') /\
          ss_ops P s' = ss_ops P s ++ ops /\
          (forall j, j <> k ->
             option_map (recv_state P) (nth_error (ps_sess P (sp_pipe P st')) j) =
             option_map (recv_state P) (nth_error (ps_sess P (sp_pipe P st)) j))
      | BGPCodec.BKeepalive => st' = st
      | _ => is_up P (sp_pipe P st') k = false
      end
    | BGPCodec.Err => is_up P (sp_pipe P st') k = false
    | _ => False
    end.
  Proof.
    intros st k c s b Hc Hs Hup Hf st'.
    assert (HU : is_up P (sp_pipe P st) k = true) by (unfold is_up; now rewrite Hs).
    assert (E' : st' = recv P apply sel tagf cs k c b st).
    { unfold st'. cbn [Speaker.sstep]. rewrite Hc, HU, Hf. reflexivity. }
    clearbody st'. subst st'. unfold recv.
    unfold recv_decode.
    destruct (BGPCodecProofs.total_bounded (sp_dec P c) (padded b)) as [(m & rest & al & D & _)|(al & -> & _)]; cbn [fst].
    2:{ exact (down_is_down _ k c Hc). }
    rewrite D. cbn [fst].
    destruct m as [ml mt mb]. cbn [BGPCodec.m_body BGPCodec.m_len].
    destruct mb as [o|u| |nc ns].
    - exact (down_is_down _ k c Hc).
    - cbn zeta. split; [|split].
      + exact (BGPUpdateProofs.update_wellformed (sp_dec P c) (padded b) ml mt u rest al D).
      + apply conv_well_typed.
      + cbn [sp_pipe]. unfold update_events.
        destruct (recv_ops _ (sp_pipe P st) k (sp_c P c) s (cfgs_nth k c Hc) (UpdateApplyProofs.message_ops_annwd 1%N (conv_update u)) Hs Hup)
          as [s' [Hs' [U' [I' [O' F]]]]].
        exists s'. rewrite (UpdateApplyProofs.per_nlri 1%N (conv_update u) (ss_in P s) (conv_well_typed u)), <- I'. auto 6.
    - reflexivity.
    - exact (down_is_down _ k c Hc).
  Qed.

  Lemma same_update_attrs : forall o u u',
    Forall2 BGPRoundtripSpec.same_attr (filter (BGPRoundtripSpec.emits o) (BGPCodec.u_attrs u)) (BGPCodec.u_attrs u') ->
    attrs_tv u' = sent_attrs o u.
  Proof.
    intros o u u' H. unfold attrs_tv, sent_attrs.
    induction H as [|a a' l l' [Ht [Hv _]] _ IH]; cbn [map]; [reflexivity|]. now rewrite Ht, Hv, IH.
  Qed.

  (* one message of the sender's log, the UPDATE it stands for, what was written, what the peer decodes *)
  Definition written (c : spcfg P) (s : sst P) (m : UpdateSender.msg) (ob : option (list N)) : Prop :=
    exists u bs u', msg_update P tagf c (ss_out P s) m = Some u /\ ob = Some bs /\
                    (BGPCodec.len bs <= 4096)%N /\ decode_out P c bs = Some u' /\
                    BGPRoundtripSpec.same_update (sp_enc P c) u u'.

  Theorem output_roundtrip : forall c s, sendable P tagf c s ->
    Forall2 (written c s) (rev (UpdateSender.wire (ss_us P s))) (output P tagf c s).
  Proof.
    intros c s HS. unfold output. apply Forall2_map_r. intros m Hm. apply in_rev in Hm.
    destruct (HS m Hm) as [u [bs [Hu [Hw He]]]].
    destruct (BGPRoundtripProofs.update_roundtrip (sp_enc P c) u bs Hw He) as [HL [u' [al [HD HSame]]]].
    exists u, bs, u'. split; [exact Hu|]. split.
    - unfold msg_bytes. now rewrite Hu, He.
    - split; [exact HL|]. split; [|exact HSame]. unfold decode_out. now rewrite HD.
  Qed.

  Lemma cpfx_xpfx : forall x, cpfx (xpfx x) = x.
  Proof. intros [a l]. reflexivity. Qed.

  Lemma nkey_out : forall x i pid y, nkey_eqb x i (out_nlri pid y) = UpdateSender.pfx_eqb x y && N.eqb pid i.
  Proof. intros. unfold nkey_eqb, out_nlri. cbn [BGPCodec.n_pfx BGPCodec.n_id]. now rewrite cpfx_xpfx. Qed.

  Lemma exists_out : forall x i pid xs,
    existsb (nkey_eqb x i) (map (out_nlri pid) xs) = N.eqb pid i && existsb (UpdateSender.pfx_eqb x) xs.
  Proof.
    intros x i pid xs. induction xs as [|y xs IH]; cbn [map existsb].
    - now rewrite andb_false_r.
    - rewrite IH, nkey_out. destruct (UpdateSender.pfx_eqb x y), (N.eqb pid i); reflexivity.
  Qed.

  (* w and us newest first *)
  Lemma decoded_view : forall c s w obs, Forall2 (written c s) w obs ->
    exists us, map (fun ob => match ob with Some bs => decode_out P c bs | None => None end) obs = map Some us /\
      forall x pid, dview us x pid = option_map (tag_attrs P tagf c (ss_out P s)) (UpdateSender.view w x pid).
  Proof.
    intros c s w obs H.
    induction H as [|m ob w obs [u [bs [u' [Hu [-> [_ [HD [Hw [Hn Ha]]]]]]]]] _ [us [E IH]]]; [now exists []|].
    exists (u' :: us). split; [cbn [map]; now rewrite HD, E|]. intros x pid.
    apply same_update_attrs in Ha. cbn [dview]. rewrite Hn, Hw.
    destruct m as [tag pid' ln xs|y pid'|]; cbn [msg_update] in Hu.
    - unfold tag_attrs. destruct (bgp_of_tag P tagf (ss_out P s) tag) as [b|] eqn:Hb; [|discriminate].
      injection Hu as <-. cbn [ann_msg BGPCodec.u_nlri BGPCodec.u_withdrawn UpdateSender.view existsb].
      rewrite exists_out.
      destruct (N.eqb pid' pid && existsb (UpdateSender.pfx_eqb x) xs); [|apply IH].
      cbn [option_map]. rewrite Hb, Ha. reflexivity.
    - injection Hu as <-. cbn [wd_msg BGPCodec.u_nlri BGPCodec.u_withdrawn UpdateSender.view existsb].
      rewrite nkey_out, orb_false_r, (UpdateSenderPackProofs.pfx_eqb_sym y x), (andb_comm (N.eqb pid' pid)).
      destruct (UpdateSender.pfx_eqb x y && N.eqb pid' pid); [reflexivity|apply IH].
    - injection Hu as <-. cbn [eor_msg BGPCodec.u_nlri BGPCodec.u_withdrawn UpdateSender.view existsb]. apply IH.
  Qed.

  (* Properties/Speaker.v 2, with output_roundtrip *)
  Theorem output_decodes_to_view : forall c s,
    sendable P tagf c s ->
    exists us, decoded_output P tagf c s = map Some us /\
      forall p pid, dview (rev us) (upfx p) pid =
                    option_map (tag_attrs P tagf c (ss_out P s)) (peer_view P s p pid).
  Proof.
    intros c s HS. pose proof (output_roundtrip c s HS) as HR.
    apply Forall2_rev in HR. rewrite rev_involutive in HR. destruct (decoded_view c s _ _ HR) as [us [E V]].
    exists (rev us). unfold decoded_output. rewrite <- (rev_involutive (output P tagf c s)), map_rev, E, map_rev, rev_involutive.
    split; [reflexivity|]. intros p pid. apply V.
  Qed.
End Speaker.

Lemma upd_nth_ext : forall (A : Type) k (f g : A -> A) (l : list A), (forall x, f x = g x) -> upd_nth k f l = upd_nth k g l.
Proof. intros A k f g l H. revert k. induction l as [|y l IH]; intros [|k]; cbn; try reflexivity; f_equal; auto. Qed.
