(* `inv`: every peer stores the effective form of its configured chains and the cluster id its configuration gives, every
   family of every FSM copies the peer's chains, an FSM that is not Established has no family attached (`peer_ok`); the two
   VRF bags are those of the registrations (`bags_ok`).  detach / uninit / cease_all are one argument, `released F`. *)
From Coq Require Import List Arith Bool Permutation.
From BioVerif Require Import Lib.ListFacts Model.ServerWiring.
Import ListNotations.

Lemma key_eqb_eq : forall a b, key_eqb a b = true <-> a = b.
Proof. exact (prod_eqb_eq Nat.eqb_eq Nat.eqb_eq). Qed.

Lemma okey_eqb_eq : forall a b, okey_eqb a b = true <-> a = b.
Proof. exact (option_eqb_eq key_eqb_eq). Qed.

Lemma remove1_drop : forall A (eqb : A -> A -> bool) x l, remove1 eqb x l = drop_first (eqb x) l.
Proof. induction l as [|y t IH]; cbn [remove1 drop_first]; [|rewrite IH]; reflexivity. Qed.

Lemma remove1_perm : forall A (eqb : A -> A -> bool),
  (forall a b, eqb a b = true <-> a = b) ->
  forall x l rest, Permutation l (x :: rest) -> Permutation (remove1 eqb x l) rest.
Proof.
  intros A eqb Heq x l rest Hp. apply Permutation_cons_inv with x. rewrite <- Hp, remove1_drop.
  symmetry. apply drop_first_perm_eq.
  - apply (Permutation_in x (Permutation_sym Hp)). left; reflexivity.
  - intros y. rewrite Heq. split; congruence.
Qed.

Lemma bag_sub_perm : forall A B (eqb : B -> B -> bool) (f : A -> B),
  (forall a b, eqb a b = true <-> a = b) ->
  forall gone bag rest,
    Permutation bag (map f gone ++ rest) ->
    Permutation (fold_left (fun b r => remove1 eqb (f r) b) gone bag) rest.
Proof.
  intros A B eqb f Heq gone. induction gone as [|a t IH]; intros bag rest Hp; cbn [fold_left map app] in *.
  - exact Hp.
  - apply IH, remove1_perm; assumption.
Qed.

Definition fam_ok (p : peer) (o : option famst) : Prop :=
  match o with Some f => f_imp f = p_imp p /\ f_exp f = p_exp p | None => True end.

Definition fsm_ok (p : peer) (m : fsm) : Prop :=
  fam_ok p (m_f4 m) /\ fam_ok p (m_f6 m) /\
  (m_est m = false -> attached (m_f4 m) = false /\ attached (m_f6 m) = false).

Definition peer_ok (p : peer) : Prop :=
  p_imp p = effective (c_imp (p_cfg p)) /\ p_exp p = effective (c_exp (p_cfg p)) /\
  p_cluster p = (if c_rrc (p_cfg p) && Nat.eqb (c_cluster (p_cfg p)) 0 then c_router_id (p_cfg p) else c_cluster (p_cfg p)) /\
  Forall (fsm_ok p) (p_fsms p).

Definition bags_ok (s : server) : Prop :=
  Permutation (asn_bag s) (map r_asn (regs s)) /\ Permutation (cl_bag s) (map r_cl (regs s)).

Definition inv (s : server) : Prop := Forall peer_ok (peers s) /\ bags_ok s.

Lemma attach_bags : forall r s, bags_ok s -> bags_ok (attach r s).
Proof.
  intros r s [Ha Hc]. unfold bags_ok, attach; cbn. split; apply perm_skip; assumption.
Qed.

Lemma attach_inv : forall r s, inv s -> inv (attach r s).
Proof. intros r s [Hp Hb]. split; [exact Hp | apply attach_bags, Hb]. Qed.

Lemma detach_bags : forall id fid a s, bags_ok s -> bags_ok (detach id fid a s).
Proof.
  intros id fid a s [Ha Hc]. unfold bags_ok, detach. rewrite partition_filter; cbn [fst snd asn_bag cl_bag regs].
  rewrite (filter_split (reg_is id fid a) (regs s)), Permutation_app_comm, map_app in Ha, Hc.
  split; [exact (bag_sub_perm _ _ _ _ key_eqb_eq _ _ _ Ha) | exact (bag_sub_perm _ _ _ _ okey_eqb_eq _ _ _ Hc)].
Qed.

(* F: registrations that are certainly gone afterwards *)
Definition released (F : reg -> Prop) (s s' : server) : Prop :=
  peers s' = peers s /\ (bags_ok s -> bags_ok s') /\
  forall x, In x (regs s') -> In x (regs s) /\ ~ F x.

Lemma released_detach : forall id fid a s, released (fun x => reg_is id fid a x = true) s (detach id fid a s).
Proof.
  intros id fid a s. split; [reflexivity|]. split; [apply detach_bags|].
  intros x H. unfold detach in H; rewrite partition_filter in H. apply filter_In in H. destruct H as [H1 H2].
  split; [exact H1|]. intros E. rewrite E in H2. discriminate.
Qed.

Lemma released_trans : forall (F G H : reg -> Prop) s s1 s2,
  released F s s1 -> released G s1 s2 -> (forall x, H x -> F x \/ G x) -> released H s s2.
Proof.
  intros F G H s s1 s2 (P1 & B1 & R1) (P2 & B2 & R2) HH. split; [congruence|]. split; [auto|].
  intros x Hx. destruct (R2 x Hx) as [Hx1 HG]. destruct (R1 x Hx1) as [Hx0 HF].
  split; [exact Hx0|]. intros Hh. destruct (HH x Hh); contradiction.
Qed.

Lemma released_uninit : forall id fid s, released (fun x => exists a, reg_is id fid a x = true) s (uninit id fid s).
Proof.
  intros id fid s. unfold uninit.
  apply (released_trans _ _ _ _ _ _ (released_detach id fid V4 s) (released_detach id fid V6 _)).
  intros x [[|] H]; auto.
Qed.

Lemma released_cease_all : forall id ms s,
  released (fun x => exists m a, In m ms /\ reg_is id (m_id m) a x = true) s (cease_all id ms s).
Proof.
  intros id ms. induction ms as [|m t IH]; intros s; cbn [cease_all].
  - split; [reflexivity|]. split; [auto|]. intros x H. split; [exact H|]. intros (m & _ & [] & _).
  - apply (released_trans _ _ _ _ _ _ (released_uninit id (m_id m) s) (IH _)).
    intros x (m' & a & [<-|Hm] & H); [left|right]; eauto.
Qed.

Lemma released_inv : forall F s s', released F s s' -> inv s -> inv s'.
Proof. intros F s s' (P & B & _) [Hp Hb]. split; [rewrite P; exact Hp | exact (B Hb)]. Qed.

Lemma new_peer_ok : forall c, peer_ok (new_peer c).
Proof. intros c. unfold peer_ok, new_peer; cbn. repeat split; constructor. Qed.

Lemma fsm_ok_refam : forall p q (g : option famst -> option famst) m,
  (forall o, fam_ok p o -> fam_ok q (g o)) -> (forall o, attached (g o) = attached o) ->
  fsm_ok p m -> fsm_ok q {| m_id := m_id m; m_est := m_est m; m_f4 := g (m_f4 m); m_f6 := g (m_f6 m) |}.
Proof.
  intros p q g m Hf Ha (H4 & H6 & Hd). unfold fsm_ok; cbn. rewrite !Ha. auto.
Qed.

Lemma replace_chain_ok : forall c p, peer_ok p -> peer_ok (replace_imp c p) /\ peer_ok (replace_exp c p).
Proof.
  intros c p (Hi & He & Hc & Hm). unfold peer_ok, replace_imp, replace_exp; cbn. repeat split; auto;
    rewrite Forall_map; (eapply Forall_impl; [|exact Hm]); intros m;
    (apply fsm_ok_refam; [intros [f|] H; cbn; [destruct H; auto|exact I]|now intros [f|]]).
Qed.

Lemma inbound_ok : forall p, peer_ok p ->
  peer_ok {| p_cfg := p_cfg p; p_cluster := p_cluster p; p_imp := p_imp p; p_exp := p_exp p;
             p_fsms := p_fsms p ++ [new_fsm p]; p_next := S (p_next p) |}.
Proof.
  intros p (Hi & He & Hc & Hm). unfold peer_ok; cbn. repeat split; auto.
  apply Forall_app. split.
  - exact Hm.
  - constructor; [|constructor]. unfold fsm_ok, new_fsm, new_fam, fam_ok, attached; cbn.
    destruct (c_has4 (p_cfg p)), (c_has6 (p_cfg p)); cbn; auto.
Qed.

Lemma upd_peer_inv : forall id f s, (forall p, peer_ok p -> peer_ok (f p)) -> inv s -> inv (with_peers s (upd_peer id f (peers s))).
Proof. intros id f s Hf [Hp Hb]. split; [apply Forall_map_if; assumption | exact Hb]. Qed.

(* fsm_up and fsm_down are this function at true and at false *)
Lemma set_est_ok : forall b fid p, peer_ok p ->
  peer_ok (set_fsms (upd_fsm fid (fun m => {| m_id := m_id m; m_est := b; m_f4 := set_attached b (m_f4 m); m_f6 := set_attached b (m_f6 m) |}) (p_fsms p)) p).
Proof.
  intros b fid p (Hi & He & Hc & Hm). repeat split; auto. apply Forall_map_if; [exact Hm|].
  intros m (H4 & H6 & _). unfold fsm_ok, fam_ok, set_attached, attached in *; cbn.
  destruct (m_f4 m), (m_f6 m); cbn; auto.
Qed.

Lemma step_inv : forall s e, inv s -> inv (step s e).
Proof.
  intros s e H. destruct e as [c|id|id fid|id fid|id c|id c|id]; cbn [step].
  - destruct (find_peer (c_id c) (peers s)); [exact H|]. destruct H as [Hp Hb].
    split; [constructor; [apply new_peer_ok | exact Hp] | exact Hb].
  - apply upd_peer_inv; [apply inbound_ok | exact H].
  - unfold establish. destruct (find_peer id (peers s)) as [p|]; [|exact H].
    destruct (find_fsm fid (p_fsms p)) as [m|]; [|exact H].
    destruct (m_est m); [exact H|].
    destruct (c_has4 (p_cfg p)), (c_has6 (p_cfg p)); repeat apply attach_inv; exact (upd_peer_inv id _ s (set_est_ok true fid) H).
  - exact (upd_peer_inv id _ _ (set_est_ok false fid) (released_inv _ _ _ (released_uninit id fid s) H)).
  - apply upd_peer_inv; [apply replace_chain_ok | exact H].
  - apply upd_peer_inv; [apply replace_chain_ok | exact H].
  - unfold dispose. destruct (find_peer id (peers s)) as [p|]; [|exact H].
    destruct (released_inv _ _ _ (released_cease_all id (p_fsms p) s) H) as [Hp Hb].
    split; [exact (incl_Forall (incl_filter _ _) Hp) | exact Hb].
Qed.

Lemma run_inv : forall evs, inv (run evs).
Proof.
  intros. apply (fold_left_invariant _ inv); [intros s e _; apply step_inv|]. split; [constructor | split; constructor].
Qed.

Lemma find_peer_filter_none : forall id ps, find_peer id (filter (fun q => negb (Nat.eqb (pid q) id)) ps) = None.
Proof.
  intros id ps. unfold find_peer. induction ps as [|q t IH]; cbn [filter find]; [reflexivity|].
  destruct (Nat.eqb (pid q) id) eqn:E; cbn [negb]; [exact IH|]. cbn [find]. rewrite E. exact IH.
Qed.

Lemma dispose_removes_everything : forall s id p,
  bags_ok s -> find_peer id (peers s) = Some p ->
  let s' := step s (Dispose id) in
  find_peer id (peers s') = None /\
  (forall m a r, In m (p_fsms p) -> In r (regs s') -> reg_is id (m_id m) a r = false) /\
  (forall r, In r (regs s') -> In r (regs s)) /\
  bags_ok s'.
Proof.
  intros s id p Hb Hf s'. subst s'. cbn [step]. unfold dispose. rewrite Hf.
  destruct (released_cease_all id (p_fsms p) s) as (P & B & R).
  split; [apply find_peer_filter_none|]. split; [|split; [intros r Hr; apply R, Hr|exact (B Hb)]].
  intros m a r Hm Hr. apply not_true_is_false. intros E. apply (proj2 (R r Hr)). eauto.
Qed.

Lemma find_peer_in : forall id ps p, find_peer id ps = Some p -> In p ps /\ pid p = id.
Proof.
  intros id ps p H. unfold find_peer in H. apply find_some in H. destruct H as [H1 H2]. apply Nat.eqb_eq in H2. auto.
Qed.

Lemma inv_peer_ok : forall s id p, inv s -> find_peer id (peers s) = Some p -> peer_ok p.
Proof. intros s id p [Hp _] H. exact (proj1 (Forall_forall _ _) Hp p (proj1 (find_peer_in _ _ _ H))). Qed.

Lemma peer_ok_chains : forall p m, peer_ok p -> In m (p_fsms p) ->
  forall f, m_f4 m = Some f \/ m_f6 m = Some f ->
  f_imp f = effective (c_imp (p_cfg p)) /\ f_exp f = effective (c_exp (p_cfg p)).
Proof.
  intros p m (Hi & He & _ & Hms) Hm f Hfam.
  rewrite Forall_forall in Hms. destruct (Hms m Hm) as (H4 & H6 & _). unfold fam_ok in *.
  destruct Hfam as [E|E]; rewrite E in *; [destruct H4 | destruct H6]; split; congruence.
Qed.

Lemma peer_ok_cluster : forall p, peer_ok p -> c_rrc (p_cfg p) = true -> p_cluster p = effective_cluster (p_cfg p).
Proof. intros p (_ & _ & Hc & _) Hr. rewrite Hc, Hr. reflexivity. Qed.

Lemma peer_ok_detached : forall p m, peer_ok p -> In m (p_fsms p) -> m_est m = false ->
  attached (m_f4 m) = false /\ attached (m_f6 m) = false.
Proof. intros p m (_ & _ & _ & Hms) Hm. rewrite Forall_forall in Hms. exact (proj2 (proj2 (Hms m Hm))). Qed.
