(* Proofs for C07: the speaker model (sessions sharing one VRF: Loc-RIB, Adj-RIB-Ins, contributing
   ASN / cluster-id refcounts, Adj-RIB-Outs registered with the Loc-RIB) keeps, for ALL event
   histories, exactly the contributions of the sessions that are Established. Every table operation
   of a session leaves the other sessions' routes and Adj-RIB-Ins alone ([others_kept]) and, unless
   it is Init or Uninit, the counts too ([quiet]). The four counts are one family, [cnt] over
   [count]. What a step of the FSM does to the tables is one case of [FSMProofs.effect]. *)
From Coq Require Import List NArith Bool Lia PeanoNat.
Import ListNotations.
From BioVerif Require Import Lib.ListFacts Model.FSM Proofs.FSMProofs.
Local Open Scope N_scope.

Definition rib_of (y : sys) (j : N) : list rib_entry :=
  filter (fun x => match x with (s0, _, _) => s0 =? j end) (y_rib y).
Definition adjin_of (y : sys) (j : N) : list N := alist_get (y_adjin y) j.

Local Notation of_sess j := (fun x : rib_entry => match x with (s0, _, _) => s0 =? j end).

Definition nfamN (c : cfg) : N := N.of_nat (length (nfam c)).
Definition asn_c (a : N) (c : cfg) (s : sess) : N :=
  if s_att s && (c_las c =? a) then nfamN c else 0.
Definition cid_c (a : N) (c : cfg) (s : sess) : N :=
  if s_att s && (c_rr c && (cluster_of c =? a)) then nfamN c else 0.
Definition cl4_c (c : cfg) (s : sess) : N := if s_att s && c_v4 c then 1 else 0.
Definition cl6_c (c : cfg) (s : sess) : N := if s_att s && c_v6 c then 1 else 0.

Fixpoint total (f : cfg -> sess -> N) (l : list (cfg * sess)) : N :=
  match l with
  | [] => 0
  | (c, s) :: r => f c s + total f r
  end.

Lemma total_split : forall f l i c s, nth_sess l i = Some (c, s) ->
  exists R, total f l = R + f c s /\ forall c' s', total f (set_nth_sess l i (c', s')) = R + f c' s'.
Proof.
  intros f l. induction l as [|[c0 s0] r IH]; intros i c s H; [destruct i; discriminate|].
  destruct i as [|j]; cbn in *.
  - inversion H; subst. exists (total f r). split; [|intros]; lia.
  - destruct (IH j c s H) as (R & E1 & E2). exists (f c0 s0 + R). split; [rewrite E1 | intros; rewrite E2]; lia.
Qed.

Lemma nth_set : forall l i x j,
  nth_sess (set_nth_sess l i x) j =
  if Nat.eqb i j then option_map (fun _ => x) (nth_sess l i) else nth_sess l j.
Proof.
  induction l as [|y r IH]; intros i x j; [destruct i, (Nat.eqb _ j); reflexivity|].
  destruct i, j; cbn; try reflexivity. apply IH.
Qed.

Lemma neq_eqb : forall a b : N, a <> b -> (a =? b) = false.
Proof. intros a b. apply N.eqb_neq. Qed.

Lemma rc_count_remove : forall l k a,
  rc_count (rc_remove l k) a = if k =? a then rc_count l a - 1 else rc_count l a.
Proof.
  induction l as [|x r IH]; intros k a; cbn [rc_remove rc_count].
  - destruct (k =? a); reflexivity.
  - destruct (N.eqb_spec x k) as [->|E1].
    + destruct (k =? a); [lia | reflexivity].
    + cbn [rc_count]. rewrite IH. destruct (N.eqb_spec x a) as [->|E2]; [|reflexivity].
      rewrite (neq_eqb _ _ (not_eq_sym E1)). reflexivity.
Qed.

Lemma rc_count_add_n A (xs : list A) : forall l k a,
  rc_count (fold_left (fun l0 _ => rc_add l0 k) xs l) a =
  rc_count l a + (if k =? a then N.of_nat (length xs) else 0).
Proof.
  induction xs as [|x xs IH]; intros l k a; cbn [fold_left length].
  - destruct (k =? a); cbn; lia.
  - rewrite IH. unfold rc_add. cbn [rc_count]. destruct (k =? a); lia.
Qed.

Lemma rc_count_remove_n A (xs : list A) : forall l k a,
  rc_count (fold_left (fun l0 _ => rc_remove l0 k) xs l) a =
  rc_count l a - (if k =? a then N.of_nat (length xs) else 0).
Proof.
  induction xs as [|x xs IH]; intros l k a; cbn [fold_left length].
  - destruct (k =? a); cbn; lia.
  - rewrite IH, rc_count_remove. destruct (k =? a); lia.
Qed.

Lemma alist_get_set : forall l k v k',
  alist_get (alist_set l k v) k' = if k =? k' then v else alist_get l k'.
Proof.
  induction l as [|[k0 v0] r IH]; intros k v k'; cbn.
  - destruct (k =? k'); reflexivity.
  - destruct (N.eqb_spec k0 k) as [->|E1]; cbn.
    + destruct (k =? k'); reflexivity.
    + rewrite IH. destruct (N.eqb_spec k0 k') as [->|E2]; [|reflexivity].
      rewrite (neq_eqb _ _ (not_eq_sym E1)). reflexivity.
Qed.

Lemma of_sess_without_other : forall rib sid rid j, sid <> j ->
  filter (of_sess j) (rib_without rib sid rid) = filter (of_sess j) rib.
Proof.
  intros rib sid rid j H. unfold rib_without. induction rib as [|[[s0 r0] b] r IH]; cbn; [reflexivity|].
  destruct (N.eqb_spec s0 sid) as [->|_]; cbn; [|rewrite IH; reflexivity].
  destruct (r0 =? rid); cbn; rewrite ?(neq_eqb _ _ H); exact IH.
Qed.

Lemma of_sess_without_sess : forall rib sid j,
  filter (of_sess j) (rib_without_sess rib sid) = if sid =? j then [] else filter (of_sess j) rib.
Proof.
  intros rib sid j. unfold rib_without_sess. induction rib as [|[[s0 r0] b] r IH]; cbn; [destruct (sid =? j); reflexivity|].
  destruct (N.eqb_spec s0 sid) as [->|E]; cbn; rewrite IH; [destruct (sid =? j); reflexivity|].
  destruct (N.eqb_spec s0 j) as [->|_]; [rewrite (neq_eqb _ _ (not_eq_sym E))|]; reflexivity.
Qed.

Lemma of_sess_imported : forall (imp : import_policy) sid rid j,
  filter (of_sess j) (imported imp sid rid) =
  if sid =? j then imported imp sid rid else [].
Proof. intros imp sid rid j. destruct imp; cbn; destruct (sid =? j); reflexivity. Qed.

Lemma of_sess_reimported : forall (imp : import_policy) h sid j l,
  filter (of_sess j)
    (flat_map (fun rid => if is_hidden h sid rid then [] else imported imp sid rid) l) =
  if sid =? j then flat_map (fun rid => if is_hidden h sid rid then [] else imported imp sid rid) l else [].
Proof.
  intros imp h sid j l. induction l as [|r l IH]; cbn [flat_map]; [destruct (sid =? j); reflexivity|].
  rewrite filter_app, IH. destruct (is_hidden h sid r); [reflexivity|].
  rewrite of_sess_imported. destruct (sid =? j); reflexivity.
Qed.

Definition others_kept (sid : N) (y y' : sys) : Prop :=
  y_sess y' = y_sess y /\
  forall j, sid <> j -> rib_of y' j = rib_of y j /\ adjin_of y' j = adjin_of y j.

(* the numbers C07 keeps exact; what an attached session with configuration c adds to each *)
Inductive count := CAsn (a : N) | CCid (a : N) | COut4 | COut6.
Definition cnt (k : count) (y : sys) : N :=
  match k with
  | CAsn a => rc_count (y_asn y) a
  | CCid a => rc_count (y_cid y) a
  | COut4 => y_cl4 y
  | COut6 => y_cl6 y
  end.
Definition weight (k : count) (c : cfg) : N :=
  match k with
  | CAsn a => if c_las c =? a then nfamN c else 0
  | CCid a => if c_rr c && (cluster_of c =? a) then nfamN c else 0
  | COut4 => if c_v4 c then 1 else 0
  | COut6 => if c_v6 c then 1 else 0
  end.
Definition share (k : count) : cfg -> sess -> N :=
  match k with CAsn a => asn_c a | CCid a => cid_c a | COut4 => cl4_c | COut6 => cl6_c end.

Lemma share_weight : forall k c s, share k c s = if s_att s then weight k c else 0.
Proof. intros [] c s; cbn; unfold asn_c, cid_c, cl4_c, cl6_c; destruct (s_att s); reflexivity. Qed.

Definition quiet (sid : N) (y y' : sys) : Prop := others_kept sid y y' /\ forall k, cnt k y' = cnt k y.

Lemma others_kept_refl : forall sid y, others_kept sid y y.
Proof. intros. split; [reflexivity | intros; split; reflexivity]. Qed.

Lemma others_kept_trans : forall sid y1 y2 y3, others_kept sid y1 y2 -> others_kept sid y2 y3 -> others_kept sid y1 y3.
Proof.
  intros sid y1 y2 y3 [A1 B1] [A2 B2]. split; [congruence|].
  intros j H. destruct (B1 j H), (B2 j H). split; congruence.
Qed.

Lemma quiet_refl : forall sid y, quiet sid y y.
Proof. intros. split; [apply others_kept_refl | intro k; reflexivity]. Qed.

Lemma quiet_trans : forall sid y1 y2 y3, quiet sid y1 y2 -> quiet sid y2 y3 -> quiet sid y1 y3.
Proof.
  intros sid y1 y2 y3 [F1 C1] [F2 C2].
  split; [eapply others_kept_trans; eassumption | intro k; rewrite C2; apply C1].
Qed.

Lemma fold_quiet : forall (op : sys -> N -> sys) sid,
  (forall y x, quiet sid y (op y x)) -> forall l y, quiet sid y (fold_left op l y).
Proof.
  intros op sid H l. apply fold_left_rel; [apply quiet_refl | apply quiet_trans |]. intros y x _. apply H.
Qed.

Lemma withdraw_quiet : forall sid y rid, quiet sid y (apply_withdraw sid y rid).
Proof.
  intros sid y rid. split; [split; [reflexivity|] | intro k; reflexivity].
  intros j H. unfold rib_of. unfold adjin_of. cbn. rewrite alist_get_set, (neq_eqb _ _ H).
  split; [apply of_sess_without_other; exact H | reflexivity].
Qed.

Lemma announce_quiet : forall (imp : import_policy) sid y rid, quiet sid y (apply_announce imp sid y rid).
Proof.
  intros imp sid y rid. split; [split; [reflexivity|] | intro k; reflexivity].
  intros j H. unfold rib_of. unfold adjin_of. cbn.
  rewrite alist_get_set, filter_app, of_sess_imported, (neq_eqb _ _ H), app_nil_r.
  split; [apply of_sess_without_other; exact H | reflexivity].
Qed.

Lemma update_quiet : forall c (imp : import_policy) sid ann wd y, quiet sid y (apply_update c imp sid ann wd y).
Proof.
  intros c imp sid ann wd y. unfold apply_update. destruct (c_v4 c); cbn [negb]; [|apply quiet_refl].
  eapply quiet_trans; apply fold_quiet; [apply withdraw_quiet | apply announce_quiet].
Qed.

Lemma poison_quiet : forall c (imp : import_policy) sid rid b v y, quiet sid y (apply_poison c imp sid rid b v y).
Proof.
  intros c imp sid rid b v y. unfold apply_poison. destruct (c_v4 c); cbn [negb]; [|apply quiet_refl].
  (* but for y_hidden, which [quiet] does not read, an announcement: under ImpReject if the path is hidden *)
  destruct (if b then 0 <? rc_count (y_asn y) v else 0 <? rc_count (y_cid y) v);
    [exact (announce_quiet ImpReject sid y rid) | exact (announce_quiet imp sid y rid)].
Qed.

Lemma reimport_quiet : forall c (imp : import_policy) sid att y, quiet sid y (apply_reimport c imp sid att y).
Proof.
  intros c imp sid att y. unfold apply_reimport. destruct (att && c_v4 c); cbn [negb]; [|apply quiet_refl].
  split; [split; [reflexivity|] | intro k; reflexivity].
  intros j H. unfold rib_of. unfold adjin_of. cbn.
  rewrite filter_app, of_sess_reimported, of_sess_without_sess, (neq_eqb _ _ H), app_nil_r. split; reflexivity.
Qed.

Lemma init_others_kept : forall c sid y, others_kept sid y (apply_init c sid y).
Proof.
  intros c sid y. split; [reflexivity|]. intros j H. unfold rib_of. unfold adjin_of. cbn.
  rewrite alist_get_set, (neq_eqb _ _ H). split; reflexivity.
Qed.

Lemma uninit_others_kept : forall c sid att y, others_kept sid y (apply_uninit c sid att y).
Proof.
  intros c sid att y. unfold apply_uninit. destruct att; cbn [negb]; [|apply others_kept_refl].
  split; [reflexivity|]. intros j H. unfold rib_of. unfold adjin_of. cbn.
  rewrite alist_get_set, of_sess_without_sess, (neq_eqb _ _ H). split; reflexivity.
Qed.

Definition empty_of (y : sys) (sid : N) : Prop := rib_of y sid = [] /\ adjin_of y sid = [].

Lemma init_empty : forall c sid y, rib_of y sid = [] -> empty_of (apply_init c sid y) sid.
Proof.
  intros c sid y H. unfold empty_of, adjin_of in *. unfold rib_of in *. cbn. rewrite alist_get_set, N.eqb_refl. auto.
Qed.

Lemma uninit_empty : forall c sid y, empty_of (apply_uninit c sid true y) sid.
Proof.
  intros c sid y. unfold empty_of, adjin_of. unfold rib_of. cbn. rewrite alist_get_set, N.eqb_refl.
  rewrite of_sess_without_sess, N.eqb_refl. split; reflexivity.
Qed.

Lemma init_cnt : forall k c sid y, cnt k (apply_init c sid y) = cnt k y + weight k c.
Proof.
  intros [] c sid y; cbn.
  - apply rc_count_add_n.
  - destruct (c_rr c); cbn [andb]; [apply rc_count_add_n | lia].
  - destruct (c_v4 c); lia.
  - destruct (c_v6 c); lia.
Qed.

Lemma uninit_cnt : forall k c sid y, cnt k (apply_uninit c sid true y) = cnt k y - weight k c.
Proof.
  intros [] c sid y; cbn.
  - apply rc_count_remove_n.
  - destruct (c_rr c); cbn [andb]; [apply rc_count_remove_n | lia].
  - destruct (c_v4 c); lia.
  - destruct (c_v6 c); lia.
Qed.

Lemma apply_outs_actions : forall c sid os att imp y,
  apply_outs c sid att imp (filter is_action os) y = apply_outs c sid att imp os y.
Proof. induction os as [|o os IH]; intros att imp y; [reflexivity|]. destruct o; cbn; apply IH. Qed.

(* of any list of outputs: [other_sessions_untouched] assumes nothing about the state *)
Lemma apply_outs_others_kept : forall c sid os att imp y, others_kept sid y (apply_outs c sid att imp os y).
Proof.
  intros c sid. induction os as [|o os IH]; intros att imp y; cbn [apply_outs]; [apply others_kept_refl|].
  destruct o; try apply IH; (eapply others_kept_trans; [|apply IH]).
  - apply init_others_kept.
  - apply uninit_others_kept.
  - apply update_quiet.
  - apply poison_quiet.
  - apply reimport_quiet.
Qed.

Section Effect.
  Variables (c : cfg) (sid : N) (imp : import_policy) (y : sys).
  Variables (att att' : bool) (acts : list out).
  Hypothesis Heff : effect att acts att'.

  Lemma effect_empty :
    (att = false -> empty_of y sid) -> att' = false -> empty_of (apply_outs c sid att imp acts y) sid.
  Proof.
    destruct Heff as [| | |[]|]; cbn [apply_outs]; intros HP Hend; try discriminate; auto using uninit_empty.
    (* [apply_reimport] of a detached session is the identity *)
    rewrite Hend. exact (HP Hend).
  Qed.

  Lemma effect_cnt : forall k R,
    cnt k y = R + (if att then weight k c else 0) ->
    cnt k (apply_outs c sid att imp acts y) = R + (if att' then weight k c else 0).
  Proof.
    intros k R Hy. destruct Heff as [| | |[]|]; cbn [apply_outs]; try discriminate; try exact Hy.
    - rewrite init_cnt, Hy. lia.
    - rewrite uninit_cnt, Hy. lia.
    - rewrite (proj2 (update_quiet _ _ _ _ _ _)). exact Hy.
    - rewrite (proj2 (poison_quiet _ _ _ _ _ _ _)). exact Hy.
    - rewrite (proj2 (reimport_quiet _ _ _ _ _)). exact Hy.
  Qed.
End Effect.

Record sinv (y : sys) : Prop := {
  si_sess : forall i c s, nth_sess (y_sess y) i = Some (c, s) ->
    inv s /\ (s_att s = false -> empty_of y (N.of_nat i));
  si_cnt : forall k, cnt k y = total (share k) (y_sess y)
}.

Lemma total_zero_init : forall f cs,
  (forall c, f c (init_sess c) = 0) -> total f (map (fun c => (c, init_sess c)) cs) = 0.
Proof. intros f cs H. induction cs as [|c r IH]; cbn; [reflexivity | rewrite H, IH; reflexivity]. Qed.

Lemma nth_sess_map_init : forall cs i c s,
  nth_sess (map (fun c0 => (c0, init_sess c0)) cs) i = Some (c, s) -> s = init_sess c.
Proof.
  induction cs as [|c0 r IH]; intros i c s H; [destruct i; discriminate|].
  destruct i; cbn in H; [inversion H; reflexivity | eapply IH; eassumption].
Qed.

Lemma sinv_init : forall cs, sinv (init_sys cs).
Proof.
  intro cs. constructor; unfold init_sys; cbn.
  - intros i c s H. rewrite (nth_sess_map_init _ _ _ _ H). split; [apply inv_init | split; reflexivity].
  - intro k. rewrite total_zero_init; [destruct k; reflexivity|]. intro c. rewrite share_weight. reflexivity.
Qed.

(* [rib_of], [adjin_of] and [cnt k] of [with_sess y l] are those of y, by computation *)
Definition with_sess (y : sys) (l : list (cfg * sess)) : sys :=
  {| y_sess := l; y_rib := y_rib y; y_adjin := y_adjin y; y_hidden := y_hidden y;
     y_asn := y_asn y; y_cid := y_cid y; y_cl4 := y_cl4 y; y_cl6 := y_cl6 y |}.

Lemma sys_step_eq : forall y i e,
  sys_step y i e =
  match nth_sess (y_sess y) i with
  | None => (y, [])
  | Some (c, s) =>
      (with_sess (apply_outs c (N.of_nat i) (s_att s) (s_imp s) (filter is_action (snd (step c s e))) y)
                 (set_nth_sess (y_sess y) i (c, fst (step c s e))), snd (step c s e))
  end.
Proof.
  intros y i e. unfold sys_step. destruct (nth_sess (y_sess y) i) as [[c s]|]; [|reflexivity].
  rewrite apply_outs_actions. destruct (step c s e) as [s' os].
  rewrite (proj1 (apply_outs_others_kept c _ os _ _ y)). reflexivity.
Qed.

Theorem other_sessions_untouched : forall y i e j,
  i <> j ->
  nth_sess (y_sess (fst (sys_step y i e))) j = nth_sess (y_sess y) j /\
  rib_of (fst (sys_step y i e)) (N.of_nat j) = rib_of y (N.of_nat j) /\
  adjin_of (fst (sys_step y i e)) (N.of_nat j) = adjin_of y (N.of_nat j).
Proof.
  intros y i e j Hij. rewrite sys_step_eq. destruct (nth_sess (y_sess y) i) as [[c s]|]; [|repeat split].
  cbn [fst y_sess with_sess]. rewrite nth_set, (proj2 (Nat.eqb_neq i j) Hij). split; [reflexivity|].
  apply (apply_outs_others_kept c (N.of_nat i)). intro H. apply Hij, Nat2N.inj, H.
Qed.

Lemma sys_step_sinv : forall y i e, sinv y -> sinv (fst (sys_step y i e)).
Proof.
  intros y i e Hy. pose proof (other_sessions_untouched y i e) as Hoth. rewrite sys_step_eq in *.
  destruct (nth_sess (y_sess y) i) as [[c s]|] eqn:Hn; [|exact Hy].
  destruct (step_facts c s e (proj1 (si_sess y Hy i c s Hn))) as [Hinv _ Heff _ _ _].
  constructor; cbn [fst y_sess with_sess] in *.
  - intros j c0 s0 H. unfold empty_of. rewrite nth_set in H. destruct (Nat.eqb_spec i j) as [<-|E].
    + rewrite Hn in H. inversion H; subst c0 s0. split; [exact Hinv|].
      apply (effect_empty c _ _ _ _ _ _ Heff), (si_sess y Hy i c s Hn).
    + destruct (Hoth j E) as (_ & -> & ->). exact (si_sess y Hy j c0 s0 H).
  - intro k.
    destruct (total_split (share k) _ _ _ _ Hn) as (R & E1 & E2). rewrite E2, share_weight.
    apply (effect_cnt c (N.of_nat i) _ y _ _ _ Heff).
    rewrite (si_cnt y Hy), E1, share_weight. reflexivity.
Qed.

Lemma sys_run_sinv : forall es y, sinv y -> sinv (sys_run y es).
Proof.
  induction es as [|[i e] r IH]; intros y Hy; cbn [sys_run]; [exact Hy|].
  apply IH. apply sys_step_sinv. exact Hy.
Qed.

Definition reach (cs : list cfg) (es : list (nat * ev)) : sys := sys_run (init_sys cs) es.

Lemma reach_sinv : forall cs es, sinv (reach cs es).
Proof. intros. apply sys_run_sinv. apply sinv_init. Qed.

Theorem withdraws_everything : forall y, sinv y -> forall i c s,
  nth_sess (y_sess y) i = Some (c, s) ->
  s_st s <> Established ->
  s_att s = false /\ rib_of y (N.of_nat i) = [] /\ adjin_of y (N.of_nat i) = [].
Proof.
  intros y Hy i c s Hn Hst. destruct (si_sess _ Hy i c s Hn) as [Hi He].
  pose proof (inv_detached _ Hi Hst) as Hd. split; [exact Hd | exact (He Hd)].
Qed.

(* A (re-)establishment starts from empty Adj-RIBs: right after the step that attaches session i its
   Adj-RIB-In is empty and the Loc-RIB holds nothing of it. *)
Theorem reestablish_starts_empty : forall y, sinv y -> forall i e,
  In Init (snd (sys_step y i e)) ->
  rib_of (fst (sys_step y i e)) (N.of_nat i) = [] /\ adjin_of (fst (sys_step y i e)) (N.of_nat i) = [].
Proof.
  intros y Hy i e. rewrite sys_step_eq.
  destruct (nth_sess (y_sess y) i) as [[c s]|] eqn:Hn; [|intros []]. cbn [fst snd].
  intro HInit. destruct (si_sess _ Hy i c s Hn) as [Hi He].
  destruct (effect_init _ _ _ (sf_effect _ _ _ _ (step_facts c s e Hi))) as [Hdet ->]; [apply filter_In; auto|].
  apply (init_empty c (N.of_nat i) y), He, Hdet.
Qed.

Lemma nfamN_pos : forall c, c_v4 c || c_v6 c = true -> 0 < nfamN c.
Proof. intros c H. unfold nfamN, nfam. destruct (c_v4 c), (c_v6 c); cbn in *; try discriminate; lia. Qed.

Lemma attached_counted : forall y, sinv y -> forall i c s,
  nth_sess (y_sess y) i = Some (c, s) -> s_att s = true -> forall k, weight k c <= cnt k y.
Proof.
  intros y Hy i c s Hn Ha k. rewrite (si_cnt _ Hy). destruct (total_split (share k) _ _ _ _ Hn) as (R & -> & _).
  rewrite share_weight, Ha. lia.
Qed.

(* Loop detection stays armed for every session that is Established, whatever the other sessions did:
   its local AS - and its cluster id if it is a route reflector client - is contributing. Together with
   [apply_poison] (a path carrying a contributing ASN / cluster id is hidden) this is "a flap of one
   session withdraws exactly its own contribution, nothing else's". *)
Theorem loop_detection_intact : forall y, sinv y -> forall i c s,
  nth_sess (y_sess y) i = Some (c, s) ->
  s_st s = Established -> c_v4 c || c_v6 c = true ->
  0 < rc_count (y_asn y) (c_las c) /\
  (c_rr c = true -> 0 < rc_count (y_cid y) (cluster_of c)).
Proof.
  intros y Hy i c s Hn Hst Hf.
  pose proof (inv_att _ (proj1 (si_sess _ Hy i c s Hn))) as Ha. rewrite Hst in Ha.
  pose proof (attached_counted y Hy i c s Hn Ha) as Hk. pose proof (nfamN_pos c Hf) as Hp. split.
  - specialize (Hk (CAsn (c_las c))). cbn in Hk. rewrite N.eqb_refl in Hk. lia.
  - intro Hr. specialize (Hk (CCid (cluster_of c))). cbn in Hk. rewrite Hr, N.eqb_refl in Hk. cbn in Hk. lia.
Qed.

(* Replacing the import policy of an attached session re-derives what the Loc-RIB holds of it from its
   Adj-RIB-In: whatever the policy was when the session came up (reject-all included), the eligible
   paths learned so far are in the Loc-RIB as the new policy presents them. *)
Theorem replacement_reattaches : forall y i c s p,
  nth_sess (y_sess y) i = Some (c, s) -> s_st s <> Ceased -> s_att s = true -> c_v4 c = true ->
  rib_of (fst (sys_step y i (EReplaceImport p))) (N.of_nat i) =
  flat_map (fun rid => if is_hidden (y_hidden y) (N.of_nat i) rid then [] else imported p (N.of_nat i) rid)
           (adjin_of y (N.of_nat i)).
Proof.
  intros y i c s p Hn Hc Ha H4.
  rewrite sys_step_eq, Hn.
  rewrite (step_replace_import c s p Hc). cbn [snd filter is_action apply_outs].
  unfold apply_reimport. rewrite Ha, H4. cbn [andb negb]. unfold rib_of, adjin_of. cbn [fst y_rib with_sess].
  rewrite filter_app, of_sess_without_sess, of_sess_reimported, N.eqb_refl. reflexivity.
Qed.

(* what [effect] says, as a test on the whole output list; nothing uses it *)
Fixpoint outs_ok (att : bool) (os : list out) : bool :=
  match os with
  | [] => true
  | Init :: r => negb att && outs_ok true r
  | Uninit :: r => outs_ok false r
  | ProcessedUpdate _ _ :: r => att && outs_ok att r
  | ProcessedPoison _ _ _ :: r => att && outs_ok att r
  | _ :: r => outs_ok att r
  end.

Lemma outs_ok_actions : forall os att, outs_ok att (filter is_action os) = outs_ok att os.
Proof. induction os as [|o os IH]; intro att; [reflexivity|]. destruct o; cbn; rewrite ?IH; reflexivity. Qed.

Lemma step_outs_ok : forall c s e, inv s -> outs_ok (s_att s) (snd (step c s e)) = true.
Proof.
  intros c s e Hs. rewrite <- outs_ok_actions.
  destruct (sf_effect _ _ _ _ (step_facts c s e Hs)) as [[]| | |[]|[]]; try discriminate; reflexivity.
Qed.
