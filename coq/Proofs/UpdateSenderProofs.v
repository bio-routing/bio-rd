(* C10. `pending`: what is queued, in flight or in an EndOfRIB flush, as (prefix, wire path id, tag) items.  `Agree`: every
   pending item is in the Adj-RIB-Out, and at the slots with nothing pending the peer's view is the Adj-RIB-Out.  A step changes
   `pending` in one of four ways (same set, one item more, the items of a slot gone, one message less), one `agree_*` lemma for
   each; `step_inv` says which.  The invariant reads the queue twice, as items and as (path, prefix) pairs that must fit: `q_read g`
   is any such reading, and each queue operation has one lemma, about all readings (or a permutation of the entries). *)
From Coq Require Import List ZArith Bool Permutation.
Import ListNotations.
From BioVerif Require Import Lib.ListFacts Model.UpdateSender Spec.UpdateSenderSpec Proofs.UpdateSenderPackProofs.

Definition item := (pfx * N * N)%type.

Definition items_of (c : cfg) (p : path) (l : list pfx) : list item :=
  map (fun x => (x, wpid c p, p_tag p)) l.

Definition ent_items (c : cfg) (e : entry) : list item := items_of c (e_path e) (e_pfxs e).
Definition batch_items (c : cfg) (b : batch) : list item := items_of c (b_path b) (concat (b_msgs b)).

Definition q_items (c : cfg) (q : list entry) : list item := flat_map (ent_items c) q.
Definition f_items (c : cfg) (f : option batch) : list item :=
  match f with Some b => batch_items c b | None => [] end.
Definition e_items (c : cfg) (e : option (list batch)) : list item :=
  match e with Some bs => flat_map (batch_items c) bs | None => [] end.

Definition pending (c : cfg) (s : st) : list item :=
  q_items c (queue s) ++ f_items c (inflight s) ++ e_items c (eor s).

Lemma in_items_of : forall c p l y q t,
  In (y, q, t) (items_of c p l) <-> In y l /\ q = wpid c p /\ t = p_tag p.
Proof.
  intros c p l y q t. unfold items_of. rewrite in_map_iff. split.
  - intros [x [E Hx]]. inversion E. subst. auto.
  - intros [Hy [-> ->]]. exists y. auto.
Qed.

Lemma key_eqb_eq : forall a b, key_eqb a b = true <-> a = b.
Proof. exact (prod_eqb_eq N.eqb_eq N.eqb_eq). Qed.

Definition q_read {B} (g : path -> pfx -> B) (q : list entry) : list B :=
  flat_map (fun e => map (g (e_path e)) (e_pfxs e)) q.

Definition item_of (c : cfg) (p : path) (x : pfx) : item := (x, wpid c p, p_tag p).

Lemma q_add_read : forall B (g : path -> pfx -> B) x p q,
  (forall e, In e q -> pkey (e_path e) = pkey p -> e_path e = p) ->
  forall b, In b (q_read g (q_add x p q)) <-> In b (q_read g q) \/ b = g p x.
Proof.
  intros B g x p q. unfold q_read. induction q as [|e r IH]; intros Hf b; cbn [q_add].
  - cbn. intuition congruence.
  - destruct (key_eqb (pkey (e_path e)) (pkey p)) eqn:E; cbn [flat_map e_path e_pfxs]; rewrite !in_app_iff.
    + apply key_eqb_eq in E. rewrite <- (Hf e (or_introl eq_refl) E), map_app, in_app_iff. cbn. intuition congruence.
    + rewrite IH by (intros e' He'; apply Hf; right; exact He'). tauto.
Qed.

Lemma q_cancel_read : forall B (g : path -> pfx -> B) (f : B -> bool) c x wp q,
  (forall p y, f (g p y) = negb (pfx_eqb y x && N.eqb (wpid c p) wp)) ->
  q_read g (q_cancel c x wp q) = filter f (q_read g q).
Proof.
  intros B g f c x wp q Hf. unfold q_read. induction q as [|e r IH]; [reflexivity|]. cbn [q_cancel flat_map].
  rewrite filter_app, <- IH. destruct (N.eqb (wpid c (e_path e)) wp) eqn:E.
  - replace (filter f (map (g (e_path e)) (e_pfxs e))) with (map (g (e_path e)) (filter (fun y => negb (pfx_eqb y x)) (e_pfxs e))).
    + now destruct (filter (fun y => negb (pfx_eqb y x)) (e_pfxs e)).
    + induction (e_pfxs e) as [|y l IHl]; [reflexivity|].
      cbn [filter map]. rewrite Hf, E, andb_true_r, <- IHl. now destruct (pfx_eqb y x).
  - cbn [flat_map]. f_equal. symmetry. apply filter_all. intros b H.
    apply in_map_iff in H. destruct H as [y [<- _]]. now rewrite Hf, E, andb_false_r.
Qed.

Definition off_slot (x : pfx) (wp : N) (i : item) : bool := negb (pfx_eqb (fst (fst i)) x && N.eqb (snd (fst i)) wp).

Lemma off_slot_iff : forall x wp y pid t, off_slot x wp (y, pid, t) = true <-> ~ (y = x /\ pid = wp).
Proof.
  intros. unfold off_slot. cbn [fst snd]. rewrite negb_true_iff, <- not_true_iff_false, andb_true_iff, pfx_eqb_eq, N.eqb_eq. tauto.
Qed.

Lemma fit_read : forall c q,
  (forall e, In e q -> all_fit_list c (e_path e) (e_pfxs e)) <-> (forall b, In b (q_read pair q) -> fits c (fst b) (snd b)).
Proof.
  intros c q. unfold q_read. split.
  - intros H b Hb. apply in_flat_map in Hb. destruct Hb as [e [He Hb]].
    apply in_map_iff in Hb. destruct Hb as [x [<- Hx]]. exact (H e He x Hx).
  - intros H e He x Hx. apply (H (e_path e, x)), in_flat_map. exists e. split; [exact He|apply in_map, Hx].
Qed.

Lemma q_take_perm : forall k q e q', q_take k q = Some (e, q') -> Permutation (e :: q') q.
Proof.
  intros k q. induction q as [|e0 r IH]; intros e q' H; cbn [q_take] in H; [discriminate|].
  destruct (key_eqb (pkey (e_path e0)) k); [inversion H; apply Permutation_refl|].
  destruct (q_take k r) as [[e1 r1]|]; [|discriminate]. inversion H. subst.
  eapply Permutation_trans; [apply perm_swap|apply perm_skip, IH; reflexivity].
Qed.

Lemma in_order_perm : forall o q, Permutation (in_order o q) q.
Proof.
  intros o. induction o as [|k o IH]; intros q; cbn [in_order]; [apply Permutation_refl|].
  destruct (q_take k q) as [[e q']|] eqn:T; [|apply IH].
  eapply Permutation_trans; [apply perm_skip, IH|apply (q_take_perm k), T].
Qed.

Lemma run_from_app : forall c a b s, run_from c s (a ++ b) = match run_from c s a with Some s' => run_from c s' b | None => None end.
Proof.
  intros c a. induction a as [|l a IH]; intros b s; cbn [app run_from]; [reflexivity|].
  destruct (step c s l); [apply IH|reflexivity].
Qed.

Lemma q_items_perm : forall c q q', Permutation q q' -> forall i, In i (q_items c q) <-> In i (q_items c q').
Proof.
  intros c q q' H i. split; apply Permutation_in; [|apply Permutation_sym]; apply Permutation_flat_map, H.
Qed.

Lemma batch_of_items : forall c e, batch_items c (batch_of c e) = ent_items c e.
Proof. intros. unfold batch_items, batch_of, ent_items. cbn [b_path b_msgs]. rewrite pack_concat. reflexivity. Qed.

Lemma norm_items : forall c b, f_items c (norm b) = batch_items c b.
Proof.
  intros c b. unfold norm. destruct (b_msgs b) eqn:E; [|reflexivity].
  unfold batch_items. rewrite E. reflexivity.
Qed.

Lemma map_batch_of_items : forall c l, flat_map (batch_items c) (map (batch_of c) l) = q_items c l.
Proof.
  intros c l. unfold q_items. rewrite !flat_map_concat_map, map_map. f_equal. apply map_ext, batch_of_items.
Qed.

Lemma existsb_pfx : forall x l, existsb (pfx_eqb x) l = true <-> In x l.
Proof. exact (existsb_eqb_In pfx_eqb_eq). Qed.

Lemma slotP : forall y x q pid, reflect (y = x /\ q = pid) (pfx_eqb y x && N.eqb q pid).
Proof. intros. apply iff_reflect. now rewrite andb_true_iff, pfx_eqb_eq, N.eqb_eq. Qed.

Lemma view_wd : forall w x pid y q, view (MWd x pid :: w) y q = rib_upd (view w) x pid None y q.
Proof. intros. cbn [view]. unfold rib_upd. now rewrite andb_comm, N.eqb_sym, pfx_eqb_sym. Qed.

Lemma emitP : forall c p m x pid,
  reflect (wpid c p = pid /\ In x m) (N.eqb (wpid c p) pid && existsb (pfx_eqb x) (wire_order c m)).
Proof.
  intros. apply iff_reflect. rewrite andb_true_iff, N.eqb_eq, existsb_pfx.
  split; intros [H1 H2]; (split; [exact H1|]); revert H2; apply Permutation_in; [apply Permutation_sym|]; apply wire_order_perm.
Qed.

Record Inv (c : cfg) (s : st) (r : ribT) : Prop := mkInv {
  (* every pending announcement announces what the Adj-RIB-Out holds *)
  inv_pend : forall x pid tag, In (x, pid, tag) (pending c s) -> r x pid = Some tag;
  (* where nothing is pending the peer already has what the Adj-RIB-Out holds *)
  inv_view : forall x pid, (forall tag, ~ In (x, pid, tag) (pending c s)) -> view (wire s) x pid = r x pid;
  (* nothing queued or in flight will be refused by SerializeUpdate *)
  inv_fitq : forall e, In e (queue s) -> all_fit_list c (e_path e) (e_pfxs e);
  inv_fitf : forall b, inflight s = Some b -> forall l, In l (b_msgs b) -> msg_ok c (b_path b) l = true;
  inv_fite : forall bs b, eor s = Some bs -> In b bs -> forall l, In l (b_msgs b) -> msg_ok c (b_path b) l = true
}.

Lemma inv_init : forall c, Inv c init rib_empty.
Proof.
  intros c. constructor; cbn; try tauto; try discriminate.
Qed.

(* the first two fields, for any list P of pending announcements and any wire log w *)
Definition Agree (P : list item) (w : list msg) (r : ribT) : Prop :=
  (forall x pid tag, In (x, pid, tag) P -> r x pid = Some tag) /\
  (forall x pid, (forall tag, ~ In (x, pid, tag) P) -> view w x pid = r x pid).

Definition batch_ok (c : cfg) (b : batch) : Prop := forall l, In l (b_msgs b) -> msg_ok c (b_path b) l = true.

Lemma Inv_intro : forall c q f e w r,
  Agree (q_items c q ++ f_items c f ++ e_items c e) w r ->
  (forall e, In e q -> all_fit_list c (e_path e) (e_pfxs e)) ->
  (forall b, f = Some b -> batch_ok c b) ->
  (forall bs b, e = Some bs -> In b bs -> batch_ok c b) ->
  Inv c (mkst q f e w) r.
Proof. intros c q f e w r [Ap Av] Hq Hf He. constructor; assumption. Qed.

Lemma agree_same : forall P P' w r, Agree P w r -> (forall i, In i P' <-> In i P) -> Agree P' w r.
Proof.
  intros P P' w r [Ap Av] HP. split.
  - intros x pid tag H. apply Ap, HP, H.
  - intros x pid H. apply Av. intros tag Hin. apply (H tag), HP, Hin.
Qed.

Lemma agree_add : forall P P' w (r : ribT) x pid tag,
  Agree P w r ->
  r x pid = None \/ r x pid = Some tag ->
  (forall i, In i P' <-> In i P \/ i = (x, pid, tag)) ->
  Agree P' w (rib_upd r x pid (Some tag)).
Proof.
  intros P P' w r x pid tag [Ap Av] Hc HP. split.
  - intros y q t Hin. apply HP in Hin. unfold rib_upd. destruct (slotP y x q pid) as [[-> ->]|Hne].
    + destruct Hin as [Hin|E]; [|congruence]. apply Ap in Hin. destruct Hc; congruence.
    + destruct Hin as [Hin|E]; [apply Ap, Hin|]. exfalso. apply Hne. inversion E. auto.
  - intros y q Hno. unfold rib_upd. destruct (slotP y x q pid) as [[-> ->]|_].
    + destruct (Hno tag). apply HP. now right.
    + apply Av. intros t Hin. apply (Hno t), HP. now left.
Qed.

Lemma agree_remove : forall P P' w (r : ribT) x pid,
  Agree P w r ->
  (forall y q t, In (y, q, t) P' <-> In (y, q, t) P /\ ~ (y = x /\ q = pid)) ->
  Agree P' (MWd x pid :: w) (rib_upd r x pid None).
Proof.
  intros P P' w r x pid [Ap Av] HP. split.
  - intros y q t Hin. apply HP in Hin. destruct Hin as [Hin Hne].
    unfold rib_upd. destruct (slotP y x q pid); [contradiction|apply Ap, Hin].
  - intros y q Hno. rewrite view_wd. unfold rib_upd. destruct (slotP y x q pid) as [_|Hne]; [reflexivity|].
    apply Av. intros t Hin. apply (Hno t), HP. auto.
Qed.

Lemma agree_emit : forall c P P' w (r : ribT) p m,
  Agree P w r ->
  msg_ok c p m = true ->
  (forall i, In i P <-> In i P' \/ In i (items_of c p m)) ->
  Agree P' (emit c p m w) r.
Proof.
  intros c P P' w r p m [Ap Av] Hok HP. split.
  - intros x pid tag H. apply Ap, HP. now left.
  - intros x pid Hno. unfold emit. rewrite Hok. cbn [view]. destruct (emitP c p m x pid) as [[E1 E2]|Hne].
    + symmetry. apply Ap, HP. right. apply in_items_of. auto.
    + apply Av. intros tag Hin. apply HP in Hin. destruct Hin as [Hin|Hin]; [exact (Hno tag Hin)|].
      apply in_items_of in Hin. destruct Hin as [H1 [-> _]]. apply Hne. auto.
Qed.

Lemma in_flight_items : forall c s x pid, ~ in_flight c s x pid ->
  forall y q t, In (y, q, t) (f_items c (inflight s)) -> ~ (y = x /\ q = pid).
Proof.
  intros c s x pid Hn y q t H [-> ->]. apply Hn. unfold in_flight. destruct (inflight s) as [b|]; [|contradiction].
  apply in_items_of in H. destruct H as [H1 [H2 _]]. auto.
Qed.

Lemma batch_items_cons : forall c p m ms,
  batch_items c (mkbatch p (m :: ms)) = items_of c p m ++ batch_items c (mkbatch p ms).
Proof. intros. apply map_app. Qed.

Lemma batch_of_ok : forall c e, all_fit_list c (e_path e) (e_pfxs e) -> batch_ok c (batch_of c e).
Proof. intros c e H. exact (pack_msg_ok c (e_path e) (e_pfxs e) H). Qed.

Lemma norm_ok : forall c b b', batch_ok c b -> norm b = Some b' -> batch_ok c b'.
Proof. intros c b b' H E. unfold norm in E. destruct (b_msgs b); [discriminate|]. inversion E. now subst. Qed.

Lemma batch_ok_cons : forall c p m ms,
  batch_ok c (mkbatch p (m :: ms)) -> msg_ok c p m = true /\ batch_ok c (mkbatch p ms).
Proof. intros c p m ms H. split; [apply H; now left|intros l Hl; apply H; now right]. Qed.

Lemma step_inv : forall c s r l s',
  Inv c s r ->
  step c s l = Some s' ->
  client_protocol_at c s r l ->
  hash_faithful_at c s r l ->
  all_fit_at c s r l ->
  no_withdraw_in_flight_at c s r l ->
  Inv c s' (rib_step c r l).
Proof.
  intros c [Q F E w] r l s' [Ip Iv Iq If Ie] Hstep Hcp Hhf Hfit Hnw.
  unfold pending in Ip, Iv. cbn [queue inflight eor wire] in *. pose proof (conj Ip Iv : Agree _ w r) as HA. clear Ip Iv.
  destruct l as [x p|x p|k| |o| ]; cbn [step unlocked queue inflight eor wire] in Hstep; cbn [rib_step].
  - (* Add.  Here and below the membership goal is proved in a cleared context: tauto reads all of it. *)
    destruct E; [discriminate|]. inversion Hstep. subst s'.
    apply Inv_intro; [| |exact If|exact Ie].
    + apply agree_add with (1 := HA) (2 := Hcp). clear - Hhf. intros i.
      change (q_items c) with (q_read (item_of c)).
      rewrite !in_app_iff, (q_add_read _ (item_of c) x p Q Hhf). tauto.
    + apply fit_read. intros b Hb. apply (q_add_read _ pair x p _ Hhf) in Hb.
      destruct Hb as [Hb| ->]; [exact (proj1 (fit_read c _) Iq b Hb)|exact Hfit].
  - (* Remove *)
    destruct E; [discriminate|]. inversion Hstep. subst s'.
    apply Inv_intro; [| |exact If|exact Ie].
    + apply agree_remove with (1 := HA). clear - Hnw. intros y q t.
      change (q_items c) with (q_read (item_of c)).
      rewrite (q_cancel_read _ _ (off_slot x (wpid c p))), !in_app_iff, filter_In, off_slot_iff by reflexivity.
      pose proof (in_flight_items c _ x _ Hnw y q t). cbn [e_items In]. tauto.
    + apply fit_read. intros b Hb.
      rewrite (q_cancel_read _ pair (fun b => negb (pfx_eqb (snd b) x && N.eqb (wpid c (fst b)) (wpid c p)))) in Hb by reflexivity.
      apply filter_In in Hb. exact (proj1 (fit_read c _) Iq b (proj1 Hb)).
  - (* Dequeue *)
    destruct E; [discriminate|]. destruct F; [discriminate|].
    destruct (q_take k Q) as [[e q']|] eqn:T; [|discriminate].
    inversion Hstep. subst s'.
    pose proof (q_take_perm k Q e q' T) as HP.
    apply Inv_intro; [| | |exact Ie].
    + apply agree_same with (1 := HA). clear - HP. intros i.
      rewrite !in_app_iff, norm_items, batch_of_items, <- (q_items_perm c _ _ HP).
      unfold q_items. cbn [flat_map f_items In]. rewrite in_app_iff. tauto.
    + intros e' He'. apply Iq, (Permutation_in _ HP). now right.
    + intros b. apply norm_ok, batch_of_ok, Iq, (Permutation_in _ HP). now left.
  - (* EmitOne *)
    destruct F as [[p [|m ms]]|]; [| |discriminate]; inversion Hstep; subst s'.
    + apply Inv_intro; [exact HA|exact Iq|discriminate|exact Ie].
    + destruct (batch_ok_cons c p m ms (If _ eq_refl)) as [Hok Hms].
      apply Inv_intro; [|exact Iq|intros b; now apply norm_ok|exact Ie].
      apply agree_emit with (1 := HA) (2 := Hok). clear. intros i.
      rewrite norm_items. cbn [f_items]. rewrite batch_items_cons, !in_app_iff. tauto.
  - (* EoRBegin *)
    destruct E; [discriminate|]. inversion Hstep. subst s'.
    pose proof (in_order_perm o Q) as HP.
    apply Inv_intro; [|intros e []|exact If|].
    + apply agree_same with (1 := HA). clear - HP. intros i.
      cbn [e_items q_items flat_map]. rewrite !in_app_iff, map_batch_of_items, (q_items_perm c _ _ HP). cbn [In]. tauto.
    + intros bs b Hbs Hb. inversion Hbs. subst bs. apply in_map_iff in Hb. destruct Hb as [e [<- He']].
      apply batch_of_ok, Iq, (Permutation_in _ HP), He'.
  - (* EoRStep *)
    destruct E as [[|[p [|m ms]] bs]|]; [| | |discriminate]; inversion Hstep; subst s'.
    + apply Inv_intro; [exact HA|exact Iq|exact If|discriminate].
    + apply Inv_intro; [exact HA|exact Iq|exact If|].
      intros bs0 b0 H0 Hb0. inversion H0. subst bs0. exact (Ie _ b0 eq_refl (or_intror Hb0)).
    + destruct (batch_ok_cons c p m ms (Ie _ _ eq_refl (or_introl eq_refl))) as [Hok Hms].
      apply Inv_intro; [|exact Iq|exact If|].
      * apply agree_emit with (1 := HA) (2 := Hok). clear. intros i.
        cbn [e_items flat_map]. rewrite batch_items_cons, !in_app_iff.
        destruct ms; cbn [flat_map]; rewrite ?in_app_iff; cbn; tauto.
      * intros bs0 b0 H0 Hb0. inversion H0. subst bs0.
        destruct ms; [exact (Ie _ b0 eq_refl (or_intror Hb0))|].
        destruct Hb0 as [<-|Hb0]; [exact Hms|exact (Ie _ b0 eq_refl (or_intror Hb0))].
Qed.

Lemma run_inv : forall c ls s r s',
  Inv c s r ->
  run_from c s ls = Some s' ->
  each_step (client_protocol_at c) c s r ls ->
  each_step (hash_faithful_at c) c s r ls ->
  each_step (all_fit_at c) c s r ls ->
  each_step (no_withdraw_in_flight_at c) c s r ls ->
  Inv c s' (fold_left (rib_step c) ls r).
Proof.
  intros c ls. induction ls as [|l ls IH]; intros s r s' HI Hrun H1 H2 H3 H4; cbn [run_from fold_left] in *.
  - inversion Hrun. subst. exact HI.
  - cbn [each_step] in H1, H2, H3, H4.
    destruct H1 as [A1 B1]. destruct H2 as [A2 B2]. destruct H3 as [A3 B3]. destruct H4 as [A4 B4].
    destruct (step c s l) as [s1|] eqn:E; [|discriminate].
    apply (IH s1 (rib_step c r l) s'); try assumption.
    apply (step_inv c s r l s1); assumption.
Qed.

Lemma Inv_quiescent_view : forall c s r,
  Inv c s r -> quiescent s = true -> forall x pid, view (wire s) x pid = r x pid.
Proof.
  intros c [[|e Q] [b|] [bs|] w] r [_ Iv _ _ _] Hq x pid; try discriminate. apply Iv. intros tag [].
Qed.

Theorem converges_partial : forall c ls s,
  run c ls = Some s ->
  client_protocol c ls ->
  hash_faithful c ls ->
  all_fit c ls ->
  no_withdraw_in_flight c ls ->
  quiescent s = true ->
  forall x pid, view (wire s) x pid = adj_rib_out c ls x pid.
Proof.
  intros c ls s Hrun H1 H2 H3 H4. exact (Inv_quiescent_view _ _ _ (run_inv c ls init rib_empty s (inv_init c) Hrun H1 H2 H3 H4)).
Qed.

Fixpoint each_stepb (Pb : st -> ribT -> label -> bool) (c : cfg) (s : st) (r : ribT) (ls : list label) : bool :=
  match ls with
  | [] => true
  | l :: ls' =>
    Pb s r l && match step c s l with Some s' => each_stepb Pb c s' (rib_step c r l) ls' | None => true end
  end.

Lemma each_stepb_sound : forall (P : st -> ribT -> label -> Prop) Pb c,
  (forall s r l, Pb s r l = true -> P s r l) ->
  forall ls s r, each_stepb Pb c s r ls = true -> each_step P c s r ls.
Proof.
  intros P Pb c HP ls. induction ls as [|l ls IH]; intros s r H; cbn [each_stepb each_step] in *; [exact I|].
  apply andb_true_iff in H. destruct H as [H1 H2]. split; [apply HP, H1|].
  destruct (step c s l); [apply IH, H2|exact I].
Qed.

Definition us_path_eq_dec : forall a b : path, {a = b} + {a <> b}.
Proof. decide equality; auto using N.eq_dec, bool_dec, list_eq_dec. Defined.

Definition client_protocolb (c : cfg) (_ : st) (r : ribT) (l : label) : bool :=
  match l with
  | Add x p => match r x (wpid c p) with None => true | Some t => N.eqb t (p_tag p) end
  | _ => true
  end.

Definition hash_faithfulb (s : st) (_ : ribT) (l : label) : bool :=
  match l with
  | Add x p => forallb (fun e => negb (key_eqb (pkey (e_path e)) (pkey p)) || if us_path_eq_dec (e_path e) p then true else false)
                       (queue s)
  | _ => true
  end.

Definition all_fitb (c : cfg) (_ : st) (_ : ribT) (l : label) : bool :=
  match l with Add x p => nlri_len c x <=? budget c p | _ => true end.

Definition in_flightb (c : cfg) (s : st) (x : pfx) (pid : N) : bool :=
  match inflight s with
  | None => false
  | Some b => N.eqb (wpid c (b_path b)) pid && existsb (pfx_eqb x) (concat (b_msgs b))
  end.

Definition no_withdraw_in_flightb (c : cfg) (s : st) (_ : ribT) (l : label) : bool :=
  match l with Remove x p => negb (in_flightb c s x (wpid c p)) | _ => true end.

Lemma client_protocol_check : forall c ls,
  each_stepb (client_protocolb c) c init rib_empty ls = true -> client_protocol c ls.
Proof.
  intros c ls. apply each_stepb_sound. intros s r [x p| | | | |]; try (intros; exact I).
  cbn [client_protocolb client_protocol_at]. destruct (r x (wpid c p)); [|now left].
  intros E. apply N.eqb_eq in E. right. now rewrite E.
Qed.

Lemma hash_faithful_check : forall c ls,
  each_stepb hash_faithfulb c init rib_empty ls = true -> hash_faithful c ls.
Proof.
  intros c ls. apply each_stepb_sound. intros s r [x p| | | | |]; try (intros; exact I).
  cbn [hash_faithfulb hash_faithful_at]. intros H e He Hk. rewrite forallb_forall in H. specialize (H e He).
  apply key_eqb_eq in Hk. rewrite Hk in H. now destruct (us_path_eq_dec (e_path e) p).
Qed.

Lemma all_fit_check : forall c ls, each_stepb (all_fitb c) c init rib_empty ls = true -> all_fit c ls.
Proof.
  intros c ls. apply each_stepb_sound. intros s r [x p| | | | |]; try (intros; exact I).
  cbn [all_fitb all_fit_at]. apply Z.leb_le.
Qed.

Lemma no_withdraw_in_flight_check : forall c ls,
  each_stepb (no_withdraw_in_flightb c) c init rib_empty ls = true -> no_withdraw_in_flight c ls.
Proof.
  intros c ls. apply each_stepb_sound. intros s r [|x p| | | |]; try (intros; exact I).
  cbn [no_withdraw_in_flightb no_withdraw_in_flight_at]. unfold in_flightb, in_flight.
  destruct (inflight s) as [b|]; [|tauto]. intros H [E1 E2].
  apply N.eqb_eq in E1. apply existsb_pfx in E2. now rewrite E1, E2 in H.
Qed.

Definition full_statement : Prop :=
  forall c ls s,
    run c ls = Some s ->
    client_protocol c ls -> hash_faithful c ls -> all_fit c ls ->
    quiescent s = true ->
    forall x pid, view (wire s) x pid = adj_rib_out c ls x pid.

Definition w_cfg : cfg := mkcfg V4 false true true false.
Definition w_pfx : pfx := mkpfx 167837696 16.
Definition w_path : path := mkpath 1 0 [1%N] true false false false false 0 0 0 [].
(* the route is withdrawn between Dequeue and EmitOne: the withdraw overtakes the announcement *)
Definition w_hist : list label := [Add w_pfx w_path; Dequeue (pkey w_path); Remove w_pfx w_path; EmitOne].

Lemma witness_overtakes :
  exists c ls s, run c ls = Some s /\
    client_protocol c ls /\ hash_faithful c ls /\ all_fit c ls /\
    quiescent s = true /\
    exists x pid, view (wire s) x pid <> adj_rib_out c ls x pid.
Proof.
  exists w_cfg, w_hist. eexists. split; [vm_compute; reflexivity|].
  split; [apply client_protocol_check; reflexivity|].
  split; [apply hash_faithful_check; reflexivity|].
  split; [apply all_fit_check; reflexivity|].
  split; [reflexivity|]. exists w_pfx, 0%N. vm_compute. discriminate.
Qed.

Theorem converges_refuted : ~ full_statement.
Proof.
  intros H. destruct witness_overtakes as (c & ls & s & H1 & H2 & H3 & H4 & H5 & x & pid & N).
  exact (N (H c ls s H1 H2 H3 H4 H5 x pid)).
Qed.
