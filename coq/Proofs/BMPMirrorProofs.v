(* C28: the BMP router model's tables mirror the monitored sessions (Spec/BMPMirrorSpec.v).
   The invariant has two layers: the neighbor list, read through find_nbr, is the session table of the
   trace, each Adj-RIB-In holding the live routes of its peer (nbrs_ok); and a VRF table holds an entry
   as often as the Adj-RIB-In of the neighbor that the entry's source address names (owner_cnt).
   At the end: the witnesses of the two refutations of Properties/C28.v. *)
From Coq Require Import List PeanoNat NArith Bool Lia.
Import ListNotations.
From BioVerif Require Import Lib.ListFacts Model.BMPCodec Model.BMPRouter Spec.BMPMirrorSpec
  Proofs.BMPCodecProofs Proofs.BMPServeProofs Proofs.BMPTableLemmas.

Definition owner_cnt (l : list nbr) (rd : N) (w : bool) (x : entry) : nat :=
  match find_nbr (rd, snd (fst (fst x))) l with
  | Some n => if src_eqb (n_src n) (fst (fst x)) then cntk (snd (fst x), snd x) (rib_of w n) else 0%nat
  | None => 0%nat
  end.

Lemma cnt_tagged : forall n rd l x, snd (n_src n) = n_addr n ->
  (if n_vrf n =? rd then cnt x (map (tag (n_src n)) l) else 0%nat) =
  if nkey_eqb (key_of n) (rd, snd (fst (fst x))) && src_eqb (n_src n) (fst (fst x))
  then cntk (snd (fst x), snd x) l else 0%nat.
Proof.
  intros n rd l [[s p] i] Hs. cbn [fst snd]. rewrite cnt_map_tag. unfold key_of, nkey_eqb. cbn [fst snd].
  destruct (src_eqb (n_src n) s) eqn:Es; [|rewrite andb_false_r; destruct (n_vrf n =? rd); reflexivity].
  apply src_eqb_eq in Es. subst s. rewrite Hs, N.eqb_refl, !andb_true_r. reflexivity.
Qed.

Definition rib_after (isann ap : bool) (p : prefix) (id : N) (rib : list rkey) : list rkey :=
  let kept := filter (fun x => negb (hits ap p id x)) rib in
  if isann then kept ++ [(p, id)] else kept.

Lemma hits_self : forall ap p id, hits ap p id (p, id) = true.
Proof.
  intros. unfold hits. cbn [fst snd].
  rewrite (proj2 (prefix_eqb_eq p p) eq_refl), N.eqb_refl. destruct ap; reflexivity.
Qed.

Definition ids_ok (ap : bool) (rib : list rkey) : Prop := ap = false -> forall z, In z rib -> snd z = 0.

(* then only the key (p, id) itself is hit: without add-path id and every stored path identifier are 0 *)
Lemma rib_after_cntk : forall isann ap p id rib y, ids_ok ap rib -> (ap || (id =? 0)) = true ->
  cntk y (rib_after isann ap p id rib) = if rkey_eqb (p, id) y then b2n isann else cntk y rib.
Proof.
  intros isann ap p id rib y Hid Hwf. unfold rib_after.
  assert (K : cntk y (filter (fun x => negb (hits ap p id x)) rib) =
              if rkey_eqb (p, id) y then 0%nat else cntk y rib).
  { rewrite cntk_filter. destruct (rkey_eqb (p, id) y) eqn:E.
    - apply rkey_eqb_eq in E. subst y. rewrite hits_self. reflexivity.
    - destruct (hits ap p id y) eqn:Eh; [|reflexivity]. cbn [negb]. symmetry. apply cntk_zero_iff. intros Hin.
      apply (eqb_neq_of rkey_eqb_eq) in E. apply E. unfold hits in Eh. apply andb_true_iff in Eh. destruct Eh as (Ep & Ei).
      apply prefix_eqb_eq in Ep. destruct y as [yp yi]. cbn [fst snd] in *. subst yp. f_equal.
      destruct ap; cbn [negb orb] in Ei, Hwf; [lia|]. assert (id = 0) as -> by lia. symmetry. apply (Hid eq_refl _ Hin). }
  destruct isann; [rewrite cntk_app; cbn [cntk]|]; rewrite K; destruct (rkey_eqb (p, id) y); cbn [b2n]; lia.
Qed.

Lemma rib_after_ids : forall isann ap p id rib, ids_ok ap rib -> (ap || (id =? 0)) = true ->
  ids_ok ap (rib_after isann ap p id rib).
Proof.
  intros isann ap p id rib Hid Hwf Hap z Hz. rewrite Hap in Hwf. cbn [orb] in Hwf. unfold rib_after in Hz.
  destruct isann; [apply in_app_or in Hz; destruct Hz as [Hz|[<-|[]]]|];
    try (cbn [snd]; lia); apply filter_In in Hz; apply (Hid Hap), Hz.
Qed.

(* the subtraction does not truncate: what is taken out was there *)
Lemma rib_after_split : forall (isann : bool) ap p id rib y c, c = cntk y rib ->
  (c - cntk y (filter (hits ap p id) rib) + cntk y (if isann then [(p, id)] else []))%nat =
  cntk y (rib_after isann ap p id rib).
Proof.
  intros isann ap p id rib y c ->. unfold rib_after. destruct isann; rewrite ?cntk_app, !cntk_filter;
    destruct (hits ap p id y); cbn [negb cntk]; lia.
Qed.

Definition nparams (n : nbr) : src * bool * bool * bool * N :=
  (n_src n, n_ap4 n, n_ap6 n, nbr_ibgp n, n_rid n).

Definition nbr_ok (tr : list tevent) (k : nkey) (n : nbr) : Prop :=
  snd (n_src n) = n_addr n /\
  (forall v6 y, cntk y (rib_of v6 n) = b2n (live tr k v6 y)) /\
  (forall v6, ids_ok (ap_of v6 n) (rib_of v6 n)).

Definition at_key (tr : list tevent) (k : nkey) (o : option nbr) : Prop :=
  match o with
  | Some n => sess tr k = Some (nparams n) /\ nbr_ok tr k n
  | None => sess tr k = None
  end.

Definition nbrs_ok (l : list nbr) (tr : list tevent) : Prop :=
  NoDup (map key_of l) /\ forall k, at_key tr k (find_nbr k l).

Lemma nbrs_ok_at : forall l tr k n, nbrs_ok l tr -> find_nbr k l = Some n ->
  sess tr k = Some (nparams n) /\ nbr_ok tr k n.
Proof. intros l tr k n (_ & H) F. specialize (H k). rewrite F in H. exact H. Qed.

Lemma nbrs_ok_find : forall l tr k x, nbrs_ok l tr -> sess tr k = Some x ->
  exists n, find_nbr k l = Some n /\ x = nparams n.
Proof.
  intros l tr k x (_ & H) Hs. specialize (H k). unfold at_key in H.
  destruct (find_nbr k l) as [n|]; [|congruence]. exists n. split; [reflexivity|]. destruct H. congruence.
Qed.

Lemma nbrs_ok_find_none : forall l tr k, nbrs_ok l tr -> sess tr k = None -> find_nbr k l = None.
Proof.
  intros l tr k (_ & H) Hs. specialize (H k). unfold at_key in H.
  destruct (find_nbr k l); [destruct H; congruence|reflexivity].
Qed.

Lemma at_key_other : forall ev tr k' o,
  sess (ev :: tr) k' = sess tr k' -> (forall w y, live (ev :: tr) k' w y = live tr k' w y) ->
  at_key tr k' o -> at_key (ev :: tr) k' o.
Proof.
  intros ev tr k' [m|] Hs Hl; unfold at_key, nbr_ok; rewrite Hs; [|auto].
  intros (A & B & C & D). split; [exact A|]. split; [exact B|]. split; [|exact D]. intros. rewrite Hl. apply C.
Qed.

(* (tr, closed) is the state of the specification: the two accumulators of wf_from *)
Record inv (st : rstate) (tr : list tevent) (closed : bool) : Prop := mk_inv {
  i_nbrs : nbrs_ok (r_nbrs st) tr;
  i_tab : forall rd v6 x, cnt x (table st rd v6) = owner_cnt (r_nbrs st) rd v6 x;
  i_vrf : forall k n, find_nbr k (r_nbrs st) = Some n -> vrf_exists (n_vrf n) st = true;
  i_ign : r_ignored st = [];
  i_closed : r_closed st = closed
}.

Lemma inv_ext : forall st st' tr cl,
  loc_frame st st' -> (forall rd v6, table st' rd v6 = table st rd v6) ->
  inv st tr cl -> inv st' tr cl.
Proof.
  intros st st' tr cl (H1 & H4 & H5 & H3) H2 [A B C D E]. constructor; rewrite ?H1, ?H4, ?H5; auto.
  - intros. rewrite H2. apply B.
  - intros. rewrite H3. eauto.
Qed.

Lemma set_rib_fields : forall v6 r n,
  key_of (set_rib v6 r n) = key_of n /\ nparams (set_rib v6 r n) = nparams n /\
  n_vrf (set_rib v6 r n) = n_vrf n /\ n_addr (set_rib v6 r n) = n_addr n /\
  (forall w, ap_of w (set_rib v6 r n) = ap_of w n) /\
  (forall w, rib_of w (set_rib v6 r n) = if Bool.eqb v6 w then r else rib_of w n).
Proof. intros [] r n; repeat split; intros []; reflexivity. Qed.

Definition rib_ev (isann : bool) (k : nkey) (v6 : bool) (x : rkey) : tevent :=
  if isann then EAnn k v6 x else EWdr k v6 x.

Lemma live_rib_ev : forall isann k v6 x tr k' w y,
  live (rib_ev isann k v6 x :: tr) k' w y =
  if nkey_eqb k k' && Bool.eqb v6 w && rkey_eqb x y
  then isann && match sess tr k' with Some _ => true | None => false end
  else live tr k' w y.
Proof.
  intros. destruct isann; cbn [rib_ev live andb];
    destruct (nkey_eqb k k' && Bool.eqb v6 w && rkey_eqb x y); reflexivity.
Qed.

Lemma nbrs_ok_rib : forall l tr k n isann v6 p id,
  nbrs_ok l tr -> find_nbr k l = Some n -> (ap_of v6 n || (id =? 0)) = true ->
  nbrs_ok (put_nbr (set_rib v6 (rib_after isann (ap_of v6 n) p id (rib_of v6 n)) n) l)
          (rib_ev isann k v6 (p, id) :: tr).
Proof.
  intros l tr k n isann v6 p id I F Hwf.
  destruct (nbrs_ok_at _ _ _ _ I F) as (Hs & Hsrc & Hrib & Hids). destruct I as (K & H).
  destruct (set_rib_fields v6 (rib_after isann (ap_of v6 n) p id (rib_of v6 n)) n) as (F1 & F2 & _ & F4 & F5 & F6).
  assert (Hsess : forall k', sess (rib_ev isann k v6 (p, id) :: tr) k' = sess tr k') by (destruct isann; reflexivity).
  split; [rewrite (kput_keys key_of nkey_eqb_eq); exact K|]. intros k'. specialize (H k').
  rewrite (find_put_nbr _ _ _ _ _ F F1). destruct (nkey_eqb k k') eqn:E.
  - apply nkey_eqb_eq in E. subst k'. unfold at_key, nbr_ok. rewrite Hsess, F2, F4.
    replace (n_src (set_rib _ _ n)) with (n_src n) by (injection F2; auto).
    split; [exact Hs|]. split; [exact Hsrc|]. split.
    + (* Adj-RIB-In contents follow `live` *)
      intros w y. rewrite live_rib_ev, nkey_eqb_refl, F6. cbn [andb].
      destruct (Bool.eqb v6 w) eqn:Ew; cbn [andb]; [|apply Hrib].
      apply Bool.eqb_prop in Ew. subst w. rewrite (rib_after_cntk _ _ _ _ _ _ (Hids v6) Hwf).
      destruct (rkey_eqb (p, id) y); [|apply Hrib]. rewrite Hs, andb_true_r. reflexivity.
    + (* without add-path only path id 0 is stored *)
      intros w. rewrite F5, F6. destruct (Bool.eqb v6 w) eqn:Ew; [|apply Hids].
      apply Bool.eqb_prop in Ew. subst w. apply rib_after_ids; [apply Hids|exact Hwf].
  - apply at_key_other; [apply Hsess| |exact H]. intros w y. rewrite live_rib_ev, E. reflexivity.
Qed.

Lemma nbrs_ok_up : forall l tr n,
  nbrs_ok l tr -> find_nbr (key_of n) l = None -> n_rib4 n = [] -> n_rib6 n = [] -> snd (n_src n) = n_addr n ->
  nbrs_ok (l ++ [n]) (EUp (key_of n) (n_src n) (n_ap4 n) (n_ap6 n) (nbr_ibgp n) (n_rid n) :: tr).
Proof.
  intros l tr n (K & H) F R4 R6 Hs.
  assert (Hrib : forall w, rib_of w n = []) by (intros []; assumption).
  split; [rewrite map_app; apply NoDup_snoc; [exact K|apply (kfind_none key_of nkey_eqb_eq), F]|].
  intros k. specialize (H k). rewrite find_nbr_snoc. destruct (nkey_eqb (key_of n) k) eqn:E.
  - apply nkey_eqb_eq in E. subst k. rewrite F. unfold at_key, nbr_ok. cbn [sess live].
    rewrite nkey_eqb_refl. split; [reflexivity|]. split; [exact Hs|]. split; intros w; rewrite Hrib; [reflexivity|].
    intros _ z [].
  - replace (match find_nbr k l with Some m => Some m | None => None end) with (find_nbr k l)
      by (destruct (find_nbr k l); reflexivity).
    apply at_key_other; [| |exact H]; intros; cbn [sess live]; rewrite E; reflexivity.
Qed.

Lemma nbrs_ok_down : forall l tr k, nbrs_ok l tr -> nbrs_ok (del_nbr k l) (EDown k :: tr).
Proof.
  intros l tr k (K & H). split; [apply del_nbr_keys, K|]. intros k'. specialize (H k').
  rewrite find_del_nbr by exact K. destruct (nkey_eqb k k') eqn:E.
  - cbn [at_key sess]. rewrite E. reflexivity.
  - apply at_key_other; [| |exact H]; intros; cbn [sess live]; rewrite E; reflexivity.
Qed.

Lemma rib_op_reads : forall n isann v6 p id st, vrf_exists (n_vrf n) st = true ->
  r_nbrs (rib_op n isann v6 p id st) =
    put_nbr (set_rib v6 (rib_after isann (ap_of v6 n) p id (rib_of v6 n)) n) (r_nbrs st) /\
  r_ignored (rib_op n isann v6 p id st) = r_ignored st /\
  r_closed (rib_op n isann v6 p id st) = r_closed st /\
  (forall rd, vrf_exists rd (rib_op n isann v6 p id st) = vrf_exists rd st) /\
  forall rd w x, cnt x (table (rib_op n isann v6 p id st) rd w) =
    if Bool.eqb v6 w
    then (cnt x (table st rd w)
          - (if N.eqb (n_vrf n) rd
             then cnt x (map (tag (n_src n)) (filter (hits (ap_of v6 n) p id) (rib_of v6 n))) else 0)
          + (if N.eqb (n_vrf n) rd then cnt x (map (tag (n_src n)) (if isann then [(p, id)] else [])) else 0))%nat
    else cnt x (table st rd w).
Proof.
  intros n isann v6 p id st Hv. unfold rib_op.
  set (st1 := loc_remove_all (n_vrf n) v6 (n_src n) (filter (hits (ap_of v6 n) p id) (rib_of v6 n)) st).
  assert (H1 : loc_frame st st1) by apply (loc_remove_all_keeps _ (frame_event st)), loc_frame_refl.
  set (st2 := if isann then loc_add (n_vrf n) v6 (tag (n_src n) (p, id)) st1 else st1).
  assert (H : loc_frame st st2) by (unfold st2; destruct isann; [apply (loc_add_keeps _ (frame_event st))|]; exact H1).
  destruct H as (A & B & C & D). cbn zeta. fold st1 st2. cbn [r_nbrs r_ignored r_closed set_nbrs].
  rewrite A. repeat split; auto.
  intros rd w x. change (table (set_nbrs _ ?s)) with (table s). unfold st2.
  destruct isann; [rewrite table_loc_add, (proj2 (proj2 (proj2 H1))), Hv|];
    clear Hv H1 A B C D; unfold st1; rewrite table_loc_remove_all; unfold here; destruct (N.eqb (n_vrf n) rd); destruct (Bool.eqb v6 w);
    cbn [andb b2n map cnt]; lia.
Qed.

(* The neighbor side is nbrs_ok_rib. For the table: it changes by what n takes out and puts in
   (rib_op_reads), which counts for the entries n owns (cnt_tagged), and n's Adj-RIB-In changes by the same
   amounts (rib_after_split): the count stays the owner's. *)
Lemma rib_op_inv : forall st tr cl k n isann v6 p id,
  inv st tr cl -> find_nbr k (r_nbrs st) = Some n -> (ap_of v6 n || (id =? 0)) = true ->
  inv (rib_op n isann v6 p id st) (rib_ev isann k v6 (p, id) :: tr) cl.
Proof.
  intros st tr cl k n isann v6 p id [IN IT IV IG IC] F Hwf.
  destruct (rib_op_reads n isann v6 p id st (IV k n F)) as (N1 & N2 & N3 & N4 & T).
  set (rib' := rib_after isann (ap_of v6 n) p id (rib_of v6 n)) in *.
  destruct (set_rib_fields v6 rib' n) as (F1 & F2 & F3 & _ & _ & F6).
  pose proof (kfind_key key_of nkey_eqb_eq _ _ _ F) as Hk. destruct (nbrs_ok_at _ _ _ _ IN F) as (_ & Hsrc & _).
  constructor.
  - rewrite N1. apply nbrs_ok_rib; assumption.
  - intros rd w x. specialize (IT rd w x). unfold owner_cnt in *.
    rewrite T, !(cnt_tagged n) by exact Hsrc. clear T.
    rewrite N1, (find_put_nbr _ _ _ _ _ F F1), Hk. destruct (nkey_eqb k (rd, snd (fst (fst x)))) eqn:E; cbn [andb].
    + apply nkey_eqb_eq in E. rewrite <- E, F in *. rewrite F6.
      replace (n_src (set_rib v6 rib' n)) with (n_src n) by (injection F2; auto).
      destruct (Bool.eqb v6 w) eqn:Ew; [|exact IT]. apply Bool.eqb_prop in Ew. subst w.
      destruct (src_eqb (n_src n) (fst (fst x))); [apply rib_after_split, IT|rewrite IT; reflexivity].
    + destruct (Bool.eqb v6 w); [rewrite Nat.sub_0_r, Nat.add_0_r|]; exact IT.
  - intros k' m. rewrite N1, (find_put_nbr _ _ _ _ _ F F1), N4. destruct (nkey_eqb k k'); [|eauto].
    injection 1 as <-. rewrite F3. eauto.
  - congruence.
  - congruence.
Qed.

Lemma apply_events_inv : forall evs st tr cl k s a4 a6 ib rid,
  inv st tr cl -> sess tr k = Some (s, a4, a6, ib, rid) ->
  forallb (wf_uevent a4 a6 ib rid) evs = true ->
  inv (fold_left (fun acc ev => apply_event k ev acc) evs st) (rev (map (tevent_of k) evs) ++ tr) cl.
Proof.
  induction evs as [|ev evs IH]; intros st tr cl k s a4 a6 ib rid I Hs Hwf; cbn [fold_left map rev app]; [exact I|].
  cbn [forallb] in Hwf. apply andb_true_iff in Hwf. destruct Hwf as (Hw1 & Hw2).
  destruct (nbrs_ok_find _ _ _ _ (i_nbrs _ _ _ I) Hs) as (n & F & Hx). injection Hx as -> -> -> -> ->.
  rewrite <- app_assoc. eapply IH; [|destruct ev; exact Hs|exact Hw2].
  unfold apply_event. rewrite F. destruct ev as [v6 p id a|v6 p id]; cbn [tevent_of wf_uevent] in *.
  - apply andb_true_iff in Hw1. destruct Hw1 as (Hw1 & Hh).
    unfold bmp_contributing_asns, bmp_contributing_cluster_ids. rewrite Hh.
    apply (rib_op_inv st tr cl k n true); [exact I|exact F|destruct v6; exact Hw1].
  - apply (rib_op_inv st tr cl k n false); [exact I|exact F|destruct v6; exact Hw1].
Qed.

Lemma bump_inv : forall i st tr cl, inv st tr cl -> inv (bump i st) tr cl.
Proof. intros i st tr cl. apply inv_ext; [repeat split|reflexivity]. Qed.

Lemma dispose_all_spec : forall st,
  r_ignored (dispose_all st) = r_ignored st /\ r_closed (dispose_all st) = r_closed st.
Proof.
  intros st. unfold dispose_all.
  assert (H : loc_frame st (fold_left (fun acc n => dispose_nbr n acc) (r_nbrs st) st))
    by (apply fold_left_invariant; [intros a n _; apply (dispose_nbr_keeps _ (frame_event st))|apply loc_frame_refl]).
  destruct H as (_ & B & C & _). split; assumption.
Qed.

Lemma cleanup_spec : forall st,
  r_nbrs (cleanup st) = [] /\ r_vrfs (cleanup st) = [] /\ r_ignored (cleanup st) = r_ignored st /\
  r_closed (cleanup st) = r_closed st.
Proof. intros st. rewrite cleanup_eq. repeat split. Qed.

Lemma inv_reset : forall st tr cl, (forall k, sess tr k = None) ->
  r_nbrs st = [] -> r_vrfs st = [] -> r_ignored st = [] -> r_closed st = cl -> inv st tr cl.
Proof.
  intros st tr cl H0 H1 H2 H3 H4. constructor; rewrite ?H1; [split; [constructor|exact H0]| |discriminate|exact H3|exact H4].
  intros rd v6 x. unfold table. rewrite H2. reflexivity.
Qed.

(* a route of an up peer is in its VRF's table exactly when it is live *)
Lemma inv_mirror_up : forall st tr cl k s a4 a6 ib rid v6 y,
  inv st tr cl -> sess tr k = Some (s, a4, a6, ib, rid) ->
  cnt (tag s y) (table st (fst k) v6) = b2n (live tr k v6 y).
Proof.
  intros st tr cl k s a4 a6 ib rid v6 y [IN IT IV IG _] Hs.
  destruct (nbrs_ok_find _ _ _ _ IN Hs) as (n & F & Hx). injection Hx as -> -> -> -> ->.
  destruct (nbrs_ok_at _ _ _ _ IN F) as (_ & Hsrc & Hrib & _).
  rewrite IT. unfold owner_cnt, tag. cbn [fst snd].
  replace (fst k, snd (n_src n)) with k by (rewrite Hsrc, <- (kfind_key key_of nkey_eqb_eq _ _ _ F); reflexivity).
  rewrite F, (eqb_refl_of src_eqb_eq). destruct y. apply Hrib.
Qed.

(* and nothing else is in any table: every entry is a live route of a peer that is up *)
Lemma inv_mirror_only : forall st tr cl rd v6 e,
  inv st tr cl -> In e (table st rd v6) ->
  exists addr a4 a6 ib rid,
    sess tr (rd, addr) = Some (fst (fst e), a4, a6, ib, rid) /\
    live tr (rd, addr) v6 (snd (fst e), snd e) = true.
Proof.
  intros st tr cl rd v6 e [IN IT IV IG _] Hin. apply cnt_pos_iff in Hin. rewrite IT in Hin. unfold owner_cnt in Hin.
  destruct (find_nbr (rd, snd (fst (fst e))) (r_nbrs st)) as [n|] eqn:F; [|lia].
  destruct (src_eqb (n_src n) (fst (fst e))) eqn:Es; [|lia]. apply src_eqb_eq in Es.
  destruct (nbrs_ok_at _ _ _ _ IN F) as (Hs & _ & Hrib & _). rewrite Hrib in Hin.
  exists (snd (fst (fst e))), (n_ap4 n), (n_ap6 n), (nbr_ibgp n), (n_rid n).
  split; [rewrite Hs; unfold nparams; rewrite Es; reflexivity|].
  destruct (live tr _ v6 _); [reflexivity|cbn [b2n] in Hin; lia].
Qed.

Lemma inv_remains : forall st tr cl, inv st tr cl ->
  (* tables hold only routes of peers whose session is up ... *)
  (forall rd v6 e, In e (table st rd v6) ->
     exists addr x, sess tr (rd, addr) = Some x /\ fst (fst (fst (fst x))) = fst (fst e)) /\
  (* ... a peer whose last word was peer down has none ... *)
  (forall k tr', tr = EDown k :: tr' ->
     forall v6 e, In e (table st (fst k) v6) ->
     exists addr x, addr <> snd k /\ sess tr' (fst k, addr) = Some x) /\
  (* ... and after a termination message / connection loss there are no neighbors and no tables *)
  (forall tr', tr = EReset :: tr' ->
     r_nbrs st = [] /\ forall rd v6, table st rd v6 = []).
Proof.
  intros st tr cl I. split; [|split].
  - intros rd v6 e Hin. destruct (inv_mirror_only _ _ _ _ _ _ I Hin) as (addr & a4 & a6 & ib & rid & A & _).
    exists addr, (fst (fst e), a4, a6, ib, rid). split; [exact A|reflexivity].
  - intros k tr' Ht v6 e Hin. destruct (inv_mirror_only _ _ _ _ _ _ I Hin) as (addr & a4 & a6 & ib & rid & A & _).
    rewrite Ht in A. cbn [sess] in A. destruct (nkey_eqb k (fst k, addr)) eqn:E; [discriminate|].
    exists addr, (fst (fst e), a4, a6, ib, rid). split; [|exact A].
    intros Ea. subst addr. destruct k as [k1 k2]. cbn [fst snd] in E. rewrite nkey_eqb_refl in E. discriminate.
  - intros tr' Ht. split.
    + destruct (r_nbrs st) as [|n l] eqn:En; [reflexivity|]. exfalso.
      destruct (nbrs_ok_at _ _ (key_of n) n (i_nbrs _ _ _ I)) as (H & _);
        [rewrite En; cbn [find_nbr]; rewrite nkey_eqb_refl; reflexivity|].
      rewrite Ht in H. discriminate H.
    + intros rd v6. destruct (table st rd v6) as [|e t] eqn:Et; [reflexivity|]. exfalso.
      assert (Hin : In e (table st rd v6)) by (rewrite Et; left; reflexivity).
      destruct (inv_mirror_only _ _ _ _ _ _ I Hin) as (addr & a4 & a6 & ib & rid & A & _).
      rewrite Ht in A. cbn [sess] in A. discriminate.
Qed.

Lemma table_dispose_nbr : forall n st rd w x,
  cnt x (table (dispose_nbr n st) rd w) =
  (cnt x (table st rd w) - (if N.eqb (n_vrf n) rd then cnt x (map (tag (n_src n)) (rib_of w n)) else 0))%nat.
Proof.
  intros n st rd w x. unfold dispose_nbr. rewrite !table_loc_remove_all. unfold here.
  destruct (N.eqb (n_vrf n) rd); cbn [andb]; [|lia]. destruct w; cbn [Bool.eqb rib_of]; lia.
Qed.

Lemma src_of_addr : forall h, wf_pph h = true -> snd (src_of h) = p_addr h.
Proof.
  intros h H. unfold wf_pph in H. unfold src_of. destruct (flag_v h); cbn [snd orb] in *; [reflexivity|].
  apply N.mod_small. apply N.ltb_lt. exact H.
Qed.

Definition is_term (m : bmp_msg) : bool := match m with MTerm _ => true | _ => false end.

Section Mirror.
Variable open_decode : bytes -> option open_info.
Variable upd_apply : bool -> bool -> bool -> bytes -> list uevent.
Variable c : cfg.

Lemma peer_up_inv : forall st tr cl h lo lp rp sent rcvd info, ignore_asns c = [] ->
  inv st tr cl -> wf_msg open_decode upd_apply c tr (MPeerUp h lo lp rp sent rcvd info) = true ->
  inv (peer_up open_decode c h sent rcvd st) (rev (interp open_decode upd_apply c tr (MPeerUp h lo lp rp sent rcvd info)) ++ tr) cl.
Proof.
  intros st tr cl h lo lp rp sent rcvd info Hign I Hwf. apply (bump_inv 3) in I.
  unfold peer_up, ignored_asn. rewrite Hign. cbn [existsb].
  unfold wf_msg in Hwf. apply andb_true_iff in Hwf. destruct Hwf as (Hpph & Hwf).
  unfold interp in *. unfold ignored_asn in *. rewrite Hign in *. cbn [existsb] in *.
  destruct (open_decode sent) as [so|]; [|exact I]. destruct (open_decode rcvd) as [ro|]; [|exact I].
  destruct (asn_of_open ro =? p_as h) eqn:Eas; cbn [negb]; [|exact I].
  unfold key_of_pph in *. set (k := (p_rd h, p_addr h)) in *.
  destruct (sess tr k) as [x|] eqn:Hs; [discriminate|].
  destruct (create_vrf_reads (p_rd h) (bump 3 st)) as (V1 & V2 & V3 & _ & V4 & V6 & _).
  destruct I as [IN IT IV IG IC]. pose proof (nbrs_ok_find_none _ _ _ IN Hs) as Fn.
  rewrite V1, Fn. cbn [rev app].
  set (n := mk_nbr (p_rd h) (p_addr h) (src_of h) (p_as h) (asn_of_open so)
                   (addpath_rx so ro 1) (addpath_rx so ro 2) (negb (len (o_asn4 ro) =? 0)) (o_bgpid so) [] []).
  constructor; cbn [r_nbrs r_ignored r_closed set_nbrs]; rewrite ?V1.
  - apply (nbrs_ok_up _ _ n IN Fn); [reflexivity|reflexivity|apply src_of_addr, Hpph].
  - intros rd w x. change (table (set_nbrs _ ?s)) with (table s).
    rewrite V6, IT. unfold owner_cnt. rewrite find_nbr_snoc.
    destruct (find_nbr (rd, snd (fst (fst x))) (r_nbrs (bump 3 st))); [reflexivity|].
    destruct (nkey_eqb (key_of n) _); [|reflexivity].
    destruct (src_eqb _ _); [destruct w|]; reflexivity.
  - intros k' m. rewrite find_nbr_snoc. change (vrf_exists ?r (set_nbrs _ ?s)) with (vrf_exists r s).
    rewrite V4. destruct (find_nbr k' (r_nbrs (bump 3 st))) eqn:F'; [injection 1 as <-; rewrite (IV _ _ F'); apply orb_true_r|].
    destruct (nkey_eqb (key_of n) k'); [injection 1 as <-; cbn [n_vrf n]; rewrite N.eqb_refl; reflexivity|discriminate].
  - congruence.
  - congruence.
Qed.

Lemma peer_down_inv : forall st tr cl h rs data,
  inv st tr cl -> inv (peer_down h st) (rev (interp open_decode upd_apply c tr (MPeerDown h rs data)) ++ tr) cl.
Proof.
  intros st tr cl h rs data I. apply (bump_inv 2) in I. unfold peer_down.
  rewrite (i_ign _ _ _ I). cbn [mem_src]. unfold interp, key_of_pph. cbn [rev app].
  set (k := (p_rd h, p_addr h)). destruct I as [IN IT IV IG IC].
  unfold neighbor_down. destruct (find_nbr k (r_nbrs (bump 2 st))) as [n|] eqn:F.
  - destruct (dispose_nbr_keeps _ (frame_event _) n _ (loc_frame_refl (bump 2 st))) as (D1 & D2 & D3 & D4).
    constructor; cbn [r_nbrs r_ignored r_closed set_nbrs]; rewrite ?D1.
    + apply nbrs_ok_down, IN.
    + intros rd w x. change (table (set_nbrs _ ?s)) with (table s). specialize (IT rd w x). unfold owner_cnt in *.
      destruct (nbrs_ok_at _ _ _ _ IN F) as (_ & Hsrc & _).
      rewrite table_dispose_nbr, (cnt_tagged n), (kfind_key key_of nkey_eqb_eq _ _ _ F), find_del_nbr by (exact Hsrc || apply IN).
      destruct (nkey_eqb k (rd, snd (fst (fst x)))) eqn:E; cbn [andb]; [|rewrite Nat.sub_0_r; exact IT].
      apply nkey_eqb_eq in E. rewrite <- E, F in IT. rewrite IT. apply Nat.sub_diag.
    + intros k' m. rewrite find_del_nbr by apply IN.
      change (vrf_exists ?r (set_nbrs _ ?s)) with (vrf_exists r s). rewrite D4.
      destruct (nkey_eqb k k'); [discriminate|eauto].
    + congruence.
    + congruence.
  - constructor; auto. rewrite <- (del_nbr_none k _ F). apply nbrs_ok_down, IN.
Qed.

Lemma route_monitoring_inv : forall st tr cl h upd,
  inv st tr cl -> wf_msg open_decode upd_apply c tr (MRouteMon h upd) = true ->
  inv (route_monitoring upd_apply c h upd st) (rev (interp open_decode upd_apply c tr (MRouteMon h upd)) ++ tr) cl.
Proof.
  intros st tr cl h upd I Hwf. apply (bump_inv 0) in I. unfold route_monitoring.
  unfold interp.
  destruct ((ignore_pre c && negb (flag_l h)) || (ignore_post c && flag_l h)); [exact I|].
  rewrite (i_ign _ _ _ I). cbn [mem_src].
  unfold wf_msg in Hwf. apply andb_true_iff in Hwf. destruct Hwf as (_ & Hwf).
  unfold key_of_pph in *. set (k := (p_rd h, p_addr h)) in *.
  destruct (sess tr k) as [[[[[s a4] a6] ib] rid]|] eqn:Hs.
  - destruct (nbrs_ok_find _ _ _ _ (i_nbrs _ _ _ I) Hs) as (n & F & Hx). rewrite F. injection Hx as -> -> -> -> ->.
    apply (apply_events_inv _ _ _ _ _ _ _ _ _ _ I Hs Hwf).
  - rewrite (nbrs_ok_find_none _ _ _ (i_nbrs _ _ _ I) Hs). exact I.
Qed.

Hypothesis Hign : ignore_asns c = [].

(* the state after serve has handled one decoded message *)
Definition post (st : rstate) (m : bmp_msg) : rstate :=
  let st' := snd (process_msg open_decode upd_apply c st m) in
  if r_closed st' then cleanup st' else st'.

Lemma post_inv : forall st tr m,
  inv st tr false -> wf_msg open_decode upd_apply c tr m = true ->
  inv (post st m) (rev (interp open_decode upd_apply c tr m) ++ tr) (is_term m).
Proof.
  intros st tr m I Hwf. unfold post.
  (* a message other than termination leaves the connection open: read it off the invariant of the new state *)
  assert (O : forall st' tr', inv st' tr' false -> inv (if r_closed st' then cleanup st' else st') tr' false)
    by (intros st' tr' I'; rewrite (i_closed _ _ _ I'); exact I').
  destruct m as [h upd|h cnt0 stats|h rs data|h lo lp rp sent rcvd info|ts|ts|h ts];
    cbn [process_msg snd is_term]; try apply O.
  - apply route_monitoring_inv; assumption.
  - exact I.
  - apply peer_down_inv; assumption.
  - apply peer_up_inv; assumption.
  - destruct (initiation_eq ts st) as (name & ->). revert I. apply inv_ext; [repeat split|reflexivity].
  - unfold termination. rewrite term_tlvs_never_panic. cbn [snd].
    destruct (dispose_all_spec (set_closed true (bump 5 st))) as (B & C).
    destruct (cleanup_spec (dispose_all (set_closed true (bump 5 st)))) as (E & F & G & H).
    rewrite C. cbn [r_closed set_closed]. apply inv_reset; [reflexivity|exact E|exact F|rewrite G, B; apply (i_ign _ _ _ I)|rewrite H; exact C].
  - revert I. apply inv_ext; [repeat split|reflexivity].
Qed.

Lemma step_on_frame : forall st f m, r_closed st = false ->
  frame_msg f = Some m ->
  exists k n, step open_decode upd_apply c st (AFrame f) = SDone (post st m) k n.
Proof.
  intros st f m Hc Hf. unfold frame_msg in Hf.
  destruct (recv f) as [m0 rest k|k|k|] eqn:ER; try discriminate.
  destruct rest as [|b rest]; [|discriminate].
  destruct (decode m0) as [r k2] eqn:ED. destruct r as [x| | |]; try discriminate. inversion Hf; subst x.
  pose proof (recv_spec f) as RS. rewrite ER in RS. destruct RS as (R1 & R2 & _).
  unfold min_len in R1. rewrite len_nil in R2.
  cbn [step]. cbn [run_stream]. rewrite Hc. cbn [negb andb].
  destruct (len f =? 0) eqn:E0; [lia|]. rewrite ER.
  unfold process. rewrite ED.
  pose proof (process_msg_never_panics open_decode upd_apply c st m) as PN.
  unfold post. destruct (process_msg open_decode upd_apply c st m) as [o st'] eqn:EP. cbn [fst snd] in *. subst o.
  destruct (length f) as [|j] eqn:EL; [unfold len in *; lia|].
  cbn [run_stream]. destruct (r_closed st'); [eauto|].
  cbn [negb andb]. rewrite len_nil. cbn [N.eqb]. eauto.
Qed.

(* BMPMirrorSpec.trace acts is trace_from [] acts, by definition *)
Definition trace_from (tr : list tevent) (acts : list action) : list tevent :=
  fold_left (fun tr a => rev (interp_action open_decode upd_apply c tr a) ++ tr) acts tr.

Lemma run_inv : forall acts st tr closed,
  inv st tr closed -> wf_from open_decode upd_apply c tr closed acts = true ->
  exists st' closed', run open_decode upd_apply c st acts = Some st' /\ inv st' (trace_from tr acts) closed'.
Proof.
  induction acts as [|a acts IH]; intros st tr closed I Hwf.
  - exists st, closed. split; [reflexivity|exact I].
  - cbn [wf_from] in Hwf. cbn [run]. unfold trace_from. cbn [fold_left]. fold (trace_from).
    destruct a as [f|id rd v6|].
    + apply andb_true_iff in Hwf. destruct Hwf as (Hcl & Hwf).
      destruct closed; [discriminate|].
      destruct (frame_msg f) as [m|] eqn:Ef; [|discriminate].
      apply andb_true_iff in Hwf. destruct Hwf as (Hm & Hwf).
      destruct (step_on_frame st f m (i_closed _ _ _ I) Ef) as (k & n & Es). rewrite Es.
      cbn [interp_action]. rewrite Ef. exact (IH (post st m) _ (is_term m) (post_inv st tr m I Hm) Hwf).
    + cbn [step]. destruct (observe_reads id rd v6 st) as (A & _ & E & _).
      cbn [interp_action rev app].
      apply (IH (observe id rd v6 st) tr closed); [|exact Hwf].
      apply (inv_ext st); assumption.
    + cbn [step]. destruct (cleanup_spec st) as (A & B & C & D).
      cbn [interp_action rev app].
      apply (IH (set_closed false (cleanup st)) (EReset :: tr) false); [|exact Hwf].
      apply inv_reset; cbn [r_nbrs r_vrfs r_ignored set_closed]; auto.
      rewrite C. apply (i_ign _ _ _ I).
Qed.

Lemma wf_inv : forall acts, wf open_decode upd_apply c acts = true ->
  exists st closed, run open_decode upd_apply c init acts = Some st /\ inv st (trace open_decode upd_apply c acts) closed.
Proof.
  intros acts Hwf.
  exact (run_inv acts init [] false
         (inv_reset init [] false (fun _ => eq_refl) eq_refl eq_refl eq_refl eq_refl) Hwf).
Qed.

Theorem mirror : forall acts,
  wf open_decode upd_apply c acts = true ->
  exists st, run open_decode upd_apply c init acts = Some st /\
    (forall k s a4 a6 ib rid v6 y, sess (trace open_decode upd_apply c acts) k = Some (s, a4, a6, ib, rid) ->
       cnt (tag s y) (table st (fst k) v6) = b2n (live (trace open_decode upd_apply c acts) k v6 y)) /\
    (forall rd v6 e, In e (table st rd v6) ->
       exists addr a4 a6 ib rid,
         sess (trace open_decode upd_apply c acts) (rd, addr) = Some (fst (fst e), a4, a6, ib, rid) /\
         live (trace open_decode upd_apply c acts) (rd, addr) v6 (snd (fst e), snd e) = true).
Proof.
  intros acts Hwf. destruct (wf_inv acts Hwf) as (st & cl & R & I).
  exists st. split; [exact R|]. split; intros; [eapply inv_mirror_up|eapply inv_mirror_only]; eauto.
Qed.

End Mirror.

(* the conclusion of mirror under a name: Properties/C28.v and BMPStack.v state it so *)
Definition mirror_holds (open_decode : bytes -> option open_info)
    (upd_apply : bool -> bool -> bool -> bytes -> list uevent) (c : cfg) (acts : list action) : Prop :=
  exists st, run open_decode upd_apply c init acts = Some st /\
    (forall k s a4 a6 ib rid v6 y, sess (trace open_decode upd_apply c acts) k = Some (s, a4, a6, ib, rid) ->
       cnt (tag s y) (table st (fst k) v6) = b2n (live (trace open_decode upd_apply c acts) k v6 y)) /\
    (forall rd v6 e, In e (table st rd v6) ->
       exists addr a4 a6 ib rid,
         sess (trace open_decode upd_apply c acts) (rd, addr) = Some (fst (fst e), a4, a6, ib, rid) /\
         live (trace open_decode upd_apply c acts) (rd, addr) v6 (snd (fst e), snd e) = true).

(* Witness of C28_mirror_refuted: IgnorePeerASNs = [65010]. Peer 10.0.0.2 of VRF 0 has AS 65010 and is ignored; the router
   remembers ignored peers by address only, so the peer 10.0.0.2 (AS 65011) of VRF 1 is silenced as
   well: its announcement of 1.0.0.0/24 is live but not in the table of VRF 1. *)
Definition wit_open (b : bytes) : option open_info := Some (mk_open (be (firstn 2 (skipn 20 b))) 1 [] []).
Definition wit_apply (a : pattrs) (_ _ _ : bool) (b : bytes) : list uevent :=
  match b with [1; p; i] => [UAnn false (p, 24) i a] | _ => [] end.
Definition wit_cfg : cfg := mk_cfg [65010] false false.
Definition wit_pph (rd aslo : N) : bytes :=
  [0; 0] ++ repeat 0 7 ++ [rd] ++ repeat 0 12 ++ [10; 0; 0; 2] ++ [0; 0; 253; aslo] ++ repeat 0 12.
Definition wit_openmsg (lo : N) : bytes := repeat 255 16 ++ [0; 29; 1; 4; 253; lo; 0; 180; 1; 1; 1; 1; 0].
Definition wit_up (rd aslo : N) : bytes :=
  [3; 0; 0; 0; 126; 3] ++ wit_pph rd aslo ++ repeat 0 16 ++ [0; 179; 156; 64] ++ wit_openmsg 233 ++ wit_openmsg aslo.
Definition wit_rm (rd aslo : N) : bytes := [3; 0; 0; 0; 51; 0] ++ wit_pph rd aslo ++ [1; 1; 0].
Definition wit_hist : list action := [AFrame (wit_up 0 242); AFrame (wit_up 1 243); AFrame (wit_rm 1 243)].

(* Witness of C28_mirror_hidden_refuted: wf is needed too. This history is not wf (wf_uevent rejects the path the Adj-RIB-In of
   the pseudo session hides). The eBGP peer 10.0.0.2 of VRF 1 reports 1.0.0.0/24 with an empty AS_PATH: the route is live, the table
   does not hold it (AdjRIBIn.validatePath: HiddenReasonEmptyASPath). *)
Definition wit2_hist : list action := [AFrame (wit_up 1 243); AFrame (wit_rm 1 243)].
