(* C11: well-formedness invariant of the path-id manager; what addPath and releasePath do to a
   well-formed manager, in terms of the identifier bound to a key and the key's reference count. *)
From Coq Require Import List NArith Lia Permutation.

From BioVerif Require Import Lib.ListFacts Lib.KeyedTable Model.PathIDs Proofs.PathIDsProofs.
Local Open Scope N_scope.

Section PathIDsInv.
  Variable K : Type.
  Variable K_eq_dec : forall a b : K, {a = b} + {a <> b}.

  Notation bget := (byk_get K K_eq_dec).
  Notation bdel := (byk_del K K_eq_dec).
  Notation padd := (pid_add K K_eq_dec).
  Notation prel := (pid_release K K_eq_dec).

  (* byk_get / byk_del test keys with the sumbool: KeyedTable's get / del over the boolean test it decides *)
  Definition deqb (a b : K) : bool := if K_eq_dec a b then true else false.

  Lemma deqb_eq : forall a b, deqb a b = true <-> a = b.
  Proof. intros a b. unfold deqb. destruct (K_eq_dec a b); split; auto; discriminate. Qed.

  Lemma bget_get : forall k m, bget k m = get deqb k m.
  Proof.
    induction m as [|[k' i] m IH]; cbn [byk_get get]; [reflexivity|]. unfold deqb at 1.
    now destruct (K_eq_dec k' k).
  Qed.

  Lemma bdel_del : forall k m, bdel k m = del deqb k m.
  Proof. intros k m. apply filter_ext. intros [k' i]. unfold deqb. cbn [fst]. now destruct (K_eq_dec k' k). Qed.

  Lemma bget_cons : forall k k' i m,
    bget k' ((k, i) :: m) = if K_eq_dec k k' then Some i else bget k' m.
  Proof. reflexivity. Qed.

  Lemma bget_del : forall k k' m, bget k' (bdel k m) = if K_eq_dec k k' then None else bget k' m.
  Proof. intros k k' m. rewrite bdel_del, !bget_get, (get_del deqb_eq). unfold deqb. now destruct (K_eq_dec k k'). Qed.

  Lemma bget_in : forall k i m, bget k m = Some i -> In (k, i) m.
  Proof. intros k i m. rewrite bget_get. apply (get_in deqb_eq). Qed.

  Lemma bget_not_in_keys : forall k m, bget k m = None -> ~ In k (map fst m).
  Proof. intros k m. rewrite bget_get. apply (get_none_notin deqb_eq). Qed.

  Lemma bget_keys : forall k m, In k (map fst m) <-> exists i, bget k m = Some i.
  Proof. intros k m. rewrite (get_in_keys deqb_eq), <- bget_get. reflexivity. Qed.

  Lemma in_bget_iff : forall k i m, NoDup (map fst m) -> (In (k, i) m <-> bget k m = Some i).
  Proof. intros k i m ND. split; [rewrite bget_get; now apply (in_get deqb_eq)|apply bget_in]. Qed.

  Definition rc (m : pidm K) (k : K) : N :=
    match bget k (byk m) with Some i => refcount i (ids m) | None => 0 end.

  Record wf (m : pidm K) : Prop := mkWf {
    wf_ids_nodup : NoDup (map fst (ids m));
    wf_byk_nodup : NoDup (map fst (byk m));
    wf_inj : forall k1 k2 i, bget k1 (byk m) = Some i -> bget k2 (byk m) = Some i -> k1 = k2;
    wf_byk_ids : forall k i, bget k (byk m) = Some i -> exists c, ids_get i (ids m) = Some c /\ 1 <= c;
    wf_ids_byk : forall i c, ids_get i (ids m) = Some c -> exists k, bget k (byk m) = Some i;
    wf_lt : forall i c, ids_get i (ids m) = Some c -> i < w32;
    wf_used : used m = N.of_nat (length (ids m));
    wf_len : N.of_nat (length (ids m)) <= max32
  }.

  Lemma wf_empty : wf pidm_empty.
  Proof.
    constructor; cbn; try constructor; try discriminate; intros; try discriminate.
  Qed.

  Lemma rc_bound : forall m k i c, bget k (byk m) = Some i -> ids_get i (ids m) = Some c -> rc m k = c.
  Proof. intros m k i c E G. unfold rc, refcount. now rewrite E, G. Qed.

  Lemma rc_unbound : forall m k, bget k (byk m) = None -> rc m k = 0.
  Proof. intros m k E. unfold rc. now rewrite E. Qed.

  Lemma rc_pos_iff : forall m k, wf m -> (1 <= rc m k <-> exists i, bget k (byk m) = Some i).
  Proof.
    intros m k W. split.
    - destruct (bget k (byk m)) eqn:E; [eauto|rewrite (rc_unbound m k E); lia].
    - intros [i E]. destruct (wf_byk_ids m W k i E) as [c [G C]]. now rewrite (rc_bound m k i c E G).
  Qed.

  (* keys and identifiers correspond one to one *)
  Lemma wf_sizes : forall m, wf m -> length (ids m) = length (byk m).
  Proof.
    intros m W.
    pose proof (fun k i => in_bget_iff k i (byk m) (wf_byk_nodup m W)) as B.
    rewrite <- (map_length fst (ids m)), <- (map_length snd (byk m)).
    apply Permutation_length, NoDup_Permutation.
    - apply (wf_ids_nodup m W).
    - (* different entries of byk carry different identifiers *)
      apply Injective_map_NoDup_in; [|apply (NoDup_map_inv fst), (wf_byk_nodup m W)].
      intros [k1 i1] [k2 i2] H1 H2 E. cbn [snd] in E. subst i2.
      apply B in H1, H2. now rewrite (wf_inj m W k1 k2 i1 H1 H2).
    - intros i. split.
      + intros H. destruct (proj1 (get_in_keys N.eqb_eq i (ids m)) H) as [c G].
        destruct (wf_ids_byk m W i c G) as [k E]. apply B in E. now apply (in_map snd) in E.
      + intros H. apply in_map_iff in H. destruct H as [[k j] [E H]]. cbn [snd] in E. subst j.
        apply B in H. destruct (wf_byk_ids m W k i H) as [c [G _]]. apply (get_in_keys N.eqb_eq). eauto.
  Qed.

  Lemma wf_set_count : forall m k i c,
    wf m -> bget k (byk m) = Some i -> 1 <= c ->
    let m' := mkPidm (ids_set i c (ids m)) (byk m) (last m) (used m) in
    wf m' /\ forall k', rc m' k' = if K_eq_dec k k' then c else rc m k'.
  Proof.
    intros m k i c W E C m'. destruct (wf_byk_ids m W k i E) as [c0 [G _]].
    split.
    - constructor; cbn [m' ids byk last used].
      + rewrite (ids_set_keys _ _ c0) by exact G. apply (wf_ids_nodup m W).
      + apply (wf_byk_nodup m W).
      + apply (wf_inj m W).
      + intros k1 i1 E1. rewrite ids_get_set. destruct (N.eqb i i1); [eauto|apply (wf_byk_ids m W k1 i1 E1)].
      + intros i1 c1. rewrite ids_get_set. destruct (N.eqb_spec i i1) as [<-|_]; [eauto|apply (wf_ids_byk m W)].
      + intros i1 c1. rewrite ids_get_set.
        destruct (N.eqb_spec i i1) as [<-|_]; [intros _; apply (wf_lt m W i c0 G)|apply (wf_lt m W)].
      + rewrite (ids_set_length _ _ c0) by exact G. apply (wf_used m W).
      + rewrite (ids_set_length _ _ c0) by exact G. apply (wf_len m W).
    - intros k'. unfold rc, refcount; cbn [m' byk ids]. destruct (K_eq_dec k k') as [<-|NE].
      + now rewrite E, ids_get_set, N.eqb_refl.
      + destruct (bget k' (byk m)) as [i'|] eqn:E'; [|reflexivity]. rewrite ids_get_set.
        destruct (N.eqb_spec i i') as [<-|_]; [|reflexivity]. now destruct NE; apply (wf_inj m W k k' i E E').
  Qed.

  Lemma padd_spec : forall m k, wf m ->
    match padd k m with
    | (m', AddOk i) =>
      wf m' /\ bget k (byk m') = Some i /\
      (forall k', rc m' k' = if K_eq_dec k k' then rc m k + 1 else rc m k') /\
      (forall k' j, bget k' (byk m) = Some j -> bget k' (byk m') = Some j)
    | (_, AddErr) => bget k (byk m) = None /\ N.of_nat (length (ids m)) = max32
    | (_, AddDiverge) => False
    end.
  Proof.
    intros m k W. unfold pid_add. destruct (bget k (byk m)) as [i|] eqn:E.
    - destruct (wf_set_count m k i (refcount i (ids m) + 1) W E) as [W' R]; [lia|]. cbn zeta in *.
      split; [exact W'|]. split; [exact E|]. split; [|auto]. intros k'. rewrite R. unfold rc at 2. now rewrite E.
    - rewrite (wf_used m W).
      destruct (N.eqb_spec (N.of_nat (length (ids m))) max32) as [EU|EU]; [now split|].
      pose proof (wf_len m W) as L.
      assert (Hc : (last m + 1) mod w32 < w32) by now apply N.mod_lt.
      destruct (next_free_some (S (length (ids m))) ((last m + 1) mod w32) (ids m) Hc) as [i NF];
        [unfold max32, w32 in *; lia|lia|].
      pose proof (next_free_spec (S (length (ids m))) _ (ids m) Hc) as FS. rewrite NF in *. destruct FS as [Gi Li].
      assert (FreshB : forall k' i', bget k' (byk m) = Some i' -> i <> i').
      { intros k' i' E' <-. destruct (wf_byk_ids m W k' i E') as [c [G _]]. congruence. }
      split; [|split; [|split]].
      + constructor; cbn [ids byk last used map fst length].
        * constructor; [now apply (get_none_notin N.eqb_eq)|apply (wf_ids_nodup m W)].
        * constructor; [now apply bget_not_in_keys|apply (wf_byk_nodup m W)].
        * intros k1 k2 i1. rewrite !bget_cons.
          destruct (K_eq_dec k k1) as [<-|N1], (K_eq_dec k k2) as [<-|N2]; intros A B; try reflexivity.
          -- inversion A; subst. now destruct (FreshB k2 i1 B).
          -- inversion B; subst. now destruct (FreshB k1 i1 A).
          -- apply (wf_inj m W k1 k2 i1 A B).
        * intros k1 i1. rewrite bget_cons, ids_get_cons. destruct (K_eq_dec k k1) as [<-|N1]; intros A.
          -- inversion A; subst. rewrite N.eqb_refl. eexists; split; [reflexivity|lia].
          -- destruct (N.eqb_spec i i1) as [EI|_]; [now destruct (FreshB k1 i1 A)|apply (wf_byk_ids m W k1 i1 A)].
        * intros i1 c1. rewrite ids_get_cons. destruct (N.eqb_spec i i1) as [<-|_]; intros G.
          -- exists k. rewrite bget_cons. now destruct (K_eq_dec k k).
          -- destruct (wf_ids_byk m W i1 c1 G) as [k1 E1]. exists k1. rewrite bget_cons.
             destruct (K_eq_dec k k1) as [<-|]; [congruence|assumption].
        * intros i1 c1. rewrite ids_get_cons.
          destruct (N.eqb_spec i i1) as [<-|_]; [intros _; exact Li|apply (wf_lt m W)].
        * unfold max32, w32 in *. lia.
        * lia.
      + cbn [byk]. rewrite bget_cons. now destruct (K_eq_dec k k).
      + intros k'. unfold rc, refcount; cbn [byk ids]. rewrite bget_cons.
        destruct (K_eq_dec k k') as [<-|_]; [now rewrite E, ids_get_cons, N.eqb_refl|].
        destruct (bget k' (byk m)) as [i'|] eqn:E'; [|reflexivity]. rewrite ids_get_cons.
        destruct (N.eqb_spec i i') as [EI|_]; [now destruct (FreshB k' i' E')|reflexivity].
      + intros k' j E'. cbn [byk]. rewrite bget_cons. destruct (K_eq_dec k k') as [<-|_]; [congruence|exact E'].
  Qed.

  Lemma prel_absent : forall m k, bget k (byk m) = None -> prel k m = (m, None).
  Proof. intros m k E. unfold pid_release. now rewrite E. Qed.

  Lemma prel_present : forall m k i,
    wf m -> bget k (byk m) = Some i ->
    exists m', prel k m = (m', Some i) /\ wf m' /\
      (forall k', rc m' k' = if K_eq_dec k k' then rc m k - 1 else rc m k') /\
      (forall k', 1 <= rc m' k' -> bget k' (byk m') = bget k' (byk m)).
  Proof.
    intros m k i W E. unfold pid_release. rewrite E.
    destruct (wf_byk_ids m W k i E) as [c [G C]].
    pose proof (rc_bound m k i c E G) as RK.
    unfold refcount. rewrite G. unfold dec64.
    destruct (N.eqb_spec c 0) as [C0|_]; [lia|].
    destruct (N.eqb_spec (c - 1) 0) as [C1|C1]; (eexists; split; [reflexivity|]).
    - (* last reference: the identifier is freed *)
      replace c with 1 in * by lia. cbn [byk ids].
      assert (OtherId : forall k' i', k' <> k -> bget k' (byk m) = Some i' -> i <> i').
      { intros k' i' NE E' <-. apply NE. apply (wf_inj m W k' k i E' E). }
      pose proof (ids_del_length i _ (ids m) (wf_ids_nodup m W) G) as L. pose proof (wf_len m W) as L'.
      split; [|split].
      + constructor; cbn [ids byk last used].
        * apply NoDup_map_filter, (wf_ids_nodup m W).
        * apply NoDup_map_filter, (wf_byk_nodup m W).
        * intros k1 k2 i1. rewrite !bget_del.
          destruct (K_eq_dec k k1), (K_eq_dec k k2); try discriminate. apply (wf_inj m W).
        * intros k1 i1. rewrite bget_del, ids_get_del. destruct (K_eq_dec k k1) as [|N1]; [discriminate|]. intros A.
          destruct (N.eqb_spec i i1) as [EI|_]; [now destruct (OtherId k1 i1 (not_eq_sym N1) A)|].
          apply (wf_byk_ids m W k1 i1 A).
        * intros i1 c1. rewrite ids_get_del. destruct (N.eqb_spec i i1) as [|NI]; [discriminate|]. intros G1.
          destruct (wf_ids_byk m W i1 c1 G1) as [k1 E1]. exists k1. rewrite bget_del.
          destruct (K_eq_dec k k1) as [<-|]; [congruence|assumption].
        * intros i1 c1. rewrite ids_get_del. destruct (N.eqb i i1); [discriminate|apply (wf_lt m W)].
        * rewrite (wf_used m W). unfold max32, w32 in *. lia.
        * lia.
      + intros k'. unfold rc at 1, refcount; cbn [byk ids]. rewrite bget_del.
        destruct (K_eq_dec k k') as [<-|NE]; [now rewrite RK|]. unfold rc, refcount.
        destruct (bget k' (byk m)) as [i'|] eqn:E'; [|reflexivity]. rewrite ids_get_del.
        destruct (N.eqb_spec i i') as [EI|_]; [now destruct (OtherId k' i' (not_eq_sym NE) E')|reflexivity].
      + intros k' R. unfold rc in R. cbn [byk] in *. rewrite bget_del in *. destruct (K_eq_dec k k'); [lia|reflexivity].
    - destruct (wf_set_count m k i (c - 1) W E) as [W' R]; [lia|]. cbn zeta in *. split; [exact W'|]. split; [|auto].
      intros k'. now rewrite R, RK.
  Qed.

End PathIDsInv.
