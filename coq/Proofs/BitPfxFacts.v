(* C01: prefixes as bit strings (Lib/BitPfx.v).  is_pre is the one order: a prefix is a string with a tail cut off
   (is_pre_iff), beq and bcontains are its two halves, at equal and at smaller length (beq_is_pre, beq_or_bcontains).
   The snoc lemmas, readings of one equation (is_pre_snoc_eq), are the trie's step from a node to the child on the side of
   the key's next bit; lcp is the meet (lcp_meet), and where two incomparable strings part their next bits differ (lcp_diverge). *)
From Coq Require Import List Bool Arith Lia.
From BioVerif Require Import Lib.BitPfx Lib.ListFacts.
Import ListNotations.

Lemma beq_true_iff : forall a b, beq a b = true <-> a = b.
Proof. exact (list_eqb_by_eq Bool.eqb_true_iff). Qed.

Lemma beq_refl : forall a, beq a a = true.
Proof. exact (eqb_refl_of beq_true_iff). Qed.

Lemma beq_false_iff : forall a b, beq a b = false <-> a <> b.
Proof. exact (eqb_neq_of beq_true_iff). Qed.

Lemma beq_sym : forall a b, beq a b = beq b a.
Proof. exact (eqb_sym_of beq_true_iff). Qed.

Lemma is_pre_app : forall s t, is_pre s (s ++ t) = true.
Proof.
  induction s as [|x s IH]; intros t; simpl; auto.
  rewrite Bool.eqb_reflx, IH. reflexivity.
Qed.

Lemma is_pre_refl : forall s, is_pre s s = true.
Proof. intros s. rewrite <- (app_nil_r s) at 2. apply is_pre_app. Qed.

Lemma is_pre_iff : forall s p, is_pre s p = true <-> exists t, p = s ++ t.
Proof.
  intros s p. split; [|intros [t ->]; apply is_pre_app].
  revert p. induction s as [|x s IH]; intros p H.
  - exists p. reflexivity.
  - destruct p as [|y p]; simpl in H; try discriminate.
    apply andb_true_iff in H. destruct H as [H1 H2].
    apply Bool.eqb_prop in H1. subst.
    destruct (IH _ H2) as [t ->]. exists t. reflexivity.
Qed.

Lemma is_pre_firstn : forall s p, is_pre s p = true <-> firstn (length s) p = s.
Proof.
  intros s p. rewrite is_pre_iff. split.
  - intros [t ->]. rewrite firstn_app, firstn_all, Nat.sub_diag. apply app_nil_r.
  - intros E. exists (skipn (length s) p). rewrite <- E at 1. symmetry. apply firstn_skipn.
Qed.

Lemma is_pre_length : forall s p, is_pre s p = true -> length s <= length p.
Proof.
  intros s p H. apply is_pre_iff in H. destruct H as [t ->].
  rewrite app_length. lia.
Qed.

Lemma is_pre_longer : forall s p, length p < length s -> is_pre s p = false.
Proof. intros s p L. destruct (is_pre s p) eqn:E; [apply is_pre_length in E; lia | reflexivity]. Qed.

Lemma is_pre_trans : forall a b c, is_pre a b = true -> is_pre b c = true -> is_pre a c = true.
Proof.
  intros a b c H1 H2. apply is_pre_iff in H1. apply is_pre_iff in H2.
  destruct H1 as [t ->]. destruct H2 as [u ->].
  rewrite <- app_assoc. apply is_pre_app.
Qed.

Lemma not_pre_below : forall s c p, is_pre s c = true -> is_pre s p = false -> is_pre c p = false.
Proof.
  intros s c p Hc Hp. destruct (is_pre c p) eqn:E; auto.
  rewrite (is_pre_trans _ _ _ Hc E) in Hp. discriminate.
Qed.

Lemma not_pre_snoc : forall s b q, is_pre s q = false -> is_pre (s ++ [b]) q = false.
Proof. intros s b q H. apply (not_pre_below s); [apply is_pre_app | exact H]. Qed.

Lemma is_pre_len_eq : forall s p, is_pre s p = true -> length p <= length s -> s = p.
Proof.
  intros s p H L. apply is_pre_iff in H. destruct H as [t ->].
  rewrite app_length in L. destruct t; [rewrite app_nil_r; reflexivity | simpl in L; lia].
Qed.

Lemma beq_is_pre : forall s p, beq s p = (length s =? length p) && is_pre s p.
Proof.
  intros s p. apply Bool.eq_true_iff_eq. rewrite beq_true_iff, andb_true_iff, Nat.eqb_eq. split.
  - intros ->. split; [reflexivity | apply is_pre_refl].
  - intros [L H]. apply is_pre_len_eq; [exact H | lia].
Qed.

Lemma is_pre_antisym : forall a b, is_pre a b = true -> is_pre b a = true -> a = b.
Proof.
  intros a b H1 H2. apply is_pre_len_eq; auto. apply is_pre_length; auto.
Qed.

Lemma is_pre_snoc_l : forall s b p, is_pre (s ++ [b]) p = true -> is_pre s p = true.
Proof.
  intros s b p H. eapply is_pre_trans; [|exact H]. apply is_pre_app.
Qed.

(* two prefixes of the same string are comparable *)
Lemma is_pre_comparable : forall a b x,
  is_pre a x = true -> is_pre b x = true -> is_pre a b = true \/ is_pre b a = true.
Proof.
  intros a b x Ha Hb. apply is_pre_iff in Ha, Hb. destruct Ha as [t ->], Hb as [u E].
  apply app_eq_app in E. destruct E as [l [[-> _] | [-> _]]]; [right | left]; apply is_pre_app.
Qed.

Lemma bcontains_iff : forall p x, bcontains p x = true <-> is_pre p x = true /\ p <> x.
Proof.
  intros p x. unfold bcontains. rewrite andb_true_iff, Nat.ltb_lt. split.
  - intros [L H]. split; auto. intros E. subst. lia.
  - intros [H N]. split; auto.
    pose proof (is_pre_length _ _ H) as L.
    destruct (Nat.eq_dec (length p) (length x)) as [E|E]; [|lia].
    exfalso. apply N. apply is_pre_len_eq; auto. lia.
Qed.

Lemma bcontains_false_iff : forall p x, bcontains p x = false <-> (is_pre p x = false \/ p = x).
Proof.
  intros p x. rewrite <- Bool.not_true_iff_false, bcontains_iff, <- beq_true_iff.
  destruct (is_pre p x), (beq p x); intuition congruence.
Qed.

Lemma beq_or_bcontains : forall p x, beq p x || bcontains p x = is_pre p x.
Proof.
  intros p x. destruct (beq p x) eqn:E; cbn [orb].
  - apply beq_true_iff in E. subst. symmetry. apply is_pre_refl.
  - apply beq_false_iff in E. apply Bool.eq_true_iff_eq. rewrite bcontains_iff. tauto.
Qed.

Lemma bitAt_app : forall s b t, bitAt (s ++ b :: t) (length s + 1) = b.
Proof.
  intros s b t. rewrite Nat.add_1_r. simpl.
  rewrite app_nth2 by lia. rewrite Nat.sub_diag. reflexivity.
Qed.

Lemma is_pre_snoc_eq : forall s b p,
  is_pre (s ++ [b]) p = is_pre s p && negb (beq s p) && Bool.eqb (bitAt p (length s + 1)) b.
Proof.
  induction s as [|x s IH]; intros b [|y p]; simpl; try reflexivity.
  - destruct b, y; reflexivity.
  - rewrite IH, Nat.add_1_r. destruct (Bool.eqb x y); reflexivity.
Qed.

(* a proper extension of s continues with its bit at position |s|+1 *)
Lemma is_pre_snoc : forall s p,
  is_pre s p = true -> s <> p -> is_pre (s ++ [bitAt p (length s + 1)]) p = true.
Proof.
  intros s p H N. rewrite is_pre_snoc_eq, H, (proj2 (beq_false_iff s p) N), Bool.eqb_reflx. reflexivity.
Qed.

Lemma is_pre_snoc_inv : forall s b p,
  is_pre (s ++ [b]) p = true -> is_pre s p = true /\ s <> p /\ bitAt p (length s + 1) = b.
Proof.
  intros s b p H. rewrite is_pre_snoc_eq in H.
  destruct (is_pre s p); [|discriminate]. destruct (beq s p) eqn:E; [discriminate|].
  repeat split; [apply beq_false_iff, E | apply Bool.eqb_prop, H].
Qed.

Lemma is_pre_snoc_bit : forall s p b,
  is_pre s p = true -> s <> p -> bitAt p (length s + 1) = b -> is_pre (s ++ [b]) p = true.
Proof. intros s p b H N <-. apply is_pre_snoc; auto. Qed.

Lemma is_pre_snoc_wrongbit : forall s p b,
  bitAt p (length s + 1) = negb b -> is_pre (s ++ [b]) p = false.
Proof.
  intros s p b Hb. rewrite is_pre_snoc_eq, Hb. destruct b; apply andb_false_r.
Qed.

Lemma is_pre_snoc_other : forall s b p,
  is_pre (s ++ [b]) p = true -> is_pre (s ++ [negb b]) p = false.
Proof.
  intros s b p H. apply is_pre_snoc_wrongbit. rewrite negb_involutive.
  apply (is_pre_snoc_inv _ _ _ H).
Qed.

Lemma is_pre_snoc_self : forall s b, is_pre (s ++ [b]) s = false.
Proof. intros s b. rewrite is_pre_snoc_eq, beq_refl, andb_false_r. reflexivity. Qed.

Lemma lcp_meet : forall s a b, is_pre s (lcp a b) = is_pre s a && is_pre s b.
Proof.
  induction s as [|u s IH]; intros [|x a] [|y b]; simpl; rewrite ?andb_false_r; auto.
  destruct (Bool.eqb x y) eqn:E; simpl.
  - apply Bool.eqb_prop in E. subst y. rewrite IH. destruct (Bool.eqb u x); reflexivity.
  - destruct u, x, y; try discriminate; simpl; rewrite ?andb_false_r; reflexivity.
Qed.

Lemma lcp_pre : forall a b, is_pre (lcp a b) a = true /\ is_pre (lcp a b) b = true.
Proof. intros a b. apply andb_true_iff. rewrite <- lcp_meet. apply is_pre_refl. Qed.

Lemma lcp_greatest : forall s a b,
  is_pre s a = true -> is_pre s b = true -> is_pre s (lcp a b) = true.
Proof. intros s a b Ha Hb. rewrite lcp_meet, Ha, Hb. reflexivity. Qed.

(* where two incomparable strings part, their next bits differ *)
Lemma lcp_diverge : forall a b,
  is_pre a b = false -> is_pre b a = false ->
  lcp a b <> a /\ lcp a b <> b /\
  bitAt a (length (lcp a b) + 1) = negb (bitAt b (length (lcp a b) + 1)).
Proof.
  intros a b Hab Hba. destruct (lcp_pre a b) as [La Lb].
  assert (Na : lcp a b <> a) by (intros E; rewrite E in Lb; congruence).
  assert (Nb : lcp a b <> b) by (intros E; rewrite E in La; congruence).
  split; [exact Na|]. split; [exact Nb|].
  (* if the next bits agreed, the common prefix would be longer *)
  pose proof (is_pre_snoc _ _ La Na) as Sa. pose proof (is_pre_snoc _ _ Lb Nb) as Sb.
  destruct (bitAt a _), (bitAt b _); try reflexivity;
    pose proof (lcp_greatest _ _ _ Sa Sb) as G; rewrite is_pre_snoc_self in G; discriminate.
Qed.
