(* Facts about the Adj-RIB-Out model (Model/AdjRIBOut.v). AddPath, RemovePath and RefreshRoute for one prefix are
   sequences of the two primitives addPath and removeExportedPath (prims), so what these two preserve the calls
   preserve; frame is what such a call leaves alone. For add-path sessions (from Hypothesis Hap on), C11: table,
   path-id manager and the log of client calls stay consistent (Inv) under every AddPath / RemovePath /
   ReplaceFilterChain, for every session kind and every export policy. After the sections, for C08 and C12: folds that
   leave the error counter alone (fold_split_inv). *)
From Coq Require Import List NArith Bool Lia Permutation.
Import ListNotations.
From BioVerif Require Import Lib.ListFacts Model.PathIDs Model.AdjRIBOut Spec.AroIDsSpec Proofs.PathIDsInv.
Local Open Scope N_scope.

Lemma list_eqb_eq_of : forall (A : Type) (eqb : A -> A -> bool),
  (forall x y, eqb x y = true <-> x = y) -> forall l m, list_eqb eqb l m = true <-> l = m.
Proof.
  intros A eqb H. induction l as [|x l IH]; intros [|y m]; cbn; split; intros E; try reflexivity; try discriminate.
  - apply andb_true_iff in E. destruct E as [E1 E2]. apply H in E1. apply IH in E2. congruence.
  - inversion E; subst. apply andb_true_iff. split; [now apply H|now apply IH].
Qed.

Lemma opt_eqb_eq_of : forall (A : Type) (eqb : A -> A -> bool),
  (forall x y, eqb x y = true <-> x = y) -> forall a b, opt_eqb eqb a b = true <-> a = b.
Proof. intros A eqb H. exact (option_eqb_eq H). Qed.

Lemma pair_eqb_eq : forall a b, pair_eqb a b = true <-> a = b.
Proof. exact (prod_eqb_eq N.eqb_eq N.eqb_eq). Qed.

Lemma lc_eqb_eq : forall a b, lc_eqb a b = true <-> a = b.
Proof. exact (prod_eqb_eq pair_eqb_eq N.eqb_eq). Qed.

Lemma seg_eqb_eq : forall a b, seg_eqb a b = true <-> a = b.
Proof. exact (prod_eqb_eq Bool.eqb_true_iff (list_eqb_eq_of N N.eqb N.eqb_eq)). Qed.

Lemma unk_eqb_eq : forall a b, unk_eqb a b = true <-> a = b.
Proof.
  intros [a1 a2 a3] [b1 b2 b3]. unfold unk_eqb. cbn.
  rewrite !andb_true_iff, !N.eqb_eq, (list_eqb_eq_of N N.eqb N.eqb_eq).
  split; [intros [[-> ->] ->]; reflexivity|]. intros E. inversion E. auto.
Qed.

Lemma andb_iff : forall (b1 b2 : bool) (Q1 Q2 : Prop),
  (b1 = true <-> Q1) -> (b2 = true <-> Q2) -> (b1 && b2 = true <-> Q1 /\ Q2).
Proof. intros b1 b2 Q1 Q2 H1 H2. rewrite andb_true_iff, H1, H2. reflexivity. Qed.

(* Compare ignores OnlyToCustomer and ASPathLen and nothing else.
   Field by field (andb_iff), not by rewriting under the sixteen conjuncts: that is slow to check *)
Lemma bgp_compare_iff : forall a b,
  bgp_compare a b = true <-> set_otc 0 (set_aspath (b_aspath a) 0 a) = set_otc 0 (set_aspath (b_aspath b) 0 b).
Proof.
  intros a b. destruct a, b. unfold bgp_compare, set_otc, set_aspath. cbn.
  etransitivity.
  { repeat apply andb_iff; try apply N.eqb_eq; try apply Bool.eqb_true_iff.
    - apply (opt_eqb_eq_of _ pair_eqb pair_eqb_eq).
    - apply (list_eqb_eq_of _ seg_eqb seg_eqb_eq).
    - apply (opt_eqb_eq_of _ _ (list_eqb_eq_of N N.eqb N.eqb_eq)).
    - apply (opt_eqb_eq_of _ _ (list_eqb_eq_of N N.eqb N.eqb_eq)).
    - apply (opt_eqb_eq_of _ _ (list_eqb_eq_of _ lc_eqb lc_eqb_eq)).
    - apply (list_eqb_eq_of _ unk_eqb unk_eqb_eq). }
  split.
  - intros H. decompose [and] H. subst. reflexivity.
  - intros E. injection E. intros. subst. repeat split; reflexivity.
Qed.

Lemma bgp_compare_refl : forall b, bgp_compare b b = true.
Proof. intros b. now apply bgp_compare_iff. Qed.

Lemma bgp_compare_pid_split : forall a b,
  bgp_compare a b = N.eqb (b_pid a) (b_pid b) && bgp_compare (set_pid 0 a) (set_pid 0 b).
Proof. intros a b. unfold bgp_compare. cbn. destruct (N.eqb (b_pid a) (b_pid b)); reflexivity. Qed.

Lemma bgp_compare_key : forall a b, bgp_compare a b = true -> b_src a = b_src b /\ b_pid a = b_pid b.
Proof.
  intros a b H. unfold bgp_compare in H. repeat (apply andb_prop in H; destruct H as [H ?]).
  split; now apply N.eqb_eq.
Qed.

Lemma in_tbl_get : forall pfx p t, In p (tbl_get pfx t) <-> In (pfx, p) t.
Proof.
  intros pfx p t. unfold tbl_get. rewrite in_map_iff. split.
  - intros [[k x] [E H]]. cbn [snd] in E. subst x. apply filter_In in H. destruct H as [H F].
    cbn [fst] in F. apply N.eqb_eq in F. now subst.
  - intros H. exists (pfx, p). split; [reflexivity|]. apply filter_In. split; [assumption|].
    cbn [fst]. apply N.eqb_refl.
Qed.

Lemma tbl_remove_first_drop : forall pfx sp t,
  tbl_remove_first pfx sp t = drop_first (fun e => N.eqb (fst e) pfx && path_compare (snd e) sp) t.
Proof. induction t as [|[k y] t IH]; cbn [tbl_remove_first drop_first fst snd]; [|rewrite IH]; reflexivity. Qed.

Lemma tbl_remove_first_incl : forall pfx sp t e, In e (tbl_remove_first pfx sp t) -> In e t.
Proof. intros pfx sp t e. rewrite tbl_remove_first_drop. apply drop_first_In. Qed.

Lemma tbl_get_add : forall pfx pfx' p t,
  tbl_get pfx' (tbl_add pfx p t) = tbl_get pfx' t ++ (if N.eqb pfx pfx' then [p] else []).
Proof.
  intros. unfold tbl_get, tbl_add. rewrite filter_app, map_app. cbn [filter fst]. now destruct (N.eqb pfx pfx').
Qed.

Lemma tbl_get_drop : forall pfx pfx' t,
  tbl_get pfx' (tbl_drop pfx t) = if N.eqb pfx pfx' then [] else tbl_get pfx' t.
Proof.
  intros pfx pfx' t. unfold tbl_get, tbl_drop. induction t as [|[k x] t IH]; [now destruct (N.eqb pfx pfx')|].
  cbn [filter fst]. destruct (N.eqb_spec k pfx) as [->|NK]; cbn [negb filter fst].
  - destruct (N.eqb pfx pfx'); exact IH.
  - destruct (N.eqb_spec pfx pfx') as [<-|_].
    + destruct (N.eqb_spec k pfx); [contradiction|exact IH].
    + destruct (N.eqb k pfx'); cbn [map]; now rewrite IH.
Qed.

Lemma tbl_get_remove : forall pfx pfx' p t,
  tbl_get pfx' (tbl_remove_first pfx p t) =
  if N.eqb pfx pfx' then drop_first (fun x => path_compare x p) (tbl_get pfx' t) else tbl_get pfx' t.
Proof.
  intros pfx pfx' p t. unfold tbl_get. induction t as [|[k x] t IH]; [now destruct (N.eqb pfx pfx')|].
  cbn [tbl_remove_first filter fst]. destruct (N.eqb_spec k pfx) as [->|NK]; cbn [andb].
  - destruct (N.eqb pfx pfx') eqn:E; cbn [map snd drop_first]; destruct (path_compare x p);
      cbn [filter fst map snd]; rewrite ?E; cbn [map snd]; rewrite ?IH; reflexivity.
  - cbn [filter fst]. destruct (N.eqb_spec pfx pfx') as [<-|NE].
    + destruct (N.eqb_spec k pfx); [contradiction|exact IH].
    + destruct (N.eqb k pfx'); cbn [map]; now rewrite IH.
Qed.

Lemma tbl_remove_first_split : forall pfx sp t,
  In (pfx, sp) t -> path_compare sp sp = true ->
  exists t1 x t2, t = t1 ++ (pfx, x) :: t2 /\ path_compare x sp = true /\
                  tbl_remove_first pfx sp t = t1 ++ t2.
Proof.
  intros pfx sp t HI R. rewrite tbl_remove_first_drop.
  destruct (drop_first_split (fun e => N.eqb (fst e) pfx && path_compare (snd e) sp) HI)
    as (t1 & [k x] & t2 & E & F & _ & D); cbn [fst snd] in *; [now rewrite N.eqb_refl, R|].
  apply andb_prop in F. destruct F as [F1 F2]. apply N.eqb_eq in F1. subst k. exists t1, x, t2. auto.
Qed.

Definition has_key (k : hkey) (e : N * path) : bool :=
  match path_hkey (snd e) with
  | Some k' => if hkey_eq_dec k' k then true else false
  | None => false
  end.

Definition count (k : hkey) (t : list (N * path)) : nat := length (filter (has_key k) t).

Lemma count_app : forall k t1 t2, count k (t1 ++ t2) = (count k t1 + count k t2)%nat.
Proof. intros. unfold count. now rewrite filter_app, app_length. Qed.

Lemma count_cons : forall k e t, count k (e :: t) = ((if has_key k e then 1 else 0) + count k t)%nat.
Proof. intros. unfold count. cbn [filter]. destruct (has_key k e); reflexivity. Qed.

Lemma has_key_bgp : forall k pfx r b, has_key k (pfx, PBgp r b) = if hkey_eq_dec (hkey_of b) k then true else false.
Proof. reflexivity. Qed.

Lemma same_announcement_iff : forall a b, same_announcement a b <-> hkey_of a = hkey_of b.
Proof.
  intros a b. unfold same_announcement, hkey_of. split.
  - intros (-> & -> & -> & -> & -> & -> & -> & -> & -> & -> & -> & -> & -> & -> & -> & ->). reflexivity.
  - intros H. injection H; intros. repeat split; assumption.
Qed.

Lemma in_keys_of : forall k t, In k (keys_of t) <-> exists pfx r b, In (pfx, PBgp r b) t /\ hkey_of b = k.
Proof.
  intros k t. unfold keys_of. rewrite in_flat_map. split.
  - intros [[pfx p] [HI HK]]. cbn [snd] in HK. destruct p as [snh|r b]; cbn [path_hkey] in HK; [destruct HK|].
    destruct HK as [HK|[]]. eauto.
  - intros [pfx [r [b [HI HK]]]]. exists (pfx, PBgp r b). split; [assumption|]. cbn [snd path_hkey]. now left.
Qed.

Lemma count_keys : forall k t, count k t = count_occ hkey_eq_dec (keys_of t) k.
Proof.
  intros k t. unfold count, keys_of. induction t as [|[pfx [snh|r b]] t IH]; [reflexivity|exact IH|].
  cbn [filter flat_map snd path_hkey app count_occ]. rewrite has_key_bgp, <- IH. now destruct (hkey_eq_dec (hkey_of b) k).
Qed.

Lemma count_pos_iff : forall k t, (0 < count k t)%nat <-> exists pfx r b, In (pfx, PBgp r b) t /\ hkey_of b = k.
Proof. intros k t. rewrite count_keys, <- in_keys_of. symmetry. apply count_occ_In. Qed.

Section Prims.
  Variable P : Type.
  Variable s : sess.

  (* a' comes from a by addPath and removeExportedPath calls for the prefix pfx: whatever these two preserve, AddPath,
     RemovePath and RefreshRoute for pfx preserve; the index pfx is there for prims_other: the other prefixes are not
     touched *)
  Inductive prims (pfx : N) (a : aro P) : aro P -> Prop :=
  | prims_refl : prims pfx a a
  | prims_add : forall a' q, prims pfx a a' -> prims pfx a (add_inner P s a' pfx q)
  | prims_remove : forall a' q, prims pfx a a' -> prims pfx a (fst (remove_exported P s a' pfx q)).

  Lemma prims_trans : forall pfx a b c, prims pfx a b -> prims pfx b c -> prims pfx a c.
  Proof. intros pfx a b c H1 H2. induction H2; [assumption|now apply prims_add|now apply prims_remove]. Qed.

  Lemma prims_fold : forall pfx (A : Type) (g : aro P -> A -> aro P) (l : list A) (a : aro P),
    (forall a x, prims pfx a (g a x)) -> prims pfx a (fold_left g l a).
  Proof. intros pfx A g l a Hg. apply fold_left_rel; [apply prims_refl|apply prims_trans|auto]. Qed.

  Definition frame (pfx : N) (a a' : aro P) : Prop :=
    cur a' = cur a /\ errs a <= errs a' /\ (exists l, elog a' = l ++ elog a) /\
    forall pfx', pfx <> pfx' -> tbl_get pfx' (tbl a') = tbl_get pfx' (tbl a).

  Lemma frame_refl : forall pfx a, frame pfx a a.
  Proof. intros pfx a. split; [reflexivity|]. split; [lia|]. split; [now exists []|reflexivity]. Qed.

  Lemma frame_trans : forall pfx a b c, frame pfx a b -> frame pfx b c -> frame pfx a c.
  Proof.
    intros pfx a b c [A1 [A2 [[l A3] A4]]] [B1 [B2 [[l' B3] B4]]].
    split; [congruence|]. split; [lia|]. split; [exists (l' ++ l); now rewrite B3, A3, app_assoc|].
    intros pfx' NE. now rewrite B4, A4.
  Qed.

  Lemma add_inner_frame : forall a pfx p, frame pfx a (add_inner P s a pfx p).
  Proof.
    intros a pfx p. unfold add_inner. destruct (s_addpath s).
    - destruct (path_hkey p) as [k|]; [|apply frame_refl].
      destruct (pid_add hkey hkey_eq_dec k (pm a)) as [m [i| |]]; (split; [reflexivity|]); (split; [cbn [errs]; lia|]);
        (split; [cbn [elog]|intros pfx' NE; cbn [tbl]]); try reflexivity; try (now exists []).
      + now exists [Announce pfx (path_set_pid i p)].
      + rewrite tbl_get_add. destruct (N.eqb_spec pfx pfx'); [contradiction|apply app_nil_r].
    - split; [reflexivity|]. split; [cbn [errs]; lia|]. split; cbn [elog tbl].
      + now exists (Announce pfx p :: rev (map (Withdraw pfx) (tbl_get pfx (tbl a)))).
      + intros pfx' NE. rewrite tbl_get_add, tbl_get_drop. destruct (N.eqb_spec pfx pfx'); [contradiction|apply app_nil_r].
  Qed.

  Lemma remove_exported_frame : forall a pfx p, frame pfx a (fst (remove_exported P s a pfx p)).
  Proof.
    intros a pfx p.
    assert (T : forall sp pfx', pfx <> pfx' -> tbl_get pfx' (tbl_remove_first pfx sp (tbl a)) = tbl_get pfx' (tbl a)).
    { intros sp pfx' NE. rewrite tbl_get_remove. now destruct (N.eqb_spec pfx pfx'). }
    unfold remove_exported. destruct (tbl_get pfx (tbl a)) as [|x t]; [apply frame_refl|].
    destruct (s_addpath s).
    - destruct (find _ (x :: t)) as [sp|]; [|apply frame_refl].
      destruct (path_hkey sp) as [k|]; [|apply frame_refl].
      destruct (pid_release hkey hkey_eq_dec k (pm a)) as [m [i|]];
        (split; [reflexivity|]); (split; [cbn [fst errs with_tbl]; lia|]); (split; [|apply T]).
      + now exists [Withdraw pfx sp].
      + now exists [].
    - split; [reflexivity|]. split; [cbn [fst errs]; lia|]. split; [now exists [Withdraw pfx p]|apply T].
  Qed.

  Lemma prims_frame : forall pfx a a', prims pfx a a' -> frame pfx a a'.
  Proof.
    intros pfx a a' H. induction H; [apply frame_refl| |]; (eapply frame_trans; [eassumption|]);
      [apply add_inner_frame|apply remove_exported_frame].
  Qed.

  Lemma prims_cur : forall pfx a a', prims pfx a a' -> cur a' = cur a.
  Proof. intros pfx a a' H. apply (prims_frame pfx a a' H). Qed.

  Lemma prims_errs : forall pfx a a', prims pfx a a' -> errs a <= errs a'.
  Proof. intros pfx a a' H. apply (prims_frame pfx a a' H). Qed.

  Lemma prims_elog : forall pfx a a', prims pfx a a' -> exists l, elog a' = l ++ elog a.
  Proof. intros pfx a a' H. apply (prims_frame pfx a a' H). Qed.

  Lemma prims_other : forall pfx pfx' a a', prims pfx a a' -> pfx <> pfx' ->
    tbl_get pfx' (tbl a') = tbl_get pfx' (tbl a).
  Proof. intros pfx pfx' a a' H. apply (prims_frame pfx a a' H). Qed.
End Prims.

Section AroIDs.
  Variable P : Type.
  Variable apply : P -> N -> path -> option path.
  Variable s : sess.

  Lemma remove_path_prims : forall a pfx p, prims P s pfx a (fst (remove_path P apply s a pfx p)).
  Proof.
    intros a pfx p. unfold remove_path. destruct (should_propagate s p); [|apply prims_refl].
    destruct (apply (cur a) pfx p); [apply prims_remove|]; apply prims_refl.
  Qed.

  Lemma wipe_prims : forall a pfx, prims P s pfx a (wipe P apply s a pfx).
  Proof. intros a pfx. unfold wipe. apply prims_fold. intros. apply remove_path_prims. Qed.

  Lemma add_path_export : forall a pfx p,
    add_path P apply s a pfx p =
    match export_with (apply (cur a)) s pfx p with
    | Some q => add_inner P s a pfx q
    | None => let (r, b) := redistribute s p in
              if should_propagate s (PBgp r b) then a else if s_addpath s then wipe P apply s a pfx else a
    end.
  Proof.
    intros a pfx p. unfold add_path, export_with. destruct (redistribute s p) as [r b].
    destruct (should_propagate s (PBgp r b)); [|reflexivity].
    destruct (rewrite s r b) as [b'|]; [|reflexivity]. now destruct (apply (cur a) pfx (PBgp r b')).
  Qed.

  Lemma refresh_one_export : forall nw a pfx p,
    refresh_one P apply s nw pfx a p =
    match export_with (apply (cur a)) s pfx p, export_with (apply nw) s pfx p with
    | None, None => a
    | Some qc, None => fst (remove_exported P s a pfx qc)
    | None, Some qn => add_inner P s a pfx qn
    | Some qc, Some qn =>
      if path_compare qc qn then a else add_inner P s (fst (remove_exported P s a pfx qc)) pfx qn
    end.
  Proof.
    intros nw a pfx p. unfold refresh_one, export_with. destruct (redistribute s p) as [r b].
    destruct (should_propagate s (PBgp r b)); [|reflexivity].
    destruct (rewrite s r b) as [b'|]; reflexivity.
  Qed.

  Lemma add_path_prims : forall a pfx p, prims P s pfx a (add_path P apply s a pfx p).
  Proof.
    intros a pfx p. rewrite add_path_export. destruct (export_with _ s pfx p); [apply prims_add, prims_refl|].
    destruct (redistribute s p) as [r b]. destruct (should_propagate s (PBgp r b)); [apply prims_refl|].
    destruct (s_addpath s); [apply wipe_prims|apply prims_refl].
  Qed.

  Lemma refresh_one_prims : forall nw pfx a p, prims P s pfx a (refresh_one P apply s nw pfx a p).
  Proof.
    intros nw pfx a p. rewrite refresh_one_export.
    destruct (export_with _ s pfx p) as [c|], (export_with _ s pfx p) as [n|];
      [destruct (path_compare c n); [apply prims_refl|apply prims_add, prims_remove, prims_refl]
      |apply prims_remove, prims_refl|apply prims_add, prims_refl|apply prims_refl].
  Qed.

  Hypothesis Hap : s_addpath s = true.

  Notation bget := (byk_get hkey hkey_eq_dec).
  Notation wfm := (wf hkey hkey_eq_dec).
  Notation rcm := (rc hkey hkey_eq_dec).

  Record Inv (a : aro P) : Prop := mkInv {
    I_wf : wfm (pm a);
    I_tbl : forall pfx p, In (pfx, p) (tbl a) ->
            exists r b, p = PBgp r b /\ bget (hkey_of b) (byk (pm a)) = Some (b_pid b);
    I_cnt : forall k, rcm (pm a) k = N.of_nat (count k (tbl a));
    I_div : diverged a = false;
    I_ann : forall pfx p, In (pfx, p) (tbl a) -> In (Announce pfx p) (elog a);
    I_wd : forall l1 l2 pfx w, elog a = l1 ++ Withdraw pfx w :: l2 -> In (Announce pfx w) l2
  }.

  Lemma Inv_init : forall c, Inv (init P c).
  Proof.
    intros c. constructor; cbn.
    - apply wf_empty.
    - intros ? ? [].
    - intros k. reflexivity.
    - reflexivity.
    - intros ? ? [].
    - intros l1 l2 pfx w H. destruct l1; discriminate.
  Qed.

  (* replace_chain ends by installing the new chain; add_inner's AddErr branch bumps errs *)
  Lemma Inv_irrel : forall a c e,
    Inv a -> Inv (mkAro (tbl a) (pm a) c (elog a) (diverged a) e).
  Proof. intros a c e [A B C D E F]. constructor; cbn; assumption. Qed.

  Lemma add_inner_inv : forall a pfx p, Inv a -> Inv (add_inner P s a pfx p).
  Proof.
    (* lia would take the section variable apply, which is in the context, into its proof term *)
    intros a pfx p I. clear apply. unfold add_inner. rewrite Hap.
    destruct p as [snh|r b]; cbn [path_hkey]; [assumption|].
    pose proof (padd_spec _ _ (pm a) (hkey_of b) (I_wf a I)) as PA.
    destruct (pid_add hkey hkey_eq_dec (hkey_of b) (pm a)) as [m' [i| |]]; [|now apply Inv_irrel|destruct PA].
    destruct PA as [W' [B [R Keep]]].
    cbn [path_set_pid]. unfold tbl_add. constructor; cbn [tbl pm cur elog diverged errs].
    - exact W'.
    - intros pf q HI. apply in_app_or in HI. destruct HI as [HI|[HI|[]]].
      + destruct (I_tbl a I pf q HI) as [r' [b' [-> Bq]]]. exists r', b'. split; [reflexivity|]. now apply Keep.
      + inversion HI; subst. exists r, (set_pid i b). split; [reflexivity|]. exact B.
    - intros k. rewrite count_app, count_cons, has_key_bgp. cbn [count filter length].
      change (hkey_of (set_pid i b)) with (hkey_of b).
      rewrite R, !(I_cnt a I). destruct (hkey_eq_dec (hkey_of b) k) as [<-|_]; lia.
    - apply (I_div a I).
    - intros pf q HI. apply in_app_or in HI. destruct HI as [HI|[HI|[]]].
      + right. now apply (I_ann a I).
      + inversion HI; subst. now left.
    - intros [|e l1] l2 pf w E; cbn in E; [discriminate|].
      inversion E; subst. now apply (I_wd a I l1 l2).
  Qed.

  Lemma remove_exported_inv : forall a pfx p, Inv a ->
    Inv (fst (remove_exported P s a pfx p)) /\
    forall a', remove_exported P s a pfx p = (a', true) ->
      exists sp, In (pfx, sp) (tbl a) /\ is_announcement_of sp p = true /\ elog a' = Withdraw pfx sp :: elog a.
  Proof.
    intros a pfx p I. clear apply. unfold remove_exported.
    destruct (tbl_get pfx (tbl a)) as [|p0 ps] eqn:TG; [now split|].
    rewrite Hap. rewrite <- TG.
    destruct (find (fun sp => is_announcement_of sp p) (tbl_get pfx (tbl a))) as [sp|] eqn:F; [|now split].
    apply find_some in F. destruct F as [HIn HA]. apply in_tbl_get in HIn.
    destruct (I_tbl a I pfx sp HIn) as [r [b [-> Bsp]]]. cbn [path_hkey].
    pose proof (I_wf a I) as W.
    destruct (prel_present hkey hkey_eq_dec (pm a) (hkey_of b) (b_pid b) W Bsp) as [m' [PR [W' [R Keep]]]].
    rewrite PR. cbn [fst]. split; [|intros a' H; inversion H; subst a'; cbn [elog]; eauto].
    destruct (tbl_remove_first_split pfx (PBgp r b) (tbl a) HIn (bgp_compare_refl b))
      as [t1 [x [t2 [ET [CX ER]]]]].
    (* the entry that goes has the same key as sp *)
    assert (HX : In (pfx, x) (tbl a)) by (rewrite ET; apply in_or_app; right; now left).
    destruct (I_tbl a I pfx x HX) as [rx [bx [-> Bx]]].
    apply bgp_compare_key in CX. destruct CX as [_ CX].
    assert (KX : hkey_of bx = hkey_of b).
    { eapply (wf_inj _ _ (pm a) W); [exact Bx|]. rewrite CX. exact Bsp. }
    assert (Cnt : forall k, rcm m' k = N.of_nat (count k (t1 ++ t2))).
    { intros k. generalize (I_cnt a I k). rewrite R, ET, !count_app, count_cons, has_key_bgp, KX.
      destruct (hkey_eq_dec (hkey_of b) k) as [<-|_]; lia. }
    pose proof (tbl_remove_first_incl pfx (PBgp r b) (tbl a)) as Sub. rewrite ER in Sub.
    constructor; cbn [tbl pm cur elog diverged errs]; rewrite ?ER.
    - exact W'.
    - intros pf q HI.
      destruct (I_tbl a I pf q (Sub _ HI)) as [r' [b' [-> Bq]]]. exists r', b'. split; [reflexivity|].
      (* its key is still referenced, so it keeps its identifier *)
      rewrite Keep; [exact Bq|]. rewrite Cnt.
      assert (0 < count (hkey_of b') (t1 ++ t2))%nat by (apply count_pos_iff; eauto). lia.
    - exact Cnt.
    - apply (I_div a I).
    - intros pf q HI. right. apply (I_ann a I), Sub, HI.
    - intros [|e l1] l2 pf w E; cbn in E; inversion E; subst; [now apply (I_ann a I)|now apply (I_wd a I l1 l2)].
  Qed.

  Lemma prims_inv : forall pfx a a', prims P s pfx a a' -> Inv a -> Inv a'.
  Proof.
    intros pfx a a' H I. induction H; [assumption|now apply add_inner_inv|now apply remove_exported_inv].
  Qed.

  Lemma replace_chain_inv : forall a nw view, Inv a -> Inv (replace_chain P apply s a nw view).
  Proof.
    intros a nw view I. unfold replace_chain.
    apply Inv_irrel.
    apply fold_left_invariant; [|assumption].
    intros a' rt _ I'. apply fold_left_invariant; [|assumption].
    intros a'' p _. apply prims_inv with (pfx := fst rt), refresh_one_prims.
  Qed.

  Lemma step_inv : forall a o, Inv a -> Inv (step P apply s a o).
  Proof.
    intros a [pfx p|pfx p|nw view]; cbn [step].
    - apply prims_inv with (pfx := pfx), add_path_prims.
    - apply prims_inv with (pfx := pfx), remove_path_prims.
    - apply replace_chain_inv.
  Qed.

  Theorem run_inv : forall c ops, Inv (run P apply s c ops).
  Proof. intros c ops. unfold run. apply fold_left_invariant; [intros a o _; apply step_inv|apply Inv_init]. Qed.

  (* identifiers are unique per announcement - even across prefixes *)
  Lemma ids_unique : forall (a : aro P) pfx1 pfx2 r1 b1 r2 b2, Inv a ->
    In (pfx1, PBgp r1 b1) (tbl a) -> In (pfx2, PBgp r2 b2) (tbl a) ->
    b_pid b1 = b_pid b2 -> same_announcement b1 b2.
  Proof.
    intros a pfx1 pfx2 r1 b1 r2 b2 I H1 H2 E.
    destruct (I_tbl a I _ _ H1) as [r1' [b1' [E1 B1]]]. inversion E1; subst r1' b1'.
    destruct (I_tbl a I _ _ H2) as [r2' [b2' [E2 B2]]]. inversion E2; subst r2' b2'.
    apply same_announcement_iff.
    eapply (wf_inj _ _ (pm a) (I_wf a I)); [exact B1|]. rewrite E. exact B2.
  Qed.

  (* only BGP paths are stored, each as it was announced *)
  Lemma table_announced : forall (a : aro P) pfx p, Inv a ->
    In (pfx, p) (tbl a) -> (exists r b, p = PBgp r b) /\ In (Announce pfx p) (elog a).
  Proof.
    intros a pfx p I H. split; [|now apply (I_ann a I)].
    destruct (I_tbl a I _ _ H) as [r [b [E _]]]. eauto.
  Qed.

  (* the in-use counter is exactly the number of distinct announcements stored *)
  Lemma used_exact : forall a : aro P, Inv a ->
    length (ids (pm a)) = ids_in_use (tbl a) /\ used (pm a) = N.of_nat (ids_in_use (tbl a)).
  Proof.
    intros a I. pose proof (I_wf a I) as W.
    assert (L : length (ids (pm a)) = ids_in_use (tbl a)).
    { rewrite (wf_sizes hkey hkey_eq_dec (pm a) W). unfold ids_in_use.
      rewrite <- (map_length fst (byk (pm a))).
      apply Permutation_length. apply NoDup_Permutation.
      - apply (wf_byk_nodup _ _ (pm a) W).
      - apply NoDup_nodup.
      - (* a key is bound iff it is referenced iff an entry carries it *)
        intros k. rewrite nodup_In, in_keys_of, <- count_pos_iff, (bget_keys hkey hkey_eq_dec).
        rewrite <- (rc_pos_iff hkey hkey_eq_dec (pm a) k W), (I_cnt a I). lia. }
    split; [exact L|]. rewrite (wf_used _ _ (pm a) W). now rewrite L.
  Qed.

  Lemma no_spurious_exhaustion : forall (a : aro P) k, Inv a ->
    N.of_nat (ids_in_use (tbl a)) < max32 -> exists m' i, pid_add hkey hkey_eq_dec k (pm a) = (m', AddOk i).
  Proof.
    intros a k I L. destruct (used_exact a I) as [LE _].
    pose proof (padd_spec _ _ (pm a) k (I_wf a I)) as PA.
    destruct (pid_add hkey hkey_eq_dec k (pm a)) as [m' [i| |]]; [eauto|destruct PA; lia|destruct PA].
  Qed.
End AroIDs.

(* The convergence statements of C08 and C12 assume that the whole fold left the error counter alone. Since the
   counter e never falls, each step left it alone, and that is what a step needs to keep the invariant Q (which speaks
   of the elements done and those still to do). *)
Lemma fold_split_inv : forall (S A : Type) (e : S -> N) (g : S -> A -> S) (all : list A)
                              (Q : list A -> list A -> S -> Prop),
  (forall s x, e s <= e (g s x)) ->
  (forall done x rest s, all = done ++ x :: rest -> Q done (x :: rest) s -> e (g s x) = e s ->
                         Q (done ++ [x]) rest (g s x)) ->
  forall rest done s, all = done ++ rest -> Q done rest s ->
  e (fold_left g rest s) = e s -> Q all [] (fold_left g rest s).
Proof.
  intros S A e g all Q Mono Step.
  assert (FM : forall l s, e s <= e (fold_left g l s)).
  { intros l. apply (fold_left_rel g (fun a b => e a <= e b)); [intros; lia|intros; lia|auto]. }
  induction rest as [|x rest IH]; intros done s E H HE; cbn [fold_left] in *.
  - rewrite app_nil_r in E. now subst.
  - specialize (FM rest (g s x)). specialize (Mono s x).
    apply (IH (done ++ [x])); [now rewrite <- app_assoc|apply Step; [assumption|assumption|lia]|lia].
Qed.

Definition good {P : Type} (s : sess) (c : P) (a : aro P) : Prop := cur a = c /\ (s_addpath s = true -> Inv P a).

Lemma good_cur : forall (P : Type) (s : sess) (c : P) a, good s c a -> cur a = c.
Proof. intros P s c a H. apply H. Qed.

Lemma good_inv : forall (P : Type) (s : sess) (c : P) a, good s c a -> s_addpath s = true -> Inv P a.
Proof. intros P s c a H. apply H. Qed.

Lemma good_init : forall (P : Type) (s : sess) (c : P), good s c (init P c).
Proof. intros P s c. split; [reflexivity|]. intros Hap. now apply Inv_init. Qed.

Lemma prims_good : forall (P : Type) (s : sess) (c : P) pfx a a', prims P s pfx a a' -> good s c a -> good s c a'.
Proof.
  intros P s c pfx a a' H [Hc I]. split; [now rewrite (prims_cur _ _ _ _ _ H)|].
  intros Hap. apply (prims_inv P s Hap pfx a); auto.
Qed.

(* the same for folds whose steps are made of addPath / removeExportedPath calls: good comes along *)
Lemma prims_fold_split : forall (P : Type) (s : sess) (c : P)
    (A : Type) (g : aro P -> A -> aro P) (all : list A) (Q : list A -> list A -> aro P -> Prop),
  (forall a x, exists pfx, prims P s pfx a (g a x)) ->
  (forall done x rest a, all = done ++ x :: rest -> good s c a ->
     Q done (x :: rest) a -> errs (g a x) = errs a -> Q (done ++ [x]) rest (g a x)) ->
  forall a, good s c a -> Q [] all a -> errs (fold_left g all a) = errs a -> Q all [] (fold_left g all a).
Proof.
  intros P s c A g all Q Pr Step a Gd H HE.
  eapply proj2, (fold_split_inv _ _ (@errs P) g all (fun done rest a' => good s c a' /\ Q done rest a')) with (done := []); auto.
  - intros a' x. destruct (Pr a' x) as [pfx H']. now apply prims_errs in H'.
  - intros done x rest a' E [Gd' H'] HE'. destruct (Pr a' x) as [pfx Px].
    split; [exact (prims_good P s c pfx a' _ Px Gd')|now apply Step].
Qed.
