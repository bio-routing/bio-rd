(* C36 - proofs: every reload installs exactly the sessions the new configuration asks for,
   hence the same sessions as a fresh start with that configuration.
   Each layer of the configurator is described by the outcome it has (session_cases,
   sessions_cases, configure_cases, reload_cases): success sets the peer map to `wanted`, anything
   else means that some neighbor is not `resolvable`. *)
From Coq Require Import List NArith Bool.
Import ListNotations.
From BioVerif Require Import Lib.ListFacts Model.Reconf Spec.ReconfSpec.
From BioVerif Require Lib.KeyedTable.

Lemma addr_eqb_eq : forall a b, addr_eqb a b = true <-> a = b.
Proof.
  intros [v1 i1] [v2 i2]; unfold addr_eqb; cbn [a_v4 a_id].
  rewrite andb_true_iff, eqb_true_iff, N.eqb_eq.
  split.
  - intros [H1 H2]; subst; reflexivity.
  - intros H; inversion H; auto.
Qed.

Lemma vrf_eqb_eq : forall a b, vrf_eqb a b = true <-> a = b.
Proof.
  intros [|n r] [|n' r']; cbn [vrf_eqb]; try (split; [discriminate | discriminate]).
  - split; auto.
  - rewrite andb_true_iff, Pos.eqb_eq, N.eqb_eq.
    split.
    + intros [H1 H2]; subst; reflexivity.
    + intros H; inversion H; auto.
Qed.

Lemma key_eqb_eq : forall a b, key_eqb a b = true <-> a = b.
Proof. exact (prod_eqb_eq vrf_eqb_eq addr_eqb_eq). Qed.

Lemma afset_eqb_eq : forall a b, afset_eqb a b = true <-> a = b.
Proof.
  intros [a1 a2 a3 a4] [b1 b2 b3 b4]; unfold afset_eqb; cbn [as_aprx as_best as_max as_nhx].
  rewrite !andb_true_iff, !eqb_true_iff, N.eqb_eq.
  split.
  - intros [[[H1 H2] H3] H4]; subst; reflexivity.
  - intros H; inversion H; auto.
Qed.

Lemma opt_eqb_eq : forall A (e : A -> A -> bool),
  (forall x y, e x y = true <-> x = y) ->
  forall a b, opt_eqb e a b = true <-> a = b.
Proof. intros A e He. exact (option_eqb_eq He). Qed.

Lemma key_eqb_refl : forall k, key_eqb k k = true.
Proof. exact (eqb_refl_of key_eqb_eq). Qed.

Lemma key_eqb_sym : forall a b, key_eqb a b = key_eqb b a.
Proof. exact (eqb_sym_of key_eqb_eq). Qed.

(* `lookup`/`remove` are `KeyedTable.get`/`del key_eqb`: the library's lemmas apply as they stand. *)
Lemma lookup_remove_same : forall k l, lookup k (remove k l) = None.
Proof.
  intros k l. pose proof (KeyedTable.get_del key_eqb_eq k k l) as H. now rewrite key_eqb_refl in H.
Qed.

Lemma lookup_set : forall k p l k',
  lookup k' ((k, p) :: remove k l) = if key_eqb k k' then Some p else lookup k' l.
Proof.
  intros k p l k'; cbn [lookup]. rewrite (KeyedTable.get_del key_eqb_eq k' k l : lookup k' (remove k l) = _).
  destruct (key_eqb k k'); reflexivity.
Qed.

Lemma remove_remove : forall k l, remove k (remove k l) = remove k l.
Proof. intros k l. exact (KeyedTable.del_absent key_eqb_eq k _ (lookup_remove_same k l)). Qed.

Lemma remove_cons_same : forall k p l, remove k ((k, p) :: l) = remove k l.
Proof. intros k p l. cbn [remove filter fst]. now rewrite key_eqb_refl. Qed.

(* every peer of the map is what newPeer builds from its stored configuration, is stored under
   the key of that configuration and has a local address (AddPeer needs one) *)
Definition peer_ok (k : key) (p : peer) : Prop :=
  p = new_peer (p_cfg p) /\ (pc_vrf (p_cfg p), pc_addr (p_cfg p)) = k /\ pc_local (p_cfg p) <> None.

Definition wf (s : state) : Prop :=
  NoDup (map fst (s_peers s)) /\ forall k p, In (k, p) (s_peers s) -> peer_ok k p.

Lemma wf_init : forall rid, wf (init rid).
Proof. intros rid; split; cbn; [constructor | intros k p []]. Qed.

Lemma wf_set : forall s k p, wf s -> peer_ok k p -> wf (with_peers s ((k, p) :: remove k (s_peers s))).
Proof.
  intros s k p [ND Hall] Hok; split; cbn [with_peers s_peers map fst].
  - constructor; [|apply NoDup_map_filter; exact ND].
    exact (KeyedTable.get_none_notin key_eqb_eq k _ (lookup_remove_same k _)).
  - intros k' p' [E | Hin].
    + inversion E; subst; exact Hok.
    + apply (KeyedTable.del_in key_eqb_eq) in Hin. destruct Hin as [Hin _]. apply Hall; exact Hin.
Qed.

Lemma wf_filter : forall s f, wf s -> wf (with_peers s (filter f (s_peers s))).
Proof.
  intros s f [ND Hall]; split; cbn [with_peers s_peers].
  - apply NoDup_map_filter; exact ND.
  - intros k p Hin. apply filter_In in Hin. destruct Hin as [Hin _]. apply Hall; exact Hin.
Qed.

Lemma same_sessions_in : forall a b, wf a -> wf b -> same_sessions a b ->
  forall k p, In (k, p) (s_peers a) <-> In (k, p) (s_peers b).
Proof.
  intros a b [NDa _] [NDb _] Hsame k p.
  pose proof (KeyedTable.ext_perm key_eqb_eq _ _ NDa NDb Hsame) as P.
  split; apply Permutation.Permutation_in; [|symmetry]; exact P.
Qed.

Lemma needs_restart_false : forall a b,
  needs_restart a b = false -> pc_addr a = pc_addr b ->
  b = set_export (set_import a (pc_import b)) (pc_export b).
Proof.
  intros a b H Haddr; unfold needs_restart in H.
  repeat (apply orb_false_elim in H; destruct H as [H ?]).
  rewrite negb_false_iff, ?N.eqb_eq, ?eqb_true_iff, ?vrf_eqb_eq,
    ?(opt_eqb_eq _ _ addr_eqb_eq), ?(opt_eqb_eq _ _ afset_eqb_eq) in *.
  destruct a, b; unfold set_export, set_import; cbn in *. now subst.
Qed.

Lemma replace_import_new : forall c ci, replace_import (new_peer c) ci = new_peer (set_import c ci).
Proof.
  intros c ci. unfold replace_import, new_peer, with_cfg_chains, set_import, caps_of; cbn.
  destruct (pc_passive c); reflexivity.
Qed.

Lemma replace_export_new : forall c ce, replace_export (new_peer c) ce = new_peer (set_export c ce).
Proof.
  intros c ce. unfold replace_export, new_peer, with_cfg_chains, set_export, caps_of; cbn.
  destruct (pc_passive c); reflexivity.
Qed.

Lemma srv_replace_ok : forall f s k c p, lookup k (s_peers s) = Some p ->
  srv_replace f s k c = Ok (with_peers s ((k, f p c) :: remove k (s_peers s))).
Proof. intros f s k c p H; unfold srv_replace; rewrite H; reflexivity. Qed.

(* the peer `wanted` asks for when n is the last entry with its key *)
Definition target (rid : N) (v : vrf) (n : lneighbor) : peer := new_peer (new_peer_config rid v n).

Lemma target_ok : forall rid v n, ln_local n <> None -> peer_ok (v, ln_addr n) (target rid v n).
Proof.
  intros rid v n Hl; unfold peer_ok, target; cbn [new_peer p_cfg new_peer_config pc_vrf pc_addr pc_local].
  repeat split; auto.
Qed.

(* Whichever way configureSession takes (new peer, replaced session, filter chains replaced in
   place), it does what AddPeer of the new configuration does. *)
Lemma configure_session_sets : forall s n v, wf s -> determine_vrf (s_vrfs s) n = Some v ->
  configure_session s n = add_peer s (new_peer_config (s_rid s) v n).
Proof.
  intros s n v [ND Hall] Dv. unfold configure_session, get_peer_config. rewrite Dv.
  set (k := (v, ln_addr n)). set (newc := new_peer_config (s_rid s) v n).
  destruct (lookup k (s_peers s)) as [p|] eqn:Lk; cbn [option_map]; [|reflexivity].
  destruct (Hall _ _ (KeyedTable.get_in key_eqb_eq _ _ _ Lk)) as [Hnew [Hkey Hloc]].
  unfold reconfigure_modified, add_peer. destruct (needs_restart (p_cfg p) newc) eqn:NR.
  - (* replaceSession *)
    rewrite Hkey. unfold dispose_peer. cbn [with_peers s_peers]. fold k. now rewrite remove_remove.
  - assert (Hb : newc = set_export (set_import (p_cfg p) (ln_import n)) (ln_export n)).
    { apply (needs_restart_false _ _ NR). now inversion Hkey. }
    cbn [newc new_peer_config pc_vrf]. fold k newc.
    rewrite (srv_replace_ok replace_import s k (ln_import n) p Lk).
    rewrite (srv_replace_ok replace_export _ k (ln_export n) (replace_import p (ln_import n)))
      by (cbn [with_peers s_peers lookup]; now rewrite key_eqb_refl).
    cbn [with_peers s_peers s_rid s_vrfs]. rewrite remove_cons_same, remove_remove.
    rewrite Hnew, replace_import_new, replace_export_new, <- Hb.
    destruct (pc_local newc) eqn:Hl; [reflexivity|]. now rewrite Hb in Hl.
Qed.

(* configureSession, completely: unknown VRF -> error and nothing changed; no local address ->
   panic; otherwise the key of the neighbor holds exactly the peer a fresh AddPeer would build
   and nothing else changed *)
Lemma session_cases : forall s n, wf s ->
  match determine_vrf (s_vrfs s) n with
  | None => configure_session s n = Err s
  | Some v =>
    match ln_local n with
    | None => configure_session s n = Panicked
    | Some _ =>
      exists s', configure_session s n = Ok s' /\ s_rid s' = s_rid s /\ s_vrfs s' = s_vrfs s /\ wf s' /\
                 forall k, lookup k (s_peers s') =
                           if key_eqb (v, ln_addr n) k then Some (target (s_rid s) v n)
                           else lookup k (s_peers s)
    end
  end.
Proof.
  intros s n Hwf.
  destruct (determine_vrf (s_vrfs s) n) as [v|] eqn:Dv;
    [|unfold configure_session; now rewrite Dv].
  rewrite (configure_session_sets s n v Hwf Dv). unfold add_peer. cbn [new_peer_config pc_local pc_vrf pc_addr].
  destruct (ln_local n) as [la|] eqn:Ll; [|reflexivity].
  eexists; split; [reflexivity|]. cbn [with_peers s_rid s_vrfs s_peers].
  refine (conj eq_refl (conj eq_refl (conj _ (lookup_set _ _ _)))).
  apply wf_set, target_ok; [exact Hwf|]. now rewrite Ll.
Qed.

Definition resolvable (vs : list (positive * N)) (n : lneighbor) : Prop :=
  (exists v, determine_vrf vs n = Some v) /\ ln_local n <> None.

Definition overlay (w : option peer) (base : option peer) : option peer :=
  match w with Some p => Some p | None => base end.

Lemma sessions_cases : forall ns s, wf s ->
  match configure_sessions s ns with
  | Ok s' => Forall (resolvable (s_vrfs s)) ns /\ s_rid s' = s_rid s /\ s_vrfs s' = s_vrfs s /\ wf s' /\
             forall k, lookup k (s_peers s') = overlay (wanted (s_rid s) (s_vrfs s) ns k) (lookup k (s_peers s))
  | Err s' => ~ Forall (resolvable (s_vrfs s)) ns /\ s_rid s' = s_rid s /\ wf s'
  | Panicked => ~ Forall (resolvable (s_vrfs s)) ns
  end.
Proof.
  induction ns as [|n r IH]; intros s Hwf; cbn [configure_sessions wanted].
  - exact (conj (Forall_nil _) (conj eq_refl (conj eq_refl (conj Hwf (fun k => eq_refl))))).
  - pose proof (session_cases s n Hwf) as Hc.
    destruct (determine_vrf (s_vrfs s) n) as [v|] eqn:Dv; [destruct (ln_local n) as [la|] eqn:Ll|].
    + destruct Hc as [s1 [Hcs [Hrid [Hvs [Hwf1 Hlk]]]]]. rewrite Hcs.
      specialize (IH s1 Hwf1). rewrite Hrid, Hvs in IH.
      assert (Hn : resolvable (s_vrfs s) n) by (split; [eauto|now rewrite Ll]).
      destruct (configure_sessions s1 r) as [s'|s'|].
      * destruct IH as [HF [Hrid' [Hvs' [Hwf' Hlk']]]].
        refine (conj (Forall_cons _ Hn HF) (conj _ (conj _ (conj Hwf' _)))); try congruence.
        intros k. rewrite Hlk'.
        destruct (wanted (s_rid s) (s_vrfs s) r k) as [p|]; cbn [overlay]; [reflexivity|].
        rewrite Hlk. unfold target. destruct (key_eqb (v, ln_addr n) k); reflexivity.
      * destruct IH as [HF [Hrid' Hwf']].
        refine (conj (fun H => HF (Forall_inv_tail H)) (conj _ Hwf')). congruence.
      * exact (fun H => IH (Forall_inv_tail H)).
    + rewrite Hc. intros H. apply Forall_inv in H. destruct H as [_ H]. now rewrite Ll in H.
    + rewrite Hc. refine (conj _ (conj eq_refl Hwf)).
      intros H. apply Forall_inv in H. destruct H as [[v Hv] _]. congruence.
Qed.

Lemma sessions_ok : forall ns s, wf s -> Forall (resolvable (s_vrfs s)) ns ->
  exists s', configure_sessions s ns = Ok s' /\ s_rid s' = s_rid s /\ s_vrfs s' = s_vrfs s /\ wf s' /\
             forall k, lookup k (s_peers s') = overlay (wanted (s_rid s) (s_vrfs s) ns k) (lookup k (s_peers s)).
Proof.
  intros ns s Hwf Hall. pose proof (sessions_cases ns s Hwf) as H.
  destruct (configure_sessions s ns) as [s'|s'|]; [|tauto|tauto].
  exists s'. split; [reflexivity|apply H].
Qed.

Lemma exists_iff_wanted : forall rid vs ns k,
  peer_exists_in_config vs ns k = is_some (wanted rid vs ns k).
Proof.
  intros rid vs ns k; induction ns as [|n r IH]; cbn [peer_exists_in_config existsb wanted is_some]; auto.
  unfold peer_exists_in_config in IH. rewrite IH.
  destruct (wanted rid vs r k) as [p|]; cbn [is_some].
  - apply orb_true_r.
  - rewrite orb_false_r.
    destruct (determine_vrf vs n) as [v|]; [|reflexivity].
    unfold key_eqb; cbn [fst snd]. rewrite (eqb_sym_of vrf_eqb_eq (fst k) v), andb_comm.
    destruct (vrf_eqb v (fst k) && addr_eqb (ln_addr n) (snd k)); reflexivity.
Qed.

Lemma configure_cases : forall ns s, wf s ->
  match configure s ns with
  | Ok s' => Forall (resolvable (s_vrfs s)) ns /\ s_rid s' = s_rid s /\ s_vrfs s' = s_vrfs s /\ wf s' /\
             forall k, lookup k (s_peers s') = wanted (s_rid s) (s_vrfs s) ns k
  | Err s' => ~ Forall (resolvable (s_vrfs s)) ns /\ s_rid s' = s_rid s /\ wf s'
  | Panicked => ~ Forall (resolvable (s_vrfs s)) ns
  end.
Proof.
  intros ns s Hwf. unfold configure. pose proof (sessions_cases ns s Hwf) as H.
  destruct (configure_sessions s ns) as [s1|s1|]; auto.
  destruct H as [HF [Hrid [Hvs [Hwf1 Hlk]]]]. unfold deconfigure_removed.
  refine (conj HF (conj Hrid (conj Hvs (conj (wf_filter s1 _ Hwf1) _)))).
  intros k. cbn [with_peers s_peers].
  rewrite (KeyedTable.get_filter_key key_eqb_eq (peer_exists_in_config (s_vrfs s1) ns) k (s_peers s1) : lookup k _ = _),
    (exists_iff_wanted (s_rid s)), Hvs, Hlk.
  destruct (wanted (s_rid s) (s_vrfs s) ns k); reflexivity.
Qed.

Definition set_ri (vs : list (positive * N)) (ri : positive * N) := set_vrf vs (fst ri) (snd ri).

Lemma fold_ri : forall ris s,
  fold_left configure_ri ris s =
  {| s_rid := s_rid s; s_vrfs := fold_left set_ri ris (s_vrfs s); s_peers := s_peers s |}.
Proof.
  induction ris as [|ri r IH]; intros s; cbn [fold_left].
  - destruct s; reflexivity.
  - rewrite IH. reflexivity.
Qed.

Lemma vrf_by_name_set : forall vs n rd m,
  vrf_by_name (set_vrf vs n rd) m = if Pos.eqb n m then Some (VNamed n rd) else vrf_by_name vs m.
Proof.
  induction vs as [|[x r] t IH]; intros n rd m; cbn [set_vrf vrf_by_name].
  - reflexivity.
  - destruct (Pos.eqb x n) eqn:E1; cbn [vrf_by_name].
    + apply Pos.eqb_eq in E1; subst x. destruct (Pos.eqb n m); reflexivity.
    + destruct (Pos.eqb x m) eqn:E2.
      * apply Pos.eqb_eq in E2; subst x. rewrite Pos.eqb_sym in E1. rewrite E1. reflexivity.
      * apply IH.
Qed.

(* the registry of a running daemon resolves every name the registry of a fresh daemon
   resolves after the same routing instances were configured, and to the same VRF *)
Definition resolves_like (fresh_vs vs : list (positive * N)) : Prop :=
  forall m v, vrf_by_name fresh_vs m = Some v -> vrf_by_name vs m = Some v.

Lemma resolves_like_fold : forall ris a b, resolves_like a b ->
  resolves_like (fold_left set_ri ris a) (fold_left set_ri ris b).
Proof.
  intros ris. apply fold_left_sim. intros a b [n rd] _ H m v.
  unfold set_ri; cbn [fst snd]. rewrite !vrf_by_name_set. destruct (Pos.eqb n m); auto.
Qed.

Lemma resolves_like_nil : forall vs, resolves_like [] vs.
Proof. intros vs m v H; discriminate. Qed.

Lemma wanted_like : forall rid a b ns, resolves_like a b -> Forall (resolvable a) ns ->
  Forall (resolvable b) ns /\ forall k, wanted rid a ns k = wanted rid b ns k.
Proof.
  intros rid a b ns Hl H; induction H as [|n r [[v Dv] Hloc] _ [IH1 IH2]]; [now split|].
  assert (Dv' : determine_vrf b n = Some v) by (unfold determine_vrf in *; destruct (ln_ri n); auto).
  split; [constructor; [split; eauto|assumption]|].
  intros k; cbn [wanted]. now rewrite IH2, Dv, Dv'.
Qed.

Lemma reload_cases : forall s c, wf s ->
  match load c with
  | None => reload s c = LoadErr s
  | Some l =>
    let vs := fold_left set_ri (l_ris l) (s_vrfs s) in
    match reload s c with
    | Applied s' => Forall (resolvable vs) (l_nbrs l) /\ s_rid s' = s_rid s /\ s_vrfs s' = vs /\ wf s' /\
                    forall k, lookup k (s_peers s') = wanted (s_rid s) vs (l_nbrs l) k
    | ApplyErr s' => ~ Forall (resolvable vs) (l_nbrs l) /\ s_rid s' = s_rid s /\ wf s'
    | LoadErr _ => False
    | Crashed => ~ Forall (resolvable vs) (l_nbrs l)
    end
  end.
Proof.
  intros s c Hwf. unfold reload. destruct (load c) as [l|]; [|reflexivity]. cbn zeta.
  rewrite fold_ri. set (s0 := {| s_rid := s_rid s; s_vrfs := _; s_peers := s_peers s |}).
  pose proof (configure_cases (l_nbrs l) s0 Hwf) as H. destruct (configure s0 (l_nbrs l)); tauto.
Qed.

Lemma reload_wf : forall s c s', wf s -> state_of (reload s c) = Some s' -> wf s' /\ s_rid s' = s_rid s.
Proof.
  intros s c s' Hwf Hs. pose proof (reload_cases s c Hwf) as H. destruct (load c) as [l|].
  - cbn zeta in H. destruct (reload s c); inversion Hs; subst; tauto.
  - rewrite H in Hs. inversion Hs; subst; auto.
Qed.

Lemma reload_forgets : forall a b c f, wf a -> wf b -> s_rid b = s_rid a ->
  resolves_like (s_vrfs a) (s_vrfs b) -> reload a c = Applied f ->
  exists s', reload b c = Applied s' /\ same_sessions s' f.
Proof.
  intros a b c f Ha Hb Hrid Hl Hf.
  pose proof (reload_cases a c Ha) as Hac. pose proof (reload_cases b c Hb) as Hbc.
  destruct (load c) as [l|]; [|congruence]. cbn zeta in Hac, Hbc.
  rewrite Hf in Hac. destruct Hac as [Hres [_ [_ [_ Hlka]]]].
  destruct (wanted_like (s_rid a) _ _ _ (resolves_like_fold (l_ris l) _ _ Hl) Hres) as [Hresb Hsame].
  destruct (reload b c) as [s'| | |]; try tauto.
  exists s'. split; [reflexivity|]. destruct Hbc as [_ [_ [_ [_ Hlkb]]]].
  intros k. now rewrite Hlkb, Hlka, Hrid, Hsame.
Qed.

Lemma reloads_wf : forall cs s s', wf s -> reloads s cs = Some s' -> wf s' /\ s_rid s' = s_rid s.
Proof.
  induction cs as [|c r IH]; intros s s' Hwf H; cbn [reloads] in H.
  - inversion H; subst; auto.
  - destruct (state_of (reload s c)) as [s1|] eqn:E; [|discriminate].
    destruct (reload_wf _ _ _ Hwf E) as [Hwf1 Hrid1].
    destruct (IH _ _ Hwf1 H) as [A B]. split; auto; congruence.
Qed.

Lemma run_wf : forall c cs s, run c cs = Some s -> wf s /\ s_rid s = c_rid c.
Proof.
  intros c cs s H. apply (reloads_wf (c :: cs) (init (c_rid c))); [apply wf_init|].
  unfold run, start in H. destruct (load c); [exact H|discriminate].
Qed.

Lemma fresh_reload : forall c o, fresh c = Some o -> reload (init (c_rid c)) c = o.
Proof. intros c o H. unfold fresh, start in H. destruct (load c); now inversion H. Qed.

(* the running daemon against a fresh one: the empty registry resolves nothing *)
Theorem reload_converges : forall c1 cs c s f,
  run c1 cs = Some s -> c_rid c = c_rid c1 -> fresh c = Some (Applied f) ->
  exists s', reload s c = Applied s' /\ same_sessions s' f.
Proof.
  intros c1 cs c s f Hrun Hrid Hf. destruct (run_wf _ _ _ Hrun) as [Hwf Hr].
  refine (reload_forgets _ s c f (wf_init _) Hwf _ (resolves_like_nil _) (fresh_reload _ _ Hf)).
  cbn [init s_rid]. congruence.
Qed.

(* a reload never fails where a fresh start works (and never panics there) *)
Theorem reload_succeeds : forall c1 cs c s f,
  run c1 cs = Some s -> c_rid c = c_rid c1 -> fresh c = Some (Applied f) ->
  exists s', reload s c = Applied s'.
Proof.
  intros. destruct (reload_converges _ _ _ _ _ H H0 H1) as [s' [A _]]. exists s'; exact A.
Qed.
