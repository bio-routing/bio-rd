(* C01: simulation between two instances of the parametric trie model (Model/Trie.v).
   If a map f from prefixes X to prefixes Y commutes with the prefix-arithmetic interface on the
   "ok" prefixes (and the supernet of two ok prefixes, where the trie asks for it, is ok), then f,
   applied to every node, commutes with every trie and table operation: the trie over X run on ok
   prefixes is simulated step by step by the trie over Y run on their images. *)
From Coq Require Import List Bool Arith.
From BioVerif Require Import Lib.ListFacts Model.Trie.

Section TrieSim.
  Variables X Y P : Type.
  Variable peq : P -> P -> bool.
  Variables (eqX contX : X -> X -> bool) (supX : X -> X -> X) (bitX : X -> nat -> bool) (lenX : X -> nat).
  Variables (eqY contY : Y -> Y -> bool) (supY : Y -> Y -> Y) (bitY : Y -> nat -> bool) (lenY : Y -> nat).
  Variable f : X -> Y.
  Variable ok : X -> Prop.

  Hypothesis Heq : forall p x, ok p -> ok x -> eqX p x = eqY (f p) (f x).
  Hypothesis Hcont : forall p x, ok p -> ok x -> contX p x = contY (f p) (f x).
  Hypothesis Hlen : forall p, ok p -> lenX p = lenY (f p).
  (* the only positions the trie reads are "length of an ok prefix, plus one" *)
  Hypothesis Hbit : forall p c, ok p -> ok c -> bitX p (lenX c + 1) = bitY (f p) (lenX c + 1).
  (* the supernet is asked for exactly in this situation (trie.go: addPath -> newSuperNode) *)
  Hypothesis Hsup : forall p c, ok p -> ok c ->
    eqX c p = false -> contX c p = false -> contX p c = false ->
    ok (supX p c) /\ f (supX p c) = supY (f p) (f c).

  Fixpoint mapn (n : node X P) : node Y P :=
    match n with
    | Nil => Nil
    | Node cp d ps l h => Node (f cp) d ps (mapn l) (mapn h)
    end.

  Fixpoint okn (n : node X P) : Prop :=
    match n with
    | Nil => True
    | Node cp _ _ l h => ok cp /\ okn l /\ okn h
    end.

  Definition fr (r : route X P) : route Y P := (f (fst r), snd r).

  Local Notation addX := (addPath X P eqX contX supX bitX lenX).
  Local Notation addY := (addPath Y P eqY contY supY bitY lenY).
  Local Notation remX := (removePath X P peq eqX bitX lenX).
  Local Notation remY := (removePath Y P peq eqY bitY lenY).
  Local Notation getX := (get X P eqX bitX lenX).
  Local Notation getY := (get Y P eqY bitY lenY).
  Local Notation subX := (substPath X P peq eqX bitX lenX).
  Local Notation subY := (substPath Y P peq eqY bitY lenY).
  Local Notation lpmX := (lpm X P eqX contX).
  Local Notation lpmY := (lpm Y P eqY contY).
  Local Notation glnX := (getLongerNode X P eqX contX bitX lenX).
  Local Notation glnY := (getLongerNode Y P eqY contY bitY lenY).

  Lemma addPath_sim : forall n p a, okn n -> ok p ->
    addY (mapn n) (f p) a = (mapn (fst (addX n p a)), snd (addX n p a)) /\ okn (fst (addX n p a)).
  Proof.
    induction n as [|cp d ps l IHl h IHh]; intros p a Hn Hp.
    - simpl. auto.
    - destruct Hn as (Hcp & Hl & Hh). cbn [addPath mapn].
      rewrite <- (Heq cp p), <- (Hcont cp p), <- (Hcont p cp), <- (Hlen cp), <- (Hbit p cp) by auto.
      destruct (eqX cp p) eqn:E1.
      + simpl. auto.
      + destruct (contX cp p) eqn:E2; cbn [negb].
        * destruct (bitX p (lenX cp + 1)); cbn [negb].
          -- destruct (IHh p a Hh Hp) as (A & C). rewrite A.
             destruct (addX h p a) as [h' nw]. simpl. auto.
          -- destruct (IHl p a Hl Hp) as (A & C). rewrite A.
             destruct (addX l p a) as [l' nw]. simpl. auto.
        * destruct (contX p cp) eqn:E3; cbn [fst snd].
          -- unfold insertBefore. rewrite <- (Hlen p), <- (Hbit cp p) by auto.
             destruct (bitX cp (lenX p + 1)); simpl; auto 10.
          -- unfold newSuperNode.
             destruct (Hsup p cp Hp Hcp E1 E2 E3) as (Hs & Fs).
             rewrite <- Fs, <- (Hlen (supX p cp)), <- (Hbit cp (supX p cp)), <- (Hbit p (supX p cp)) by auto.
             destruct (bitX cp (lenX (supX p cp) + 1)), (bitX p (lenX (supX p cp) + 1)); simpl; auto 10.
  Qed.

  Lemma removePath_sim : forall n p a, okn n -> ok p ->
    remY (mapn n) (f p) a = (mapn (fst (remX n p a)), snd (remX n p a)) /\ okn (fst (remX n p a)).
  Proof.
    induction n as [|cp d ps l IHl h IHh]; intros p a Hn Hp.
    - simpl. auto.
    - destruct Hn as (Hcp & Hl & Hh). cbn [removePath mapn].
      rewrite <- (Heq cp p), <- (Hlen cp), <- (Hbit p cp) by auto.
      destruct (eqX cp p) eqn:E1.
      + destruct d; simpl; auto.
      + destruct (bitX p (lenX cp + 1)); cbn [negb].
        * destruct (IHh p a Hh Hp) as (A & C). rewrite A.
          destruct (remX h p a) as [h' fn]. simpl. auto.
        * destruct (IHl p a Hl Hp) as (A & C). rewrite A.
          destruct (remX l p a) as [l' fn]. simpl. auto.
  Qed.

  Lemma get_sim : forall n q, okn n -> ok q ->
    option_map fr (getX n q) = getY (mapn n) (f q).
  Proof.
    induction n as [|cp d ps l IHl h IHh]; intros q Hn Hq; [reflexivity|].
    destruct Hn as (Hcp & Hl & Hh). cbn [get mapn].
    rewrite <- (Heq cp q), <- (Hlen cp), <- (Hlen q), <- (Hbit q cp) by auto.
    destruct (eqX cp q).
    - destruct d; reflexivity.
    - destruct (lenX q <? lenX cp); [reflexivity|].
      destruct (bitX q (lenX cp + 1)); cbn [negb]; auto.
  Qed.

  Lemma substPath_sim : forall n q o nw, okn n -> ok q ->
    mapn (subX n q o nw) = subY (mapn n) (f q) o nw /\ okn (subX n q o nw).
  Proof.
    induction n as [|cp d ps l IHl h IHh]; intros q o nw Hn Hq; [simpl; auto|].
    destruct Hn as (Hcp & Hl & Hh). cbn [substPath mapn].
    rewrite <- (Heq cp q), <- (Hlen cp), <- (Hlen q), <- (Hbit q cp) by auto.
    destruct (eqX cp q).
    - destruct d; simpl; auto.
    - destruct (lenX q <? lenX cp); [simpl; auto|].
      destruct (bitX q (lenX cp + 1)); cbn [negb].
      + destruct (IHh q o nw Hh Hq) as (A & B). simpl. rewrite A. auto.
      + destruct (IHl q o nw Hl Hq) as (A & B). simpl. rewrite A. auto.
  Qed.

  Lemma lpm_sim : forall n q, okn n -> ok q -> map fr (lpmX n q) = lpmY (mapn n) (f q).
  Proof.
    induction n as [|cp d ps l IHl h IHh]; intros q Hn Hq; [reflexivity|].
    destruct Hn as (Hcp & Hl & Hh). cbn [lpm mapn].
    rewrite <- (Heq cp q), <- (Hcont cp q) by auto.
    destruct (eqX cp q && negb d); [reflexivity|].
    destruct (contX cp q); cbn [negb]; [|reflexivity].
    rewrite !map_app, IHl, IHh by auto. destruct d; reflexivity.
  Qed.

  Lemma dump_sim : forall n, map fr (dump X P n) = dump Y P (mapn n).
  Proof.
    induction n as [|cp d ps l IHl h IHh]; [reflexivity|].
    cbn [dump mapn]. rewrite !map_app, IHl, IHh. destruct d; reflexivity.
  Qed.

  Lemma okn_sub : forall n q, okn n -> okn (glnX n q).
  Proof.
    induction n as [|cp d ps l IHl h IHh]; intros q Hn; [exact I|].
    pose proof Hn as (Hcp & Hl & Hh). cbn [getLongerNode].
    destruct (eqX cp q || contX q cp); auto.
    destruct (contX cp q); cbn [negb]; [|exact I].
    destruct (bitX q (lenX cp + 1)); cbn [negb]; auto.
  Qed.

  Lemma getLongerNode_sim : forall n q, okn n -> ok q ->
    mapn (glnX n q) = glnY (mapn n) (f q).
  Proof.
    induction n as [|cp d ps l IHl h IHh]; intros q Hn Hq; [reflexivity|].
    destruct Hn as (Hcp & Hl & Hh). cbn [getLongerNode mapn].
    rewrite <- (Heq cp q), <- (Hcont cp q), <- (Hcont q cp), <- (Hlen cp), <- (Hbit q cp) by auto.
    destruct (eqX cp q || contX q cp); [reflexivity|].
    destruct (contX cp q); cbn [negb]; [|reflexivity].
    destruct (bitX q (lenX cp + 1)); cbn [negb]; auto.
  Qed.

  Definition mapt (t : table X P) : table Y P := mkT Y P (mapn (root X P t)) (count X P t).
  Definition okt (t : table X P) : Prop := okn (root X P t).

  Local Notation taddX := (t_addPath X P eqX contX supX bitX lenX).
  Local Notation taddY := (t_addPath Y P eqY contY supY bitY lenY).
  Local Notation tremX := (t_removePath X P peq eqX bitX lenX).
  Local Notation tremY := (t_removePath Y P peq eqY bitY lenY).
  Local Notation tremsX := (t_removePaths X P peq eqX bitX lenX).
  Local Notation tremsY := (t_removePaths Y P peq eqY bitY lenY).
  Local Notation stepX := (step X P peq eqX contX supX bitX lenX).
  Local Notation stepY := (step Y P peq eqY contY supY bitY lenY).

  Lemma t_addPath_sim : forall t p a, okt t -> ok p ->
    mapt (taddX t p a) = taddY (mapt t) (f p) a /\ okt (taddX t p a).
  Proof.
    intros t p a Ht Hp. unfold t_addPath, mapt, okt in *. cbn [root count].
    destruct (addPath_sim (root X P t) p a Ht Hp) as (A & C). rewrite A.
    destruct (addX (root X P t) p a) as [r nw]. auto.
  Qed.

  Lemma t_removePath_sim : forall t p a, okt t -> ok p ->
    mapt (tremX t p a) = tremY (mapt t) (f p) a /\ okt (tremX t p a).
  Proof.
    intros t p a Ht Hp. unfold t_removePath, mapt, okt in *. cbn [root count].
    destruct (removePath_sim (root X P t) p a Ht Hp) as (A & C). rewrite A.
    destruct (remX (root X P t) p a) as [r fn]. auto.
  Qed.

  Lemma t_removePaths_sim : forall ps t p, okt t -> ok p ->
    mapt (tremsX t p ps) = tremsY (mapt t) (f p) ps /\ okt (tremsX t p ps).
  Proof.
    intros ps t p Ht Hp. unfold t_removePaths.
    apply (fold_left_sim _ _ (fun a b => mapt a = b /\ okt a)); [|auto].
    intros u v a _ (<- & Hu). apply t_removePath_sim; auto.
  Qed.

  Lemma t_get_sim : forall t q, okt t -> ok q ->
    option_map fr (t_get X P eqX bitX lenX t q) = t_get Y P eqY bitY lenY (mapt t) (f q).
  Proof. intros t q Ht Hq. unfold t_get, mapt. cbn [root]. apply get_sim; auto. Qed.

  Definition okop (o : op X P) : Prop :=
    match o with
    | Add _ _ p _ | Remove _ _ p _ | Replace _ _ p _ | RemovePfx _ _ p | Subst _ _ p _ _ => ok p
    end.

  Definition mapop (o : op X P) : op Y P :=
    match o with
    | Add _ _ p a => Add Y P (f p) a
    | Remove _ _ p a => Remove Y P (f p) a
    | Replace _ _ p a => Replace Y P (f p) a
    | RemovePfx _ _ p => RemovePfx Y P (f p)
    | Subst _ _ p o n => Subst Y P (f p) o n
    end.

  Lemma step_sim : forall t o, okt t -> okop o ->
    mapt (stepX t o) = stepY (mapt t) (mapop o) /\ okt (stepX t o).
  Proof.
    intros t [p a|p a|p a|p|p o nw] Ht Ho; cbn [step mapop okop] in *.
    - apply t_addPath_sim; auto.
    - apply t_removePath_sim; auto.
    - unfold t_replacePath. rewrite <- (t_get_sim t p Ht Ho).
      destruct (t_get X P eqX bitX lenX t p) as [r|]; cbn [option_map].
      + cbn [fr snd]. destruct (t_removePaths_sim (snd r) t p Ht Ho) as (A & B).
        rewrite <- A. apply t_addPath_sim; auto.
      + apply t_addPath_sim; auto.
    - unfold t_removePfx. rewrite <- (t_get_sim t p Ht Ho).
      destruct (t_get X P eqX bitX lenX t p) as [r|]; cbn [option_map]; auto.
      cbn [fr snd]. apply t_removePaths_sim; auto.
    - unfold t_substPath, mapt, okt in *. cbn [root count].
      destruct (substPath_sim (root X P t) p o nw Ht Ho) as (A & B). rewrite A. auto.
  Qed.

  Theorem run_sim : forall ops, Forall okop ops ->
    mapt (run X P peq eqX contX supX bitX lenX ops) =
      run Y P peq eqY contY supY bitY lenY (map mapop ops) /\
    okt (run X P peq eqX contX supX bitX lenX ops).
  Proof.
    intros ops Ho. unfold run. rewrite fold_left_map.
    apply (fold_left_sim _ _ (fun a b => mapt a = b /\ okt a)); [|split; [reflexivity|exact I]].
    intros u v o Hin (<- & Hu). apply step_sim; [exact Hu | exact (proj1 (Forall_forall _ _) Ho o Hin)].
  Qed.

  Theorem observations_sim : forall t q, okt t -> ok q ->
    option_map fr (t_get X P eqX bitX lenX t q) = t_get Y P eqY bitY lenY (mapt t) (f q) /\
    map fr (t_lpm X P eqX contX t q) = t_lpm Y P eqY contY (mapt t) (f q) /\
    map fr (t_getLonger X P eqX contX bitX lenX t q) =
      t_getLonger Y P eqY contY bitY lenY (mapt t) (f q) /\
    map fr (t_dump X P t) = t_dump Y P (mapt t) /\
    count X P t = count Y P (mapt t).
  Proof.
    intros t q Ht Hq. split; [apply t_get_sim; auto|]. split; [|split; [|split]].
    - unfold t_lpm, mapt. cbn [root]. apply lpm_sim; auto.
    - unfold t_getLonger, mapt. cbn [root]. rewrite dump_sim. f_equal. apply getLongerNode_sim; auto.
    - unfold t_dump, mapt. cbn [root]. apply dump_sim.
    - reflexivity.
  Qed.
End TrieSim.
