(* C14: the word-level matchers of Model.Policy (masks, uint8 arithmetic, on N) are the
   functions of C15's model of package net (Model/NetArith.v, on Z) for ALL words and lengths, both
   sides wrapping in the same way; the address bits of Spec.PolicyRef are those of Spec.NetSpec;
   hence, by C15's Contains_correct and Equal_correct, the word-level matchers agree with the
   bit-level matchers of Spec.PolicyRef on well-formed prefixes.  No generated function is
   mentioned here (Proofs/PolicyNetLink.v). *)
From Coq Require Import List NArith ZArith Bool Lia.
From BioVerif Require Import Lib.ListFacts Lib.Word Lib.WordLemmas Model.NetArith Spec.NetSpec Proofs.NetBits Proofs.NetProofs.
From BioVerif Require Import Model.Policy Model.PolicyNet Spec.PolicyRef.
Local Open Scope N_scope.

Lemma n2z_eqb a b : (Z.of_N a =? Z.of_N b)%Z = (a =? b)%N.
Proof. destruct a, b; reflexivity. Qed.

Lemma n2z_leb a b : (Z.of_N a <=? Z.of_N b)%Z = (a <=? b)%N.
Proof. destruct a, b; reflexivity. Qed.

Lemma n2z_land a b : Z.of_N (N.land a b) = Z.land (Z.of_N a) (Z.of_N b).
Proof. destruct a, b; reflexivity. Qed.

Lemma n2z_u8sub a b : Z.of_N (u8sub a b) = wsub 8 (Z.of_N a) (Z.of_N b).
Proof.
  unfold u8sub, wsub. rewrite wrap_mod by lia. change (2 ^ 8)%Z with 256%Z.
  zify. Z.to_euclidean_division_equations. lia.
Qed.

(* MaxUintW << s on uintW *)
Lemma n2z_shl w s :
  Z.of_N (N.shiftl (N.ones w) s mod 2 ^ w) = wshl (Z.of_N w) (maxu (Z.of_N w)) (Z.of_N s).
Proof.
  rewrite wshl_spec by apply N2Z.is_nonneg.
  rewrite N.shiftl_mul_pow2, N.ones_equiv, N2Z.inj_mod, N2Z.inj_mul, N2Z.inj_pred, !N2Z.inj_pow.
  - reflexivity.
  - apply N.neq_0_lt_0, N.pow_nonzero. discriminate.
Qed.

Lemma n2z_to_u32 a : Z.of_N (to_u32 a) = ToUint32 (to_net_ip a).
Proof. rewrite ToUint32_spec. apply N2Z.inj_mod. Qed.

Lemma pfx_equal_net p x : Policy.pfx_equal p x = NetArith.pfx_equal (to_net_pfx p) (to_net_pfx x).
Proof.
  unfold Policy.pfx_equal, NetArith.pfx_equal, ip_eqb, ip_equal, to_net_pfx, to_net_ip.
  cbn [NetArith.addr NetArith.plen NetArith.hi NetArith.lo NetArith.legacy].
  rewrite !n2z_eqb.
  destruct (Bool.eqb (ip_v4 (pf_addr p)) (ip_v4 (pf_addr x))),
           (ip_hi (pf_addr p) =? ip_hi (pf_addr x))%N, (ip_lo (pf_addr p) =? ip_lo (pf_addr x))%N; reflexivity.
Qed.

Lemma contains4_net p x : contains4 p x = containsIPv4 (to_net_pfx p) (to_net_pfx x).
Proof.
  unfold contains4, containsIPv4. cbn [to_net_pfx NetArith.addr NetArith.plen]. unfold wand.
  rewrite <- !n2z_to_u32, <- (n2z_u8sub 32), <- (n2z_shl 32), <- !n2z_land, n2z_eqb. reflexivity.
Qed.

Lemma contains6_net p x : contains6 p x = containsIPv6 (to_net_pfx p) (to_net_pfx x).
Proof.
  unfold contains6, containsIPv6. cbn [to_net_pfx to_net_ip NetArith.addr NetArith.plen NetArith.hi NetArith.lo].
  rewrite (n2z_leb _ 64).
  destruct (pf_len p <=? 64)%N; unfold wand.
  - rewrite <- (n2z_u8sub 64), <- (n2z_shl 64), <- !n2z_land, n2z_eqb.
    change 0%Z with (Z.of_N 0). rewrite <- !n2z_land, n2z_eqb. reflexivity.
  - rewrite <- (n2z_u8sub 128), <- (n2z_shl 64).
    change (maxu 64) with (Z.of_N max64).
    rewrite <- !n2z_land, !n2z_eqb. reflexivity.
Qed.

Lemma pfx_contains_net p x : Policy.pfx_contains p x = NetArith.Contains (to_net_pfx p) (to_net_pfx x).
Proof.
  unfold Policy.pfx_contains, NetArith.Contains.
  rewrite <- contains4_net, <- contains6_net.
  cbn [to_net_pfx to_net_ip NetArith.addr NetArith.plen NetArith.legacy]. rewrite n2z_leb. reflexivity.
Qed.

Lemma upto_spec n k : In k (upto n) <-> k < n.
Proof.
  unfold upto. rewrite in_map_iff. split.
  - intros [x [Hx Hin]]. apply in_seq in Hin. lia.
  - intros H. exists (N.to_nat k). split. { apply N2Nat.id. } apply in_seq. lia.
Qed.

Lemma agree_spec n a b :
  agree n a b = true <-> ip_v4 a = ip_v4 b /\ forall k, k < n -> bit a k = bit b k.
Proof.
  unfold agree. rewrite andb_true_iff, forallb_forall, eqb_true_iff.
  split; intros [H1 H2]; split; auto; intros k Hk.
  - apply eqb_prop. apply H2. apply upto_spec. exact Hk.
  - apply upto_spec in Hk. rewrite (H2 k Hk). apply eqb_reflx.
Qed.

Lemma canonical_spec p :
  canonical p = true <->
  forall k, k < width (pf_addr p) -> pf_len p <= k -> bit (pf_addr p) k = false.
Proof.
  unfold canonical. rewrite forallb_forall. split; intros H k Hk.
  - intros Hl. apply upto_spec, H in Hk. apply N.ltb_ge in Hl. rewrite Hl in Hk.
    apply negb_true_iff. exact Hk.
  - apply upto_spec in Hk. destruct (N.ltb_spec k (pf_len p)) as [Hl | Hl]; [reflexivity |].
    rewrite (H k Hk Hl). reflexivity.
Qed.

Lemma prefix_wfb_parts p :
  prefix_wfb p = true ->
  ip_wfb (pf_addr p) = true /\ pf_len p <= width (pf_addr p) /\ canonical p = true.
Proof.
  unfold prefix_wfb. rewrite !andb_true_iff. intros [[H1 H2] H3]. apply N.leb_le in H2. auto.
Qed.

Lemma width_family a b : ip_v4 a = ip_v4 b -> width a = width b.
Proof. unfold width. intros ->. reflexivity. Qed.

Lemma width_net a : NetSpec.width (to_net_ip a) = Z.of_N (width a).
Proof. unfold NetSpec.width, width. cbn. destruct (ip_v4 a); reflexivity. Qed.

Lemma bit_nth a k : k < width a -> bit a k = nth (N.to_nat k) (ip_bits (to_net_ip a)) false.
Proof.
  intros Hk. rewrite nth_ip_bits by (rewrite length_ip_bits, width_net; lia).
  unfold bit, ipbit, width in *. cbn [to_net_ip legacy hi lo]. destruct (ip_v4 a).
  - rewrite (proj2 (N.ltb_lt k 32) Hk). cbn [andb]. rewrite <- Z.testbit_of_N. f_equal. lia.
  - destruct (N.ltb_spec k 64) as [E | E]; destruct (Nat.ltb_spec (N.to_nat k) 64) as [E' | E']; try lia.
    + rewrite <- Z.testbit_of_N. f_equal. lia.
    + rewrite (proj2 (N.ltb_lt k 128) Hk). cbn [andb]. rewrite <- Z.testbit_of_N. f_equal. lia.
Qed.

Lemma agree_firstn n a b : ip_v4 a = ip_v4 b -> n <= width a ->
  ((forall k, k < n -> bit a k = bit b k) <->
   firstn (N.to_nat n) (ip_bits (to_net_ip a)) = firstn (N.to_nat n) (ip_bits (to_net_ip b))).
Proof.
  intros Hf Hn. pose proof (width_family _ _ Hf) as Hw.
  rewrite (firstn_eq_pointwise false) by (rewrite length_ip_bits, width_net; lia). split.
  - intros H i Hi. rewrite <- (Nat2N.id i), <- !bit_nth by lia. apply H. lia.
  - intros H k Hk. rewrite !bit_nth by lia. apply H. lia.
Qed.

Lemma wf_to_net p : prefix_wfb p = true -> wf_pfx (to_net_pfx p).
Proof.
  intros W. destruct (prefix_wfb_parts p W) as [Wi [Wl _]]. split.
  - unfold ip_wfb in Wi. unfold wf_ip. cbn [to_net_pfx addr to_net_ip legacy hi lo].
    destruct (ip_v4 (pf_addr p)); apply andb_true_iff in Wi; destruct Wi as [H1 H2];
      rewrite ?N.eqb_eq, ?N.ltb_lt in *; unfold two32, two64 in *; lia.
  - cbn [to_net_pfx addr plen]. rewrite width_net. lia.
Qed.

Lemma contains_agree pat x :
  prefix_wfb pat = true -> prefix_wfb x = true ->
  pfx_contains pat x = agree (pf_len pat) (pf_addr pat) (pf_addr x) && (pf_len pat <? pf_len x).
Proof.
  intros Wp Wx. apply eq_iff_eq_true.
  rewrite pfx_contains_net, (Contains_correct _ _ (wf_to_net _ Wp) (wf_to_net _ Wx)).
  rewrite andb_true_iff, agree_spec, N.ltb_lt. unfold contains_spec, same_family, pbits, plen_nat.
  cbn [to_net_pfx addr plen to_net_ip legacy].
  replace (Z.to_nat (Z.of_N (pf_len pat))) with (N.to_nat (pf_len pat)) by lia. rewrite <- N2Z.inj_lt.
  split; [intros (Hf & Hl & H) | intros ((Hf & H) & Hl)]; repeat split; auto;
    apply (agree_firstn _ _ _ Hf (proj1 (proj2 (prefix_wfb_parts _ Wp)))); exact H.
Qed.

(* beyond the length the bits agree because neither prefix has host bits *)
Lemma equal_agree pat x :
  prefix_wfb pat = true -> prefix_wfb x = true ->
  pfx_equal pat x = agree (pf_len pat) (pf_addr pat) (pf_addr x) && (pf_len pat =? pf_len x).
Proof.
  intros Wp Wx. apply eq_iff_eq_true.
  rewrite pfx_equal_net, (Equal_correct _ _ (wf_to_net _ Wp) (wf_to_net _ Wx)).
  rewrite andb_true_iff, agree_spec, N.eqb_eq. unfold equal_spec, same_family, pbits.
  cbn [to_net_pfx addr plen to_net_ip legacy]. rewrite N2Z.inj_iff.
  destruct (prefix_wfb_parts _ Wp) as (_ & Lp & Cp). destruct (prefix_wfb_parts _ Wx) as (_ & Lx & Cx).
  split.
  - intros (Hf & Hl & H). repeat split; auto. apply (agree_firstn _ _ _ Hf Lp). rewrite H. reflexivity.
  - intros ((Hf & H) & Hl). repeat split; auto.
    pose proof (width_family _ _ Hf) as Hw.
    apply (nth_ext _ _ false false); rewrite !length_ip_bits, !width_net; [lia |].
    intros i Hi. rewrite <- (Nat2N.id i), <- !bit_nth by lia.
    destruct (N.lt_ge_cases (N.of_nat i) (pf_len pat)) as [E | E]; [apply H, E |].
    rewrite (proj1 (canonical_spec pat) Cp), (proj1 (canonical_spec x) Cx) by lia. reflexivity.
Qed.

Theorem matcher_ok m pat p :
  prefix_wfb pat = true -> prefix_wfb p = true -> matcher_match m pat p = m_ref m pat p.
Proof.
  intros Wp Wx. unfold matcher_match, matcher_match_w, m_ref.
  rewrite (equal_agree _ _ Wp Wx), (contains_agree _ _ Wp Wx).
  destruct (agree (pf_len pat) (pf_addr pat) (pf_addr p)); [| destruct m; reflexivity].
  assert (E : (pf_len pat =? pf_len p) || (pf_len pat <? pf_len p) = (pf_len pat <=? pf_len p)).
  { destruct (N.eqb_spec (pf_len pat) (pf_len p)), (N.ltb_spec (pf_len pat) (pf_len p)),
             (N.leb_spec (pf_len pat) (pf_len p)); try reflexivity; lia. }
  destruct m; simpl; rewrite ?E.
  - apply N.eqb_sym.
  - reflexivity.
  - apply andb_diag.
  - reflexivity.
Qed.
