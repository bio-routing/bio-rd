(* Proofs for C23 (and the framing lemma shared with C21): every step of the session model is a step
   of the abstract RFC 4271 machine of Spec/RFC4271FSM.v. Whether a transition (state before,
   actions, state after) is acceptable is decidable: [step_ok] computes it. The handlers of
   Model/FSM.v have finitely many exits; [step_checked] walks through them once, and everything else
   is read off [step_ok] ([step_facts], by field of [step_post]; [effect]: what a step does to
   the tables the sessions share). FSMErrProofs.v and OpenAdmission.v walk the OpenSent /
   decode-error exits again: they need the exact output list. *)
From Coq Require Import List NArith Bool.
Import ListNotations.
From BioVerif Require Import Model.FSM Spec.RFC4271FSM.
Local Open Scope N_scope.

Lemma recv_msg_no_panic : forall len avail, recv_msg len avail <> FrPanic.
Proof.
  intros len avail. unfold recv_msg, slice_in_range, MinLen, MaxLen.
  destruct ((len <? 19) || (4096 <? len)) eqn:G; [discriminate|].
  apply orb_false_elim in G. destruct G as [G1 G2].
  apply N.ltb_ge, N.leb_le in G1. apply N.ltb_ge, N.leb_le in G2.
  rewrite G1, G2. cbn [andb negb].
  destruct (avail <? len - 19); discriminate.
Qed.

Lemma frame_of_no_panic : forall m, frame_of m <> FrPanic.
Proof. intros [ | | | | | mk len typ avail | |]; cbn [frame_of]; try discriminate. apply recv_msg_no_panic. Qed.

Lemma step_replace_import : forall c s p,
  s_st s <> Ceased -> step c s (EReplaceImport p) = (set_imp s p, [ReplacedImport p]).
Proof. intros c s p H. unfold step. destruct (s_st s); try reflexivity. destruct H. reflexivity. Qed.

Definition inv (s : sess) : Prop :=
  (s_att s = true <-> s_st s = Established) /\
  (in_session (s_st s) = true -> exists b, s_conn s = ConnOpen b).

Lemma inv_init : forall c, inv (init_sess c).
Proof.
  intro c. unfold inv, init_sess. cbn. destruct (c_passive c); cbn; split; try (split; discriminate); discriminate.
Qed.

Lemma sname_eqb_eq : forall a b, sname_eqb a b = true <-> a = b.
Proof. intros [] []; cbn; split; congruence. Qed.

Definition invb (s : sess) : bool :=
  Bool.eqb (s_att s) (sname_eqb (s_st s) Established) && implb (in_session (s_st s)) match s_conn s with ConnOpen _ => true | _ => false end.

Lemma invb_inv : forall s, invb s = true <-> inv s.
Proof.
  intro s. unfold invb, inv. rewrite andb_true_iff, eqb_true_iff, <- (sname_eqb_eq (s_st s)).
  split; intros [A B]; split.
  - rewrite A. reflexivity.
  - intro Hin. rewrite Hin in B. destruct (s_conn s); try discriminate B. eexists; reflexivity.
  - destruct (s_att s), (sname_eqb (s_st s) Established); try reflexivity;
      [discriminate (proj1 A eq_refl) | exact (proj2 A eq_refl)].
  - destruct (in_session (s_st s)); [|reflexivity]. destruct (B eq_refl) as [b ->]. reflexivity.
Qed.

Definition is_closed (o : out) : bool := match o with Closed => true | _ => false end.
Definition is_action (o : out) : bool :=
  match o with Init | Uninit | ProcessedUpdate _ _ | ProcessedPoison _ _ _ | ReplacedImport _ => true | _ => false end.

(* What a step does to the tables the sessions share ([apply_outs]): at most one action, and one that
   fits the attachment flag before (first index) and after (last index) the step. *)
Inductive effect : bool -> list out -> bool -> Prop :=
| ef_none : forall att, effect att [] att
| ef_init : effect false [Init] true
| ef_uninit : effect true [Uninit] false
| ef_update : forall o, is_update o = true -> effect true [o] true
| ef_replace : forall att p, effect att [ReplacedImport p] att.

Definition action_fits (att : bool) (acts : list out) (att' : bool) : bool :=
  match acts with
  | [] | [ReplacedImport _] => Bool.eqb att' att
  | [Init] => negb att && att'
  | [Uninit] => att && negb att'
  | [ProcessedUpdate _ _] | [ProcessedPoison _ _ _] => att && att'
  | _ => false
  end.

Lemma action_fits_effect : forall att acts att', action_fits att acts att' = true -> effect att acts att'.
Proof.
  intros att acts att'. destruct acts as [|[] [|]]; cbn; try discriminate;
    destruct att, att'; cbn; try discriminate; intros _; constructor; reflexivity.
Qed.

Lemma effect_init : forall att acts att', effect att acts att' -> In Init acts -> att = false /\ acts = [Init].
Proof.
  intros att acts att' He HI. destruct He as [| | |o Ho|]; [destruct HI | split; reflexivity | | |];
    destruct HI as [HI|[]]; try discriminate HI. subst o. discriminate Ho.
Qed.

Lemma effect_uninit : forall acts, effect true acts false -> acts = [Uninit].
Proof. intros acts He. inversion He. reflexivity. Qed.

Definition is_open (e : ev) : bool :=
  match e with EMsg m => match decode m with DOpen _ => true | _ => false end | _ => false end.

Lemma is_open_inv : forall e, is_open e = true -> exists o, e = EMsg (MOpen o).
Proof.
  intros [ | | | | | | | |[ |o| | |c0 s0|mk len typ avail| | ]]; cbn; try discriminate; [eexists; reflexivity | |].
  - destruct (notification_valid c0 s0); discriminate.
  - destruct (decode_header mk len typ); [discriminate|].
    destruct (typ =? 4); [discriminate|]. destruct (typ =? 1); [discriminate|]. destruct (typ =? 3); discriminate.
Qed.

Definition step_ok (s : sess) (opn : bool) (os : list out) (s' : sess) : bool :=
  invb s' &&
  rfc_edge (s_st s) (s_st s') &&
  action_fits (s_att s) (filter is_action os) (s_att s') &&
  implb (in_session (s_st s) && is_down (s_st s'))
        (existsb is_closed os && match s_conn s' with ConnClosed => true | _ => false end) &&
  negb (existsb is_crash os) &&
  implb (negb (sname_eqb (s_st s) OpenConfirm) && sname_eqb (s_st s') OpenConfirm)
        (sname_eqb (s_st s) OpenSent && opn && wr_ok s).

(* [case], not [destruct]: on a test that is not a variable destruct costs several times as much *)
Ltac innermost x :=
  match x with
  | context [match ?y with _ => _ end] => innermost y
  | _ => case x; intros
  end.
Ltac break_match :=
  match goal with
  | |- context [match ?x with _ => _ end] => innermost x
  end.

(* unfold one step of the model down to the tests it makes *)
Ltac rdx :=
  cbv beta iota zeta delta
    [step is_open handle enter cl wr wr_ok listens uninit close_bump_idle decode_error_exit open_received
     set_st set_att set_conn set_neg set_retry set_upd set_imp bump hold_expired
     s_st s_att s_conn s_neg s_retry s_upd s_imp sname_eqb andb negb fst snd app].

Lemma step_checked : forall c s e, inv s -> let (s', os) := step c s e in step_ok s (is_open e) os s' = true.
Proof.
  intros c [st att cn ng rt up im] e Hs. apply invb_inv in Hs. unfold invb in Hs. cbn in Hs.
  apply andb_prop in Hs. destruct Hs as [Hatt Hconn]. apply eqb_prop in Hatt. subst att.
  destruct st; cbn in Hconn.
  (* OpenSent, OpenConfirm, Established: the connection is open *)
  4-6: destruct cn; try discriminate Hconn.
  all: clear Hconn; destruct e as [ | | | | | | | |m].
  (* framing first, while the goal is small: it does not panic; of the later tests nothing is remembered *)
  all: try (generalize (frame_of_no_panic m); cbv beta iota delta [step s_st]; case (frame_of m); intros F;
            [destruct (F eq_refl) | |]; clear F).
  all: rdx; repeat (break_match; rdx); reflexivity.
Qed.

Lemma inv_att : forall s, inv s -> s_att s = sname_eqb (s_st s) Established.
Proof. intros s Hs. apply invb_inv, andb_prop, proj1, eqb_prop in Hs. exact Hs. Qed.

Lemma inv_detached : forall s, inv s -> s_st s <> Established -> s_att s = false.
Proof. intros s [H _] Hn. destruct (s_att s); [destruct Hn; apply H; reflexivity | reflexivity]. Qed.

Lemma att_after_actions : forall os att, att_after att (filter is_action os) = att_after att os.
Proof. induction os as [|o os IH]; intro att; [reflexivity|]. destruct o; cbn; apply IH. Qed.

Lemma update_is_action : forall os, existsb is_update (filter is_action os) = existsb is_update os.
Proof. induction os as [|o os IH]; [reflexivity|]. destruct o; cbn; rewrite ?IH; reflexivity. Qed.

Lemma closed_in : forall os, existsb is_closed os = true -> In Closed os.
Proof. intros os H. apply existsb_exists in H. destruct H as [[] [Hin Hx]]; try discriminate. exact Hin. Qed.

Record step_post (s : sess) (e : ev) (os : list out) (s' : sess) : Prop := {
  sf_inv : inv s';
  sf_edge : rfc_edge (s_st s) (s_st s') = true;
  sf_effect : effect (s_att s) (filter is_action os) (s_att s');
  (* stronger than [sp_down_closes]: the connection ends as ConnClosed, not merely "not open" - in a
     session state it is open ([inv]), so [cl] closes it *)
  sf_down_closes : in_session (s_st s) = true -> is_down (s_st s') = true ->
                   In Closed os /\ s_conn s' = ConnClosed;
  sf_no_crash : existsb is_crash os = false;
  sf_confirm : s_st s <> OpenConfirm -> s_st s' = OpenConfirm ->
               s_st s = OpenSent /\ wr_ok s = true /\ exists o, e = EMsg (MOpen o)
}.

Lemma step_facts : forall c s e, inv s -> step_post s e (snd (step c s e)) (fst (step c s e)).
Proof.
  intros c s e Hs. pose proof (step_checked c s e Hs) as H. destruct (step c s e) as [s' os]. cbn [fst snd].
  unfold step_ok in H. rewrite !andb_true_iff in H. destruct H as [[[[[Hi He] Ha] Hd] Hc] Ho].
  constructor; [apply invb_inv, Hi | exact He | apply action_fits_effect, Ha | | apply negb_true_iff, Hc |].
  - intros Hin Hdown. rewrite Hin, Hdown in Hd. apply andb_prop in Hd. destruct Hd as [Hd1 Hd2].
    split; [apply closed_in; exact Hd1|]. destruct (s_conn s'); [discriminate | discriminate | reflexivity].
  - intros Hne Hst'. rewrite Hst' in Ho. destruct (s_st s); try discriminate Ho; [|destruct Hne; reflexivity].
    apply andb_prop in Ho. split; [reflexivity|]. split; [apply Ho | apply is_open_inv, Ho].
Qed.

Lemma step_refines : forall c s e,
  inv s ->
  inv (fst (step c s e)) /\ spec_step (abs s) (snd (step c s e)) (abs (fst (step c s e))).
Proof.
  intros c s e Hs. destruct (step_facts c s e Hs) as [Hs' He Ha Hd Hc _].
  split; [exact Hs'|]. destruct Hs as [Hatt _], Hs' as [Hatt' _].
  constructor; cbn [abs a_st a_att a_open].
  - exact He.
  - rewrite <- att_after_actions. destruct Ha as [| | |[]|]; try discriminate; reflexivity.
  - exact Hatt'.
  - rewrite <- update_is_action, <- Hatt, <- Hatt'. destruct Ha; try discriminate; auto.
  - intros Hin Hdown. destruct (Hd Hin Hdown) as [Hcl ->]. auto.
  - exact Hc.
Qed.

Lemma run_refines : forall c es s,
  inv s ->
  inv (fst (run c s es)) /\ spec_trace (abs s) (snd (run c s es)) (abs (fst (run c s es))).
Proof.
  intros c es. induction es as [|e es IH]; intros s Hs; cbn [run].
  - cbn. split; [assumption | constructor].
  - destruct (step_refines c s e Hs) as [Hi Hsp].
    destruct (step c s e) as [s1 o1] eqn:E. cbn [fst snd] in Hi, Hsp.
    destruct (IH s1 Hi) as [Hi2 Htr].
    destruct (run c s1 es) as [s2 os] eqn:R. cbn [fst snd] in *.
    split; [assumption | econstructor; eassumption].
Qed.

Lemma final_inv : forall c es, inv (final c es).
Proof. intros. exact (proj1 (run_refines c es _ (inv_init c))). Qed.

Theorem refines : forall c es,
  spec_trace (abs (init_sess c)) (snd (run c (init_sess c) es)) (abs (final c es)).
Proof. intros. exact (proj2 (run_refines c es _ (inv_init c))). Qed.

Lemma step_updates_established : forall c s e ann wd,
  inv s -> In (ProcessedUpdate ann wd) (snd (step c s e)) ->
  s_st s = Established /\ s_st (fst (step c s e)) = Established.
Proof.
  intros c s e ann wd Hs Hin.
  apply (sp_update_established _ _ _ (proj2 (step_refines c s e Hs))).
  apply existsb_exists. eexists. split; [exact Hin | reflexivity].
Qed.

Lemma step_no_crash : forall c s e, inv s -> ~ In Crash (snd (step c s e)).
Proof.
  intros c s e Hs Hin. pose proof (sf_no_crash _ _ _ _ (step_facts c s e Hs)) as Hn.
  apply not_true_iff_false in Hn. apply Hn, existsb_exists. eexists. split; [exact Hin | reflexivity].
Qed.

Lemma step_exit_uninits : forall c s e,
  inv s -> s_st s = Established -> s_st (fst (step c s e)) <> Established ->
  In Uninit (snd (step c s e)) /\ s_att (fst (step c s e)) = false.
Proof.
  intros c s e Hs Hst Hleft. destruct (step_facts c s e Hs) as [Hs' _ Ha _ _ _].
  pose proof (inv_detached _ Hs' Hleft) as Hd. rewrite Hd, (inv_att _ Hs), Hst in Ha.
  split; [|exact Hd]. refine (proj1 (proj1 (filter_In is_action _ _) _)). rewrite (effect_uninit _ Ha). left. reflexivity.
Qed.
