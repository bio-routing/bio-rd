(* C27: lemmas about the BMP wire layer model (Model/BMPCodec.v):
   framing (by the invariant grow_inv of the receive loop) never panics, never runs out of fuel, consumes at
   least a common header per message and allocates at most 4 * (bytes received) + 4096; the decoders (read
   line by line with the judgement `costs`) never panic / run out of fuel and allocate at most
   4 * (message length) + 1704 on a message whose length field is its length. *)
From Coq Require Import List NArith ZArith Bool Lia ZifyBool.
Import ListNotations.
From BioVerif Require Import Lib.ListFacts Model.BMPCodec.

Lemma len_nil : forall A : Type, len (@nil A) = 0.
Proof. reflexivity. Qed.

Lemma len_cons : forall (A : Type) (x : A) l, len (x :: l) = len l + 1.
Proof. intros. unfold len. cbn [length]. lia. Qed.

Lemma len_app : forall (A : Type) (a b : list A), len (a ++ b) = len a + len b.
Proof. intros. unfold len. rewrite app_length. lia. Qed.

Lemma len_takeN : forall (A : Type) (n : N) (l : list A), n <= len l -> len (takeN n l) = n.
Proof.
  intros A n l H. unfold len, takeN in *. rewrite firstn_length. lia.
Qed.

Lemma len_dropN : forall (A : Type) (n : N) (l : list A), len (dropN n l) = len l - n.
Proof.
  intros A n l. unfold len, dropN. rewrite skipn_length. lia.
Qed.

Lemma length_dropN : forall (A : Type) (n : N) (l : list A),
  n <= len l -> (length (dropN n l) + N.to_nat n = length l)%nat.
Proof.
  intros A n l H. unfold len, dropN in *. rewrite skipn_length. lia.
Qed.

Lemma dropN_dropN : forall (A : Type) (a b : N) (l : list A), dropN b (dropN a l) = dropN (a + b) l.
Proof.
  intros A a b l. unfold dropN. rewrite N2Nat.inj_add, Nat.add_comm. apply skipn_skipn.
Qed.

Lemma bind_ret : forall (A B : Type) (a : A) (f : A -> M B), bind (ret a) f = f a.
Proof. intros. unfold bind, ret. destruct (f a). reflexivity. Qed.

Lemma bind_assoc : forall (A B C : Type) (m : M A) (f : A -> M B) (g : B -> M C),
  bind (bind m f) g = bind m (fun a => bind (f a) g).
Proof.
  intros A B C [[a| | |] k] f g; cbn [bind]; try reflexivity.
  destruct (f a) as [[b| | |] k2]; cbn [bind]; try reflexivity.
  destruct (g b) as [r k3]. rewrite N.add_assoc. reflexivity.
Qed.

(* The judgement the decoders are analysed with. `costs G m c Q`: the run m neither panics nor runs
   out of fuel, a result it delivers satisfies Q, and - provided G - it allocates at most c. G stands
   for what is known of the input (bytes below 256, a length field that is the length): safety and Q
   hold of any input, the bound needs G. The rules follow the shape of a decoder, one per line of it;
   c is the allowance that is left. *)
Section Costs.
Variable G : Prop.

Definition costs {A : Type} (m : M A) (c : N) (Q : A -> Prop) : Prop :=
  (G -> snd m <= c) /\ match fst m with Ok a => Q a | Err => True | _ => False end.

Lemma costs_ret : forall (A : Type) (a : A) c (Q : A -> Prop), Q a -> costs (ret a) c Q.
Proof. intros A a c Q H. split; [cbn; lia|exact H]. Qed.

Lemma costs_fail : forall (A : Type) c (Q : A -> Prop), costs fail c Q.
Proof. intros. split; [cbn; lia|exact I]. Qed.

Lemma costs_weaken : forall (A : Type) (m : M A) c c' (Q Q' : A -> Prop),
  costs m c Q -> (G -> c <= c') -> (forall a, Q a -> Q' a) -> costs m c' Q'.
Proof.
  intros A m c c' Q Q' (Cm & Rm) Hc HQ. split.
  - intros g. specialize (Cm g). specialize (Hc g). lia.
  - destruct (fst m); auto.
Qed.

(* Where the allowance of costs_bind is fixed before the value, this is the rule for a cost read off the
   value, as that of a TLV off its length field; `alloc n` is such a step as well. *)
Lemma costs_paid : forall (A B : Type) (a : A) k (f : A -> M B) c (Q : B -> Prop),
  (G -> k <= c) -> costs (f a) (c - k) Q -> costs (bind (Ok a, k) f) c Q.
Proof.
  intros A B a k f c Q Hk (Cm & Rm). unfold costs, bind. destruct (f a) as [r k2]. cbn [fst snd] in *.
  split; [|exact Rm]. intros g. specialize (Hk g). specialize (Cm g). lia.
Qed.

Lemma costs_bind : forall (A B : Type) (m : M A) (f : A -> M B) c1 c (P : A -> Prop) (Q : B -> Prop),
  costs m c1 P -> (G -> c1 <= c) -> (forall a, P a -> costs (f a) (c - c1) Q) -> costs (bind m f) c Q.
Proof.
  intros A B [[a| | |] k] f c1 c P Q (Cm & Rm) Hc Hf; cbn [fst snd] in *; try contradiction.
  - apply costs_paid; [intros g; specialize (Cm g); specialize (Hc g); lia|].
    apply (costs_weaken _ _ _ _ _ _ (Hf a Rm)); [|auto]. intros g. specialize (Cm g). lia.
  - split; [|exact I]. intros g. specialize (Cm g). specialize (Hc g). cbn. lia.
Qed.

(* binary.Read of a fixed-size field *)
Lemma costs_rd : forall (B : Type) n buf (f : bytes * bytes -> M B) c (Q : B -> Prop),
  (len (takeN n buf) = n /\ len (dropN n buf) + n = len buf -> costs (f (takeN n buf, dropN n buf)) c Q) ->
  costs (bind (rd n buf) f) c Q.
Proof.
  intros B n buf f c Q H. unfold rd. destruct (len buf <? n) eqn:E.
  - apply costs_fail.
  - rewrite bind_ret. apply H. rewrite len_dropN, len_takeN; lia.
Qed.

(* make([]byte, n), then binary.Read into it: the scratch slice of the read is allocated whether or not
   the bytes are there *)
Lemma costs_make_read : forall (B : Type) n buf (f : bytes * bytes -> M B) c (Q : B -> Prop),
  (G -> 2 * n <= c) ->
  (len (takeN n buf) = n /\ len (dropN n buf) + n = len buf ->
   costs (f (takeN n buf, dropN n buf)) (c - n - n) Q) ->
  costs (bind (alloc n) (fun _ => bind (rd_slice n buf) f)) c Q.
Proof.
  intros B n buf f c Q Hn H. unfold rd_slice. rewrite bind_assoc.
  apply costs_paid; [|apply costs_paid; [|apply costs_rd, H]]; intros g; specialize (Hn g); lia.
Qed.

End Costs.

(* The buffer is doubled only when it is full: until it reaches the announced length l, what has been allocated
   is at most twice its size, and a full buffer has been received. *)
Definition grow_inv (l avail read buflen cost : N) : Prop :=
  read <= buflen /\ read <= avail /\ read <= l /\ 0 < buflen /\
  cost <= 4 * read + default_buffer_len /\ (cost <= 2 * buflen \/ l <= buflen).

Lemma grow_spec : forall fuel l avail read buflen cost,
  grow_inv l avail read buflen cost ->
  (N.to_nat (avail - read) < fuel)%nat ->
  match grow fuel l avail read buflen cost with
  | GDone c => l <= avail /\ c <= 4 * l + default_buffer_len
  | GEof c => avail < l /\ c <= 4 * avail + default_buffer_len
  | GPanic _ => False
  | GFuel => False
  end.
Proof.
  induction fuel as [|f IH]; intros l avail read buflen cost Inv Hf; [lia|].
  cbn [grow]. destruct (l <=? read) eqn:E1.
  - unfold grow_inv in Inv. destruct (buflen <? l) eqn:E2; lia.
  - unfold grow_inv, default_buffer_len in *.
    destruct (read =? buflen) eqn:E; cbv zeta;
      (destruct (_ <? read) eqn:E3; [lia|]); (destruct (avail <? _) eqn:E4; [lia|]); (apply IH; lia).
Qed.

(* what recvBMPMsg delivers: a message of at least a common header, whose length field is its
   length; the rest of the stream is shorter by that much; cost is linear in what was received *)
Lemma recv_spec : forall s,
  match recv s with
  | RMsg m rest c =>
      min_len <= len m /\ len m + len rest = len s /\ s = m ++ rest /\
      be (firstn 4 (skipn 1 m)) = len m /\ c <= 4 * len m + default_buffer_len
  | RFail c => c <= 4 * len s + default_buffer_len
  | RPanic _ => False
  | RFuel => False
  end.
Proof.
  intros s. unfold recv. destruct (len s <? min_len) eqn:E1.
  { unfold default_buffer_len. lia. }
  set (l := be (firstn 4 (skipn 1 s))).
  destruct (l <? min_len) eqn:E2.
  { unfold default_buffer_len. lia. }
  unfold min_len in *.
  pose proof (grow_spec (S (length s)) l (len s) 6 default_buffer_len default_buffer_len) as G.
  unfold grow_inv in G.
  specialize (G ltac:(unfold default_buffer_len; lia) ltac:(unfold len; lia)).
  destruct (grow (S (length s)) l (len s) 6 default_buffer_len default_buffer_len) as [c|c|c|];
    [|exact (proj2 G)|exact G|exact G].
  destruct G as (G1 & G2). rewrite len_takeN, len_dropN by exact G1.
  repeat split; try lia.
  - unfold takeN, dropN. symmetry. apply firstn_skipn.
  - unfold takeN. rewrite skipn_firstn_comm, firstn_firstn.
    replace (Nat.min 4 (N.to_nat l - 1)) with 4%nat by lia. reflexivity.
Qed.

Definition byte_ok (b : N) : Prop := b < 256.
Definition bytes_ok (s : bytes) : Prop := Forall byte_ok s.

Lemma bytes_ok_nth : forall l i, bytes_ok l -> nth i l 0 < 256.
Proof.
  intros l i H. destruct (Nat.lt_ge_cases i (length l)) as [Hi|Hi].
  - unfold bytes_ok in H. rewrite Forall_forall in H. apply H. apply nth_In. exact Hi.
  - rewrite nth_overflow by exact Hi. lia.
Qed.

Lemma be_fold_bound : forall l acc, bytes_ok l ->
  fold_left (fun a b => a * 256 + b) l acc < (acc + 1) * 256 ^ (len l).
Proof.
  induction l as [|b l IH]; intros acc Hb.
  - cbn. lia.
  - cbn [fold_left]. inversion Hb as [|? ? Hb1 Hb2]; subst. unfold byte_ok in Hb1.
    specialize (IH (acc * 256 + b) Hb2).
    rewrite len_cons. rewrite N.pow_add_r. rewrite N.pow_1_r.
    eapply N.lt_le_trans; [exact IH|].
    replace ((acc + 1) * (256 ^ len l * 256)) with ((acc * 256 + 256) * 256 ^ len l) by lia.
    apply N.mul_le_mono_r. lia.
Qed.

Lemma be_lt_two32 : forall k l, bytes_ok l -> be (firstn 4 (skipn k l)) < two32.
Proof.
  intros k l Hb. unfold be. eapply N.lt_le_trans; [apply be_fold_bound, Forall_firstn, Forall_skipn, Hb|].
  replace two32 with (256 ^ 4) by reflexivity.
  rewrite N.add_0_l, N.mul_1_l. apply N.pow_le_mono_r; [lia|]. unfold len. rewrite firstn_length. lia.
Qed.

(* a 32 bit count times the TLV header size does not wrap in 64 bits *)
Lemma mul64_exact : forall a b, a < two32 -> b <= 8 -> mul64 a b = a * b.
Proof. intros a b H1 H2. unfold mul64, two64, two32 in *. apply N.mod_small. nia. Qed.

Lemma sub32_exact : forall a b, b <= a -> a < two32 -> sub32 a b = a - b.
Proof.
  intros a b H1 H2. unfold sub32. replace (a + two32 - b) with (a - b + 1 * two32) by lia.
  rewrite N.mod_add by discriminate. apply N.mod_small. lia.
Qed.

Lemma decode_tlv_spec : forall buf,
  match decode_tlv buf with
  | (Ok (t, rest), k) => len rest + 4 + t_len t = len buf /\ k = 2 * t_len t /\ len (t_info t) = t_len t
  | (Err, k) => k = 0
  | _ => False
  end.
Proof.
  intros buf. unfold decode_tlv, rd_slice, rd, alloc.
  destruct (len buf <? 2) eqn:E1; [reflexivity|]. rewrite bind_ret.
  destruct (len (dropN 2 buf) <? 2) eqn:E2; [reflexivity|]. rewrite bind_ret.
  destruct (len (dropN 2 (dropN 2 buf)) <? be (takeN 2 (dropN 2 buf))) eqn:E3; [reflexivity|].
  cbn [bind ret t_len t_info].
  rewrite len_takeN, !len_dropN in * by lia. lia.
Qed.

(* the three TLV loops are `for x < y` over the buffer and differ in how x advances *)
Lemma tlv_loop_costs :
  forall (next : N -> tlv -> N) (loop : nat -> N -> N -> bytes -> M (list tlv)),
  (forall f x y buf, loop (S f) x y buf =
     if x <? y then '(t, b1) <- decode_tlv buf ;; ts <- loop f (next x t) y b1 ;; ret (t :: ts) else ret []) ->
  forall G fuel x y buf, (length buf < fuel)%nat -> costs G (loop fuel x y buf) (2 * len buf) (fun _ => True).
Proof.
  intros next loop HS G. induction fuel as [|f IH]; intros x y buf Hf; [lia|].
  rewrite HS. destruct (x <? y); [|apply costs_ret; exact I].
  pose proof (decode_tlv_spec buf) as T.
  destruct (decode_tlv buf) as [[[t b1]| | |] k]; try contradiction.
  - destruct T as (L & -> & _). apply costs_paid; [lia|].
    eapply costs_bind; [apply IH; unfold len in L; lia|lia|intros ts _; apply costs_ret; exact I].
  - subst k. apply costs_fail.
Qed.

Lemma decode_pph_costs : forall G buf,
  costs G (decode_pph buf) 0
    (fun '(_, rest) => len rest + per_peer_header_len = len buf /\ rest = dropN per_peer_header_len buf).
Proof.
  intros G buf. unfold decode_pph. do 8 (apply costs_rd; intros ?).
  apply costs_ret. split; [unfold per_peer_header_len; lia|rewrite !dropN_dropN; reflexivity].
Qed.

Lemma decode_common_header_costs : forall G buf,
  costs G (decode_common_header buf) 0
    (fun '(ch, rest) => len rest + common_header_len = len buf /\ rest = dropN common_header_len buf /\
                        ch_len ch = be (firstn 4 (skipn 1 buf))).
Proof.
  intros G buf. unfold decode_common_header. do 3 (apply costs_rd; intros ?).
  apply costs_ret. split; [unfold common_header_len; lia|rewrite !dropN_dropN; split; reflexivity].
Qed.

(* at most 2 * 29 for the fixed part, 2 * 255 for the optional parameters, 29 + 255 for the append *)
Lemma get_open_msg_costs : forall (G : Prop) buf, (G -> bytes_ok buf) ->
  costs G (get_open_msg buf) 852 (fun '(_, rest) => exists k, rest = dropN k buf).
Proof.
  intros G buf HG. unfold get_open_msg. cbv zeta.
  assert (Hol : G -> nth 28 (takeN open_msg_min_len buf) 0 < 256)
    by (intros g; apply bytes_ok_nth, Forall_firstn, HG, g).
  remember (nth 28 (takeN open_msg_min_len buf) 0) as ol eqn:Eol. unfold open_msg_min_len in *.
  apply costs_make_read; [lia|intros _]. rewrite <- Eol. destruct (ol =? 0).
  - apply costs_ret. eexists. reflexivity.
  - apply costs_make_read; [intros g; apply Hol in g; lia|intros _].
    apply costs_paid; [intros g; apply Hol in g; lia|].
    apply costs_ret. eexists. apply dropN_dropN.
Qed.

Definition carried_within (L : N) (m : bmp_msg) : Prop :=
  match m with MRouteMon _ u => len u <= L | _ => True end.

Lemma carried_within_mono : forall L L', L <= L' -> forall m, carried_within L m -> carried_within L' m.
Proof. intros L L' H [ ]; cbn [carried_within]; lia. Qed.

Section Decoders.
Variable G : Prop.
Variable ch : common_header.
Variable buf : bytes.

Lemma decode_initiation_costs :
  costs G (decode_initiation ch buf) (2 * len buf) (carried_within (len buf)).
Proof.
  unfold decode_initiation.
  eapply costs_bind; [eapply tlv_loop_costs; [reflexivity|lia]|lia|intros ts _]. apply costs_ret. exact I.
Qed.

Lemma decode_termination_costs :
  costs G (decode_termination ch buf) (2 * len buf) (carried_within (len buf)).
Proof.
  unfold decode_termination.
  eapply costs_bind; [eapply tlv_loop_costs; [reflexivity|lia]|lia|intros ts _]. apply costs_ret. exact I.
Qed.

Lemma decode_route_mirroring_costs :
  costs G (decode_route_mirroring ch buf) (2 * len buf) (carried_within (len buf)).
Proof.
  unfold decode_route_mirroring.
  eapply costs_bind; [apply decode_pph_costs|lia|intros [h b1] (L & ->)].
  eapply costs_bind; [eapply tlv_loop_costs; [reflexivity|lia]|lia|intros ts _].
  apply costs_ret. exact I.
Qed.

Hypothesis HG : G -> bytes_ok buf /\ ch_len ch = len buf + common_header_len /\ ch_len ch < two32.

Lemma sub32_body : forall a b, G -> b <= a -> a <= ch_len ch -> sub32 a b = a - b.
Proof. intros a b g H1 H2. apply sub32_exact; [exact H1|]. destruct (HG g) as (_ & _ & H32). lia. Qed.

Lemma decode_route_monitoring_costs :
  costs G (decode_route_monitoring ch buf) (2 * len buf) (carried_within (len buf)).
Proof.
  unfold decode_route_monitoring.
  eapply costs_bind; [apply decode_pph_costs|lia|intros [h b1] (L & ->)]. cbv zeta.
  apply costs_make_read; [|intros (Lu & Ln); apply costs_ret; cbn [carried_within]; lia].
  intros g. destruct (HG g) as (_ & Hl & _). unfold common_header_len, per_peer_header_len in *.
  rewrite (sub32_body (ch_len ch)), sub32_body by (assumption || lia). lia.
Qed.

Lemma decode_peer_down_costs :
  costs G (decode_peer_down ch buf) (2 * len buf) (carried_within (len buf)).
Proof.
  unfold decode_peer_down.
  eapply costs_bind; [apply decode_pph_costs|lia|intros [h b1] (L & ->)].
  apply costs_rd; intros L1. cbv zeta. destruct (_ || _); [apply costs_ret; exact I|].
  apply costs_make_read; [|intros _; apply costs_ret; exact I].
  intros g. destruct (HG g) as (_ & Hl & _). unfold common_header_len, per_peer_header_len in *.
  rewrite (sub32_body (ch_len ch)), (sub32_body (_ - _)), sub32_body by (assumption || lia). lia.
Qed.

Lemma decode_stats_report_costs :
  costs G (decode_stats_report ch buf) (4 * len buf) (carried_within (len buf)).
Proof.
  unfold decode_stats_report.
  eapply costs_bind; [apply decode_pph_costs|lia|intros [h b1] (L & ->)].
  apply costs_rd; intros L1. cbv zeta.
  set (b2 := dropN 4 (dropN per_peer_header_len buf)).
  set (count := be (takeN 4 (dropN per_peer_header_len buf))).
  destruct (len b2 <? mul64 count min_information_tlv_len) eqn:EC; [apply costs_fail|].
  assert (Hc : G -> 4 * count <= len b2).
  { intros g. destruct (HG g) as (Hb & _). unfold min_information_tlv_len in EC.
    rewrite mul64_exact in EC; [lia| |lia].
    apply be_lt_two32, Hb. }
  fold b2 in L1.
  apply costs_paid; [intros g; apply Hc in g; lia|].
  eapply costs_bind; [eapply tlv_loop_costs; [reflexivity|lia]|intros g; apply Hc in g; lia|intros ts _].
  apply costs_ret. exact I.
Qed.

(* 1704 = 2 * 852: the sent and the received OPEN *)
Lemma decode_peer_up_costs :
  costs G (decode_peer_up ch buf) (2 * len buf + 1704) (carried_within (len buf)).
Proof.
  unfold decode_peer_up.
  eapply costs_bind; [apply decode_pph_costs|lia|intros [h b1] (L & ->)].
  do 3 (apply costs_rd; intros ?). set (b4 := dropN 2 (dropN 2 (dropN 16 (dropN per_peer_header_len buf)))).
  eapply costs_bind; [apply get_open_msg_costs|lia|intros [sent b5] (k & ->)].
  { intros g. repeat apply Forall_skipn. apply (HG g). }
  eapply costs_bind; [apply get_open_msg_costs|lia|intros [rcvd b6] (k' & ->)].
  { intros g. repeat apply Forall_skipn. apply (HG g). }
  assert (L6 : len (dropN k' (dropN k b4)) <= len buf).
  { unfold b4. rewrite !len_dropN. lia. }
  destruct (_ =? 0); [apply costs_ret; exact I|].
  apply costs_make_read; [lia|intros _]. apply costs_ret. exact I.
Qed.

End Decoders.

(* msg is what recvBMPMsg hands to processMsg: its length field is its length *)
Definition framed (msg : bytes) : Prop :=
  bytes_ok msg /\ be (firstn 4 (skipn 1 msg)) = len msg.

Lemma decode_costs : forall msg,
  costs (framed msg) (decode msg) (4 * len msg + 1704) (carried_within (len msg)).
Proof.
  intros msg. unfold decode.
  eapply costs_bind; [apply decode_common_header_costs|lia|intros [ch b] (L & -> & El)].
  destruct (negb _); [apply costs_fail|].
  assert (HG : framed msg ->
               bytes_ok (dropN common_header_len msg) /\
               ch_len ch = len (dropN common_header_len msg) + common_header_len /\ ch_len ch < two32).
  { intros (Hb & Hl). split; [apply Forall_skipn, Hb|]. rewrite El. split; [lia|]. apply be_lt_two32, Hb. }
  (* the message types 0..6, N literals in binary; everything else fails *)
  destruct (ch_type ch) as [|[[[]|[]|]|[[]|[]|]|]]; try apply costs_fail;
    (eapply costs_weaken;
     [auto using decode_route_monitoring_costs, decode_stats_report_costs, decode_peer_down_costs,
        decode_peer_up_costs, decode_initiation_costs, decode_termination_costs, decode_route_mirroring_costs|lia|
      apply carried_within_mono; lia]).
Qed.

(* Safety and cost of a bind as two separate facts; nothing above goes through them: `costs` carries both. *)
Definition safe {A : Type} (r : res A) : Prop :=
  match r with Panic => False | Fuel => False | _ => True end.

Lemma bind_ok : forall (A B : Type) (m : M A) (f : A -> M B) b k,
  bind m f = (Ok b, k) ->
  exists a k1 k2, m = (Ok a, k1) /\ f a = (Ok b, k2) /\ k = k1 + k2.
Proof.
  intros A B m f b k H. unfold bind in H. destruct m as [r k1]. destruct r as [a| | |]; try discriminate.
  destruct (f a) as [r2 k2] eqn:E. inversion H; subst. exists a, k1, k2. auto.
Qed.

Lemma bind_cost : forall (A B : Type) (m : M A) (f : A -> M B) (bound1 bound2 : N),
  snd m <= bound1 -> (forall a k, m = (Ok a, k) -> snd (f a) <= bound2) ->
  snd (bind m f) <= bound1 + bound2.
Proof.
  intros A B m f b1 b2 Hm Hf. unfold bind. destruct m as [r k]. cbn in Hm.
  destruct r as [a| | |]; cbn; try lia.
  specialize (Hf a k eq_refl). destruct (f a) as [r2 k2]. cbn in *. lia.
Qed.

Lemma decode_tlv_safe : forall buf, safe (fst (decode_tlv buf)).
Proof.
  intros buf. pose proof (decode_tlv_spec buf) as H.
  destruct (decode_tlv buf) as [[[t rest]| | |] k]; try contradiction; exact I.
Qed.
