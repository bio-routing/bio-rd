(* C04 - Loc-RIB clients hold exactly the selected paths they asked for.
   [run val cmp eqv sel init [] ops] executes a history of LocRIB operations on the model of
   routingtable/locRIB and returns the final state and, per operation, the callbacks delivered to
   clients; None would be a Go panic.  [sel] stands for Route.PathSelection and is arbitrary up to
   [sel_ok] (it permutes the stored paths and reports an ECMP count not above their number);
   [cmp]/[eqv] stand for Path.Compare/Path.Equal and are arbitrary.  [held c p tr] is client c's own
   account for prefix p: initial dump plus additions minus removals since its latest registration
   (None if it was ever told to remove a path it did not hold). *)
From Coq Require Import List Permutation.
Import ListNotations.
From BioVerif Require Import Model.LocRIBClients Spec.LocRIBClientsSpec Proofs.LocRIBClientsProofs.

(* For every history (clients registered before, during or after route changes, any options, any
   re-registrations): the history runs without panic, and every currently registered client holds,
   for every prefix, exactly the path objects (with their attributes) that its option admits from
   the current selection - as a multiset; removals never miss. *)
Theorem C04_clients_hold_selection :
  forall (val : Type) (cmp eqv : val -> val -> bool)
         (sel : nat -> list (entry val) -> list (entry val) * nat),
  sel_ok val sel ->
  forall ops : list (op val),
  exists (st : state val) (tr : trace val),
    run val cmp eqv sel init [] ops = Some (st, tr) /\
    forall (c : cid) (o : opts) (p : pfx),
      lookup c (clients st) = Some o ->
      exists h, held val c p tr = Some h /\ Permutation h (want val o (route_at st p)).
Proof.
  intros val cmp eqv sel Hsel ops. destruct (init_inv val) as [HR HC].
  destruct (run_inv val cmp eqv sel Hsel ops init [] HR HC) as [st [tr [Hr [_ HC']]]]. now exists st, tr.
Qed.
Print Assumptions C04_clients_hold_selection.

(* The same as a multiset of path VALUES (what a client that identifies paths by their attributes
   sees; the initial dump hands out copies). *)
Theorem C04_clients_hold_selection_values :
  forall (val : Type) (cmp eqv : val -> val -> bool)
         (sel : nat -> list (entry val) -> list (entry val) * nat),
  sel_ok val sel ->
  forall (ops : list (op val)) (st : state val) (tr : trace val),
  run val cmp eqv sel init [] ops = Some (st, tr) ->
  forall (c : cid) (o : opts) (p : pfx),
    lookup c (clients st) = Some o ->
    exists h, held val c p tr = Some h /\
              Permutation (map snd h) (map snd (want val o (route_at st p))).
Proof.
  intros val cmp eqv sel Hsel ops st tr Hr c o p Hl. destruct (run_init_inv val cmp eqv sel Hsel ops st tr Hr) as [_ HC].
  destruct (HC c o p Hl) as [h [Hh HP]]. exists h. split; [assumption|]. now apply Permutation_map.
Qed.
Print Assumptions C04_clients_hold_selection_values.

(* After Unregister(c), as long as c is not registered again, no operation delivers anything to c;
   the only callbacks c can still see are the empty RefreshRoute lists answering its own explicit
   RefreshClient(c) request.  (No hypothesis on sel is needed.) *)
Theorem C04_silent_after_unregister :
  forall (val : Type) (cmp eqv : val -> val -> bool)
         (sel : nat -> list (entry val) -> list (entry val) * nat)
         (ops1 : list (op val)) (c : cid) (ops2 : list (op val))
         (st : state val) (tr : trace val),
  (forall oc : opts, ~ In (ORegister c oc) ops2) ->
  run val cmp eqv sel init [] (ops1 ++ OUnregister c :: ops2) = Some (st, tr) ->
  exists tr1 tr2,
    tr = tr1 ++ (OUnregister c, []) :: tr2 /\
    map fst tr1 = ops1 /\ map fst tr2 = ops2 /\
    Forall (quiet_for val c) tr2.
Proof.
  intros val cmp eqv sel ops1 c ops2 st tr Hn Hr. rewrite run_app in Hr.
  destruct (run val cmp eqv sel init [] ops1) as [[s1 t1]|] eqn:H1; [|discriminate].
  destruct (run_trace _ _ _ _ _ _ _ _ _ H1) as [ext1 [E1 [E2 _]]]. simpl in E1. subst t1. simpl in Hr.
  destruct (run_trace _ _ _ _ _ _ _ _ _ Hr) as [ext [F1 [F2 F3]]].
  exists ext1, ext. split; [rewrite F1, <- app_assoc; reflexivity|]. split; [assumption|]. split; [assumption|].
  apply F3; [|assumption]. simpl. rewrite lookup_del. now rewrite PeanoNat.Nat.eqb_refl.
Qed.
Print Assumptions C04_silent_after_unregister.

(* RefreshClient(c) of a registered client re-sends, for every route (one per prefix), exactly
   the paths the client is entitled to, and changes nothing. *)
Theorem C04_refresh_resends_selection :
  forall (val : Type) (cmp eqv : val -> val -> bool)
         (sel : nat -> list (entry val) -> list (entry val) * nat),
  sel_ok val sel ->
  forall (ops : list (op val)) (st : state val) (tr : trace val) (c : cid) (o : opts),
  run val cmp eqv sel init [] ops = Some (st, tr) ->
  lookup c (clients st) = Some o ->
  NoDup (map fst (routes st)) /\
  step val cmp eqv sel st (ORefresh c) =
  Ok (tick val st) (map (fun pr => CbRefresh c (fst pr) (want val o (snd pr))) (routes st)).
Proof.
  intros val cmp eqv sel Hsel ops st tr c o Hr Hl. destruct (run_init_inv val cmp eqv sel Hsel ops st tr Hr) as [HR _].
  split; [now destruct HR|]. now apply refresh_spec.
Qed.
Print Assumptions C04_refresh_resends_selection.

(* Non-vacuity: the hypothesis on sel is satisfiable (highest LOCAL_PREF first, ECMP = the paths
   sharing it) ... *)
Example C04_example_sel_ok : sel_ok (nat * nat) ref_sel.
Proof. exact ref_sel_ok. Qed.

(* ... and a history with an ECMP client (0), a MaxPaths-1 client (1) and a best-only client (2),
   a best-path change, duplicates of the value (2,1) and ECMP growth / shrink *)
Example C04_example_history :
  match run (nat * nat) pair_eqb pair_eqb ref_sel init []
    [ORegister 0 (mkOpts false true 0); OAdd 7 (2, 1); OAdd 7 (2, 2);
      ORegister 1 (mkOpts false false 1); ORegister 2 (mkOpts true false 0);
      OAdd 7 (3, 1); OAdd 7 (2, 1); ORemove 7 (3, 1)] with
  | Some (st, tr) =>
    route_at st 7 = mkRoute [(1, (2, 1)); (2, (2, 2)); (6, (2, 1))] 3 /\
    held _ 0 7 tr = Some [(6, (2, 1)); (2, (2, 2)); (1, (2, 1))] /\
    held _ 1 7 tr = Some [(1, (2, 1))] /\
    held _ 2 7 tr = Some [(1, (2, 1))] /\
    nth_error tr 5 =
      Some (OAdd 7 (3, 1),
            [CbRemove 0 7 (2, (2, 2)); CbRemove 0 7 (1, (2, 1)); CbRemove 1 7 (2, (2, 2));
             CbRemove 2 7 (2, (2, 2)); CbAdd 0 7 (5, (3, 1)); CbAdd 1 7 (5, (3, 1));
             CbAdd 2 7 (5, (3, 1))])
  | None => False
  end.
Proof. vm_compute. repeat split. Qed.
