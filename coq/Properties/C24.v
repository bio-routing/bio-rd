(* C24 - Connection collisions leave at most one established session.
   run (init c) ls       the peer (router id / local AS / peer AS in c) with its outgoing FSM and the FSM of an
                         accepted connection after the steps ls (Up, Accept, Open received, Publish, Keepalive
                         received, Take Cease, Handle Cease - the atomic steps of the code, in any order);
                         None if a step is not enabled where it occurs
   spec_run c spec_init ls   the reference machine of RFC 4271 6.8 + RFC 6286 (every message processed atomically)
   serialised (init c) ls    along ls (1) each OPEN is processed when the other FSM has stored the states it
                         computed and (2) an FSM asked to cease takes that event before any KEEPALIVE *)
From Coq Require Import List NArith.
Import ListNotations.
From BioVerif Require Import Model.Collision Spec.CollisionSpec Proofs.CollisionProofs.

(* peer.shouldCeaseOnCollision is the comparison of RFC 4271 6.8 extended by RFC 6286: local BGP identifier
   less than the remote one, AS numbers when the identifiers are equal. *)
Theorem C24_should_cease_is_rfc_comparison : forall (c : cfg) (id : N),
  should_cease_on_collision c id = local_less c id.
Proof. exact should_cease_is_local_less. Qed.
Print Assumptions C24_should_cease_is_rfc_comparison.

(* The reference machine itself never has two connections in OpenConfirm/Established, for EVERY sequence of
   events and all identifiers. *)
Theorem C24_rfc_at_most_one : forall (c : cfg) (ls : list label),
  ~ (up (s0 (spec_run c spec_init ls)) = true /\ up (s1 (spec_run c spec_init ls)) = true).
Proof. exact rfc_at_most_one. Qed.
Print Assumptions C24_rfc_at_most_one.

(* For ALL identifiers and AS numbers and EVERY serialised schedule (any length, any interleaving of the two
   connections): the implementation state, read through [abs], is the state of the reference machine. *)
Theorem C24_refines_rfc_partial : forall (c : cfg) (ls : list label) (p : peer),
  run (init c) ls = Some p -> serialised (init c) ls = true ->
  abs p = spec_run c spec_init ls.
Proof. intros c ls p Hr Hg. apply (reached c ls p Hr Hg). Qed.
Print Assumptions C24_refines_rfc_partial.

(* ... hence never two FSMs Established/attached at once ... *)
Theorem C24_at_most_one_partial : forall (c : cfg) (ls : list label) (p : peer),
  run (init c) ls = Some p -> serialised (init c) ls = true ->
  ~ (est (f0 p) = true /\ est (f1 p) = true).
Proof.
  intros c ls p Hr Hg [H0 H1].
  discriminate (only_one_ever [] p p false true (proj1 (reached c ls p Hr Hg)) eq_refl eq_refl H0 H1).
Qed.
Print Assumptions C24_at_most_one_partial.

(* ... an Established/attached FSM is the connection RFC 4271 6.8 / RFC 6286 keep ... *)
Theorem C24_survivor_is_rfc_choice_partial : forall (c : cfg) (ls : list label) (p : peer) (i : idx),
  run (init c) ls = Some p -> serialised (init c) ls = true ->
  est (get p i) = true -> sget (spec_run c spec_init ls) i = SEstablished.
Proof. intros c ls p i Hr Hg He. destruct (reached c ls p Hr Hg) as [Hi <-]. exact (inv_est_abs p i Hi He). Qed.
Print Assumptions C24_survivor_is_rfc_choice_partial.

(* ... and the connection they close has sent a Cease NOTIFICATION as its last message, is closed, its FSM has
   ended and contributes nothing - or the Cease event is still on its way, and then the step that delivers /
   handles it is enabled. *)
Theorem C24_loser_sent_cease_partial : forall (c : cfg) (ls : list label) (p : peer) (i : idx),
  run (init c) ls = Some p -> serialised (init c) ls = true ->
  sget (spec_run c spec_init ls) i = SClosedCease ->
  (held p i = false -> ceasing (get p i) = false ->
   alive (get p i) = false /\ closed (get p i) = true /\
   hd_error (wire (get p i)) = Some cease_notification /\ est (get p i) = false) /\
  (held p i = true -> step p (LTake i) <> None) /\
  (ceasing (get p i) = true -> step p (LHandle i) <> None).
Proof.
  intros c ls p i Hr Hg Hs. destruct (reached c ls p Hr Hg) as [Hi E]. rewrite <- E in Hs.
  exact (inv_loser p i Hi Hs).
Qed.
Print Assumptions C24_loser_sent_cease_partial.

(* "... at most one of them is EVER Established": along a serialised schedule, if connection i is Established /
   attached at some point and connection j at a later one, they are the same connection. *)
Theorem C24_only_one_ever_partial : forall (c : cfg) (l1 l2 : list label) (p1 p2 : peer) (i j : idx),
  run (init c) l1 = Some p1 -> run p1 l2 = Some p2 -> serialised (init c) (l1 ++ l2) = true ->
  est (get p1 i) = true -> est (get p2 j) = true -> i = j.
Proof.
  intros c l1 l2 p1 p2 i j H1 H2 Hg. destruct (along_app _ _ _ _ _ H1 Hg) as [G1 G2].
  exact (only_one_ever l2 p1 p2 i j (proj1 (reached c l1 p1 H1 G1)) G2 H2).
Qed.
Print Assumptions C24_only_one_ever_partial.

(* Without guard (1) the statement is false on the current code: FSM.run() stores the state run() returned only
   after run() has returned, so two OPENs can both be checked against the old states; both pass, both sessions
   establish and attach (the schedule even satisfies guard (2)). *)
Theorem C24_at_most_one_refuted : exists (c : cfg) (ls : list label) (p : peer),
  run (init c) ls = Some p /\ along cease_first_ok (init c) ls = true /\
  est (f0 p) = true /\ est (f1 p) = true.
Proof. destruct witness_window as (p & Hr & Hg & H0 & H1 & _). exists w_cfg, w_window, p. auto. Qed.
Print Assumptions C24_at_most_one_refuted.

(* Without guard (2) it is false as well, even when every check sees stored states: the FSM that is asked to
   cease may take the peer's KEEPALIVE first, becomes Established and attaches; once its select has taken the
   Cease event the winner goes on to Established while the loser's handler has not withdrawn anything yet. *)
Theorem C24_cease_race_refuted : exists (c : cfg) (ls : list label) (p : peer),
  run (init c) ls = Some p /\ checks_after_publication (init c) ls = true /\
  est (f0 p) = true /\ est (f1 p) = true.
Proof. destruct witness_cease_race as (p & Hr & Hg & H0 & H1 & _). exists w_cfg, w_cease_race, p. auto. Qed.
Print Assumptions C24_cease_race_refuted.

(* Serialised schedules in which a collision is resolved. Router id 5 / remote 9: the existing
   (OpenConfirm) connection is ceased, the new one survives and establishes. *)
Definition ex_lt : list label :=
  [LUp; LAccept; LOpen false 9; LPublish false; LOpen true 9; LTake false; LHandle false;
   LPublish true; LKeep true; LPublish true].
Example C24_example_local_less : exists p,
  run (init (mkcfg 5 100 200)) ex_lt = Some p /\ serialised (init (mkcfg 5 100 200)) ex_lt = true /\
  est (f1 p) = true /\ est (f0 p) = false /\ alive (f0 p) = false /\ closed (f0 p) = true /\
  wire (f0 p) = [cease_notification; MKeepalive; MOpen] /\
  spec_run (mkcfg 5 100 200) spec_init ex_lt = mkspec SClosedCease SEstablished.
Proof. eexists. split; [vm_compute; reflexivity|]. vm_compute. auto 10. Qed.

(* Router id 9 / remote 5: the new connection ceases itself, the existing one establishes. *)
Definition ex_gt : list label :=
  [LUp; LAccept; LOpen false 5; LPublish false; LOpen true 5; LKeep false; LPublish false].
Example C24_example_local_greater : exists p,
  run (init (mkcfg 9 100 200)) ex_gt = Some p /\ serialised (init (mkcfg 9 100 200)) ex_gt = true /\
  est (f0 p) = true /\ est (f1 p) = false /\ alive (f1 p) = false /\ closed (f1 p) = true /\
  wire (f1 p) = [cease_notification; MOpen].
Proof. eexists. split; [vm_compute; reflexivity|]. vm_compute. auto 10. Qed.

(* Equal identifiers (RFC 6286): the AS numbers decide, in both directions. *)
Example C24_example_equal_ids : exists p q,
  run (init (mkcfg 7 100 200)) (map (fun l => match l with LOpen i _ => LOpen i 7 | _ => l end) ex_lt) = Some p /\
  est (f1 p) = true /\ alive (f0 p) = false /\
  run (init (mkcfg 7 200 100)) (map (fun l => match l with LOpen i _ => LOpen i 7 | _ => l end) ex_gt) = Some q /\
  est (f0 q) = true /\ alive (f1 q) = false.
Proof. eexists. eexists. split; [vm_compute; reflexivity|]. split; [reflexivity|]. split; [reflexivity|].
  split; [vm_compute; reflexivity|]. split; reflexivity. Qed.

(* What the code (and the step-by-step text of RFC 4271 6.8) does NOT look at is which side opened a connection:
   with the smaller local identifier the connection that reached OpenConfirm first is closed even when it is the
   one the peer (the speaker with the higher identifier) initiated. *)
Example C24_example_rule_ignores_direction : exists p,
  run (init (mkcfg 5 100 200))
      [LUp; LAccept; LOpen true 9; LPublish true; LOpen false 9; LTake true; LHandle true;
       LPublish false; LKeep false; LPublish false] = Some p /\
  est (f0 p) = true /\ alive (f1 p) = false.
Proof. eexists. split; [vm_compute; reflexivity|]. split; reflexivity. Qed.
