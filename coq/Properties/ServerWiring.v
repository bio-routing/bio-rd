(* Server-level wiring (shared by C04 C06 C07 C08 C09 C10 C11 C12). Model/ServerWiring.v: peer map, per-peer stored
   chains / cluster id, FSM lists, VRF reference counters, registrations at the Loc-RIB; run evs is the state after the
   events evs (AddPeer / Inbound / Establish / Down / Replace{Import,Export} / Dispose in any order). *)
From Coq Require Import List Arith Bool Permutation.
From BioVerif Require Import Model.ServerWiring Proofs.ServerWiringProofs.
Import ListNotations.

(* DisposePeer after any history: the peer is gone from the peer map; no registration (Adj-RIB-In / Adj-RIB-Out at the
   Loc-RIB) of any of its FSMs and families is left; nothing is registered that was not registered before; and the
   contributing-ASN / cluster-id counters of the VRFs are exactly those of the registrations that remain (its own
   contribution is withdrawn, everybody else's is kept). *)
Theorem Wiring_dispose_removes_everything : forall evs id p,
  find_peer id (peers (run evs)) = Some p ->
  let s' := step (run evs) (Dispose id) in
  find_peer id (peers s') = None /\
  (forall m a r, In m (p_fsms p) -> In r (regs s') -> reg_is id (m_id m) a r = false) /\
  (forall r, In r (regs s') -> In r (regs (run evs))) /\
  Permutation (asn_bag s') (map r_asn (regs s')) /\
  Permutation (cl_bag s') (map r_cl (regs s')).
Proof. intros evs id p. apply dispose_removes_everything, (proj2 (run_inv evs)). Qed.
Print Assumptions Wiring_dispose_removes_everything.

(* Whenever an FSM was created (before or after any number of chain replacements), its families run the effective form
   of the chains currently configured for the peer (the empty chain = reject all). *)
Theorem Wiring_later_fsm_uses_current_chains : forall evs id p m,
  find_peer id (peers (run evs)) = Some p -> In m (p_fsms p) ->
  forall f, (m_f4 m = Some f \/ m_f6 m = Some f) ->
  f_imp f = effective (c_imp (p_cfg p)) /\ f_exp f = effective (c_exp (p_cfg p)).
Proof. intros evs id p m Hf. exact (peer_ok_chains p m (inv_peer_ok _ _ _ (run_inv evs) Hf)). Qed.
Print Assumptions Wiring_later_fsm_uses_current_chains.

(* A route reflector client peer without a configured cluster id runs with the router id as cluster id. *)
Theorem Wiring_default_cluster_id_is_router_id : forall evs id p,
  find_peer id (peers (run evs)) = Some p -> c_rrc (p_cfg p) = true ->
  p_cluster p = effective_cluster (p_cfg p).
Proof. intros evs id p Hf. exact (peer_ok_cluster p (inv_peer_ok _ _ _ (run_inv evs) Hf)). Qed.
Print Assumptions Wiring_default_cluster_id_is_router_id.

(* An FSM that is not Established has NO family attached - IPv4-only, IPv6-only or dual. *)
Theorem Wiring_all_families_disposed : forall evs id p m,
  find_peer id (peers (run evs)) = Some p -> In m (p_fsms p) -> m_est m = false ->
  attached (m_f4 m) = false /\ attached (m_f6 m) = false.
Proof. intros evs id p m Hf. exact (peer_ok_detached p m (inv_peer_ok _ _ _ (run_inv evs) Hf)). Qed.
Print Assumptions Wiring_all_families_disposed.

(* ---- the hypotheses are satisfiable on non-trivial states *)
Definition ex_cfg (id : nat) (has4 has6 rr : bool) : peer_cfg :=
  {| c_id := id; c_vrf := 0; c_las := 650; c_router_id := 11; c_rrc := rr; c_cluster := 0;
     c_has4 := has4; c_has6 := has6; c_imp := CAccept; c_exp := CAccept |}.

(* an IPv6-only route reflector client: export chain emptied BEFORE its FSM exists, established, flapped *)
Definition ex_hist : list event :=
  [AddPeer (ex_cfg 1 false true true); AddPeer (ex_cfg 2 true false false);
   ReplaceExport 1 CEmpty; Inbound 1; Inbound 2; Establish 1 0; Establish 2 0; Down 1 0; Establish 1 0].

Example ex_later_fsm_rejects :
  match find_peer 1 (peers (run ex_hist)) with
  | Some p => map (fun m => option_map f_exp (m_f6 m)) (p_fsms p) = [Some CReject] /\ p_cluster p = 11
  | None => False
  end.
Proof. vm_compute. split; reflexivity. Qed.

Example ex_contributions :
  contributing_asn (run ex_hist) 0 650 = true /\
  contributing_cluster (run ex_hist) 0 11 = true /\
  length (regs (run ex_hist)) = 2.
Proof. vm_compute. repeat split; reflexivity. Qed.

(* disposing peer 1 keeps the ASN contribution of peer 2 (same VRF, same local ASN) and drops the cluster id *)
Example ex_dispose_keeps_the_other :
  let s := step (run ex_hist) (Dispose 1) in
  contributing_asn s 0 650 = true /\ contributing_cluster s 0 11 = false /\
  length (regs s) = 1 /\ length (peers s) = 1.
Proof. vm_compute. repeat split; reflexivity. Qed.

Example ex_flap_detaches_v6_only :
  let s := fold_left step [Down 1 0] (run ex_hist) in
  length (regs s) = 1 /\ contributing_cluster s 0 11 = false.
Proof. vm_compute. split; reflexivity. Qed.
