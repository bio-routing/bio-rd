(* C34 - API route conversion preserves what the API carries.
   to_proto = Route.ToProto, from_proto = RouteFromProtoRoute, roundtrip = from_proto after to_proto
   (Model/APIConv.v; Panic = nil dereference).  wf_route (Spec/APIConvSpec.v): the prefix is there,
   every path is a static path with its next hop or a BGP path with its attribute block, next hop
   and source; uint8 fields hold uint8 values; AS path segments are sets or sequences. *)
From Coq Require Import List NArith.
Import ListNotations.
From BioVerif Require Import Model.APIConv Spec.APIConvSpec Proofs.APIConvProofs.
Open Scope N_scope.

(* The conversion to the API and back does not panic and preserves the prefix, the type of every
   path (their number and order too), the next hop of a static path, and for a BGP path every
   attribute of bgp_agree: next hop, LOCAL_PREF, AS_PATH, ORIGIN, MED, eBGP flag, BGP identifier,
   source, communities, large communities, ORIGINATOR_ID, CLUSTER_LIST, unknown attributes,
   path identifier, post-policy flag, OTC (a nil list and an empty list are the same value). *)
Theorem C34_roundtrip : forall r, wf_route r ->
  exists r', roundtrip r = Ok r' /\ r_pfx r' = r_pfx r /\ Forall2 path_agree (r_paths r) (r_paths r').
Proof.
  intros r H. destruct (roundtrip_preserves (fun _ _ => True) _ (fun _ _ _ => I) (fun _ _ Ha _ => Ha) r H)
    as (ar & r' & H1 & H2 & H3 & _ & H4).
  exists r'. unfold roundtrip. rewrite H1. auto.
Qed.
Print Assumptions C34_roundtrip.

(* "A hidden path is never reported as visible", full statement: REFUTED on the code as it is.
   Path.ToProto has no case for hidden reasons without an API name (7 = HiddenReasonEmptyASPath);
   the API message says HiddenReasonNone and the path comes back visible (known finding
   hidden-reason-without-api-name-reported-visible). *)
Definition ex_ip : ip := mkIP 0 167772161 true.
Definition ex_hidden7 : route :=
  mkR (Some (mkPfx (mkIP 0 167772160 true) 8))
      [mkPath BGPPathType 0 7 0 None
         (Some (mkB (Some (mkA (Some ex_ip) (Some ex_ip) 100 0 1 0 None true false 0 0))
                    (Some []) None None None [] 0 0 false))].
Theorem C34_hidden_stays_hidden_refuted :
  exists r, wf_route r /\ exists ar r', to_proto r = Ok ar /\ from_proto ar = Ok r' /\
    Forall hidden (r_paths r) /\ Forall (fun ap => ~ api_hidden ap) (ar_paths ar) /\
    Forall (fun p' => ~ hidden p') (r_paths r').
Proof.
  exists ex_hidden7. split.
  - exists (mkPfx (mkIP 0 167772160 true) 8). split; [reflexivity|]. split; [reflexivity|].
    constructor; [|constructor]. split; [reflexivity|]. split; [exact I|]. right. split; [reflexivity|].
    eexists. split; [reflexivity|]. exists (mkA (Some ex_ip) (Some ex_ip) 100 0 1 0 None true false 0 0), ex_ip, ex_ip.
    repeat split; constructor.
  - eexists. eexists. split; [reflexivity|]. split; [reflexivity|].
    repeat split; constructor; try constructor; cbn; unfold hidden, api_hidden; cbn; try discriminate; tauto.
Qed.
Print Assumptions C34_hidden_stays_hidden_refuted.

(* ... and holds with the exact guard: for every path whose hidden reason the API names
   (HiddenReasonNone .. HiddenReasonOTCMismatch) the API message is hidden iff the path is, and the
   path comes back with the same reason. *)
Theorem C34_hidden_stays_hidden_partial : forall r, wf_route r ->
  exists ar r', to_proto r = Ok ar /\ from_proto ar = Ok r' /\
    Forall2 (fun p ap => reason_named p -> (hidden p <-> api_hidden ap)) (r_paths r) (ar_paths ar) /\
    Forall2 (fun p p' => reason_named p -> p_hidden p' = p_hidden p) (r_paths r) (r_paths r').
Proof.
  intros r H. destruct (roundtrip_preserves _ _ named_reported (fun p p' _ => named_returned p p') r H)
    as (ar & r' & ? & ? & _ & ? & ?).
  exists ar, r'. auto.
Qed.
Print Assumptions C34_hidden_stays_hidden_partial.

(* The defect is exactly that: every path with an unnamed reason is reported and returned visible. *)
Theorem C34_unnamed_reason_reported_visible : forall r, wf_route r ->
  exists ar r', to_proto r = Ok ar /\ from_proto ar = Ok r' /\
    Forall2 (fun p ap => ~ reason_named p -> ~ api_hidden ap) (r_paths r) (ar_paths ar) /\
    Forall2 (fun p p' => ~ reason_named p -> ~ hidden p') (r_paths r) (r_paths r').
Proof.
  intros r H. destruct (roundtrip_preserves _ _ unnamed_reported (fun p p' _ => unnamed_returned p p') r H)
    as (ar & r' & ? & ? & _ & ? & ?).
  exists ar, r'. auto.
Qed.
Print Assumptions C34_unnamed_reason_reported_visible.

(* The way back alone never un-hides: any non-zero hidden_reason in an API message gives a hidden path. *)
Theorem C34_api_hidden_comes_back_hidden : forall h, hidden_from_proto h = 0 <-> h = 0.
Proof. exact hidden_from_proto_zero. Qed.
Print Assumptions C34_api_hidden_comes_back_hidden.

(* A visible path is never reported as hidden. *)
Theorem C34_visible_stays_visible : forall r, wf_route r ->
  exists r', roundtrip r = Ok r' /\
    Forall2 (fun p p' => ~ hidden p -> ~ hidden p') (r_paths r) (r_paths r').
Proof.
  intros r H. destruct (roundtrip_preserves (fun _ _ => True) _ (fun _ _ _ => I) (fun p p' _ => visible_returned p p') r H)
    as (ar & r' & H1 & H2 & _ & _ & H4).
  exists r'. unfold roundtrip. rewrite H1. auto.
Qed.
Print Assumptions C34_visible_stays_visible.

(* ---- histories.  RouteFromProtoRoute(.., dedup = true) sends every attribute block through the
   process-wide cache of route/bgp_path_cache.go, so a conversion could depend on what was converted
   before.  run_history h l (Model/APIConv.v) converts the routes of l one after the other, each
   with its own dedup flag, starting in the process state h (heap_ok: every address stored in the
   cache has been allocated - the initial state, and any state reached by conversions or by other
   users of the cache). *)

(* In the code as it is the cache cannot hit on this way (its key contains the freshly allocated
   NextHop/Source pointers): every conversion of every history returns exactly what it returns alone. *)
Theorem C34_history_independent : forall l h, heap_ok h ->
  run_history h l = map (fun rd => roundtrip (fst rd)) l.
Proof. exact run_history_stateless. Qed.
Print Assumptions C34_history_independent.

(* The round trip holds for every conversion in any history, with dedup on or off. *)
Theorem C34_roundtrip_history : forall l h, heap_ok h -> Forall (fun rd => wf_route (fst rd)) l ->
  Forall2 (fun rd res => exists r', res = Ok r' /\ r_pfx r' = r_pfx (fst rd) /\
                                    Forall2 path_agree (r_paths (fst rd)) (r_paths r') /\
                                    Forall2 (fun p p' => reason_named p -> p_hidden p' = p_hidden p)
                                            (r_paths (fst rd)) (r_paths r'))
          l (run_history h l).
Proof.
  intros l h Hh Hwf. apply (history_pointwise _ l h Hh). eapply Forall_impl; [|exact Hwf].
  intros [r dd] Hr. cbn [fst] in *.
  destruct (C34_roundtrip r Hr) as (r' & E & Hp & Ha).
  destruct (C34_hidden_stays_hidden_partial r Hr) as (ar & r'' & E1 & E2 & _ & Hn).
  exists r'. unfold roundtrip in *. rewrite E1 in *. cbn [bind] in *.
  rewrite E2 in E. injection E as <-. auto.
Qed.
Print Assumptions C34_roundtrip_history.

Example C34_example_heap : heap_ok empty_heap.
Proof. intros k v []. Qed.

(* ---- non-vacuity: a route with a static path and a BGP path that uses every field *)
Definition ex_bgp : bgp_path :=
  mkB (Some (mkA (Some ex_ip) (Some (mkIP 42540766411282592856903984951653826560 1 false))
                 200 50 3232235777 3232235778 (Some (65000, 1)) true true 2 64512))
      (Some [mkSeg ASSequence [65001; 65002]; mkSeg ASSet [65003; 65004]; mkSeg ASSequence []])
      (Some [1; 2]) (Some [4259840100]) (Some [mkLC 65000 1 2]) 
      [mkUA true true false 200 [1; 2; 3]; mkUA true false true 201 []]
      7 3 true.
Definition ex_route : route :=
  mkR (Some (mkPfx (mkIP 0 167772160 true) 8))
      [mkPath StaticPathType 2 0 11 (Some (mkS (Some ex_ip))) None;
       mkPath BGPPathType 0 3 99 None (Some ex_bgp);
       mkPath BGPPathType 0 0 0 None
         (Some (mkB (Some (mkA (Some ex_ip) (Some ex_ip) 0 0 0 0 None false false 0 0))
                    None (Some []) (Some []) None [] 0 0 false))].

Example C34_example_roundtrip :
  roundtrip ex_route =
  Ok (mkR (Some (mkPfx (mkIP 0 167772160 true) 8))
      [mkPath StaticPathType 0 0 0 (Some (mkS (Some ex_ip))) None;
       mkPath BGPPathType 0 3 0 None
         (Some (mkB (Some (mkA (Some ex_ip) (Some (mkIP 42540766411282592856903984951653826560 1 false))
                               200 50 3232235777 3232235778 None true false 2 64512))
                    (Some [mkSeg ASSequence [65001; 65002]; mkSeg ASSet [65003; 65004]; mkSeg ASSequence []])
                    (Some [1; 2]) (Some [4259840100]) (Some [mkLC 65000 1 2])
                    [mkUA true true false 200 [1; 2; 3]; mkUA true false true 201 []]
                    7 3 true));
       mkPath BGPPathType 0 0 0 None
         (Some (mkB (Some (mkA (Some ex_ip) (Some ex_ip) 0 0 0 0 None false false 0 0))
                    (Some []) None None None [] 0 0 false))]).
Proof. vm_compute. reflexivity. Qed.

Example C34_example_wf : wf_route ex_route.
Proof.
  exists (mkPfx (mkIP 0 167772160 true) 8). split; [reflexivity|]. split; [reflexivity|].
  constructor; [|constructor; [|constructor; [|constructor]]].
  - split; [reflexivity|]. split; [cbn; discriminate|]. left. split; [reflexivity|discriminate].
  - split; [reflexivity|]. split; [exact I|]. right. split; [reflexivity|].
    exists ex_bgp. split; [reflexivity|]. unfold wf_bgp, ex_bgp. cbn.
    do 3 eexists. split; [reflexivity|]. split; [reflexivity|]. split; [reflexivity|].
    split; [reflexivity|]. split.
    + constructor; [right; reflexivity|]. constructor; [left; reflexivity|].
      constructor; [right; reflexivity|constructor].
    + constructor; [reflexivity|]. constructor; [reflexivity|constructor].
  - split; [reflexivity|]. split; [exact I|]. right. split; [reflexivity|].
    eexists. split; [reflexivity|]. unfold wf_bgp. cbn.
    do 3 eexists. split; [reflexivity|]. split; [reflexivity|]. split; [reflexivity|].
    split; [reflexivity|]. split; constructor.
Qed.

(* two routes that differ in the MED only, converted one after the other with dedup = true *)
Definition ex_med (m : N) : route :=
  mkR (Some (mkPfx (mkIP 0 167772160 true) 8))
      [mkPath BGPPathType 0 0 0 None
         (Some (mkB (Some (mkA (Some ex_ip) (Some ex_ip) 100 m 1 0 None true false 0 0))
                    (Some []) None None None [] 0 0 false))].
Example C34_example_history :
  run_history empty_heap [(ex_med 17, true); (ex_med 0, true); (ex_med 4000000000, true)] =
  [Ok (ex_med 17); Ok (ex_med 0); Ok (ex_med 4000000000)].
Proof. vm_compute. reflexivity. Qed.
