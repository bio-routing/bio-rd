(* Pipeline - end-to-end theorems about the composed model of the RIB pipeline (Model/Pipeline.v), attached to
   C08 (and reused by C05 / C10).  The proofs live in Proofs/Pipeline{In,Loc,Proofs,Out,Send,Order}.v.

   The composed model threads the component models exactly as fsm_address_family.go wires the Go objects:
     Adj-RIB-In (Model.AdjRIBIn.step, any import policy)  ->  Loc-RIB (Model.LocRIBClients.step, any admissible
     Route.PathSelection sel)  ->  Adj-RIB-Out of every registered session (Model.AdjRIBOut.step, any export policy
     apply)  ->  update sender (Model.UpdateSender.step; tagf = the aggregation hash)  ->  peer (replay of the wire).
   run cfgs evs = the state after the events evs (EUp / EDown / EAnnounce / EWithdraw / EDequeue / EEmit, any session,
   any order).  The component theorems are used as black boxes, so the guards are exactly theirs, plus the assumption
   C08 records (the Loc-RIB never held two indistinguishable paths for a prefix) and - for the last link, which no
   component theorem supplies - the interface condition log_tracks_table (false exactly in the known findings'
   situations; refuted below). *)
From Coq Require Import List NArith ZArith Bool Arith Permutation.
Import ListNotations.
From BioVerif Require Import Model.Pipeline Spec.PipelineSpec
  Proofs.PipelineProofs Proofs.PipelineOut Proofs.PipelineSend Proofs.PipelineOrder Proofs.PipelineExamples.
From BioVerif Require Model.AdjRIBIn Model.LocRIBClients Model.AdjRIBOut Model.UpdateSender
  Spec.LocRIBClientsSpec Spec.ExportViewSpec Spec.UpdateSenderSpec Spec.PathSelSpec.

(* 1. After ANY history of the composed model, for any import policies, any admissible selection, any export
   policies: the candidates the Loc-RIB holds for a prefix are - as a multiset, up to what Path.Compare ignores
   (ckey: OTC, ASPathLen, RedistributedFrom) - the union over the sessions that are UP of their current, eligible
   (C06), import-policy-rewritten announcements (C05's contribution).  Sessions are told apart by their peer
   address (distinct_peers). *)
Theorem Pipeline_locrib_is_union_of_contributions :
  forall (P : Type) (apply : P -> N -> AdjRIBOut.path -> option AdjRIBOut.path)
         (sel : nat -> list (LocRIBClients.entry AdjRIBOut.path) -> list (LocRIBClients.entry AdjRIBOut.path) * nat)
         (tagf : AdjRIBOut.bgp -> N),
  LocRIBClientsSpec.sel_ok AdjRIBOut.path sel ->
  forall (cfgs : list (scfg P)) (evs : list event) (p : N),
  distinct_peers P cfgs ->
  Permutation (map ckey (candidates P (run P apply sel tagf cfgs evs) p))
              (map ckey (union_of_contributions P cfgs (run P apply sel tagf cfgs evs) p)).
Proof. intros P apply sel tagf Hsel cfgs evs p DP. apply Inv_union. now apply Inv_run. Qed.
Print Assumptions Pipeline_locrib_is_union_of_contributions.

(* 2. C04 + C08 (+ the selection of C02/C03 through sel), composed: for a session that is up, inside C08's guards
   on the views the Loc-RIB let it see (ss_hist - K1: no rewriting, K2: no unexportable arrival on add-path, K3: the
   export policy keeps candidates apart) and with no path-id allocation failure: the session is registered at the
   Loc-RIB with its options and its Adj-RIB-Out holds, per prefix, exactly the export view of the first 1/N selected
   candidates (visible = C04's want) - whatever the arrival order across sessions was (see 6). *)
Theorem Pipeline_ribout_is_export_of_selection :
  forall (P : Type) (apply : P -> N -> AdjRIBOut.path -> option AdjRIBOut.path)
         (sel : nat -> list (LocRIBClients.entry AdjRIBOut.path) -> list (LocRIBClients.entry AdjRIBOut.path) * nat)
         (tagf : AdjRIBOut.bgp -> N),
  LocRIBClientsSpec.sel_ok AdjRIBOut.path sel ->
  forall (cfgs : list (scfg P)) (evs : list event) (j : nat) (c : scfg P) (s : sst P),
  let st := run P apply sel tagf cfgs evs in
  locrib_paths_distinct P st ->
  nth_error cfgs j = Some c -> nth_error (ps_sess P st) j = Some s -> ss_up P s = true ->
  ExportViewSpec.guards (apply (sc_exp P c)) (sc_sess P c) (ss_hist P s) ->
  AdjRIBOut.errs (ss_out P s) = 0%N ->
  LocRIBClients.lookup j (LocRIBClients.clients (ps_loc P st)) = Some (sc_opts P c) /\
  forall p : N,
    Permutation (map (ExportViewSpec.norm (sc_sess P c)) (AdjRIBOut.tbl_get p (AdjRIBOut.tbl (ss_out P s))))
                (map (ExportViewSpec.norm (sc_sess P c))
                     (ExportViewSpec.export_view (apply (sc_exp P c)) (sc_sess P c) p
                        (visible (sc_opts P c) (ps_loc P st) (lpfx p)))).
Proof.
  intros P apply sel tagf Hsel cfgs evs j c s st HD. destruct (Oinv_run P apply sel tagf Hsel cfgs evs HD). now apply Oinv_ribout.
Qed.
Print Assumptions Pipeline_ribout_is_export_of_selection.

(* 3a. C10, composed: for every session, after any history (all interleavings of route changes on ANY session with
   this sender's Dequeue / EmitOne steps, End-of-RIB flushes of late registrations included): its sender is a run of
   the component model on the recorded labels, whose Add / Remove labels are exactly the calls its Adj-RIB-Out made on
   its client; under C10's four hypotheses on these labels, once the sender is drained the peer's view is what those
   calls amount to. *)
Theorem Pipeline_peer_view_is_announced :
  forall (P : Type) (apply : P -> N -> AdjRIBOut.path -> option AdjRIBOut.path)
         (sel : nat -> list (LocRIBClients.entry AdjRIBOut.path) -> list (LocRIBClients.entry AdjRIBOut.path) * nat)
         (tagf : AdjRIBOut.bgp -> N) (cfgs : list (scfg P)) (evs : list event) (j : nat) (c : scfg P) (s : sst P),
  nth_error cfgs j = Some c -> nth_error (ps_sess P (run P apply sel tagf cfgs evs)) j = Some s ->
  let ls := rev (ss_lab P s) in
  UpdateSender.run (sc_us P c) ls = Some (ss_us P s) /\
  filter route_label ls = client_calls P tagf (ss_out P s) /\
  (UpdateSenderSpec.client_protocol (sc_us P c) ls -> UpdateSenderSpec.hash_faithful (sc_us P c) ls ->
   UpdateSenderSpec.all_fit (sc_us P c) ls -> UpdateSenderSpec.no_withdraw_in_flight (sc_us P c) ls ->
   drained P s = true ->
   forall p pid, peer_view P s p pid =
                 UpdateSenderSpec.adj_rib_out (sc_us P c) (client_calls P tagf (ss_out P s)) (upfx p) pid).
Proof.
  intros P apply sel tagf cfgs evs j c s Hc Hs ls. pose proof (Uinv_run P apply sel tagf cfgs evs j c s Hc Hs) as HU.
  split; [exact (proj1 HU)|]. split; [exact (proj2 (proj2 HU))|]. now apply Usess_peer_view.
Qed.
Print Assumptions Pipeline_peer_view_is_announced.

(* 3b. End to end: under the guards of 2 and 3a and the interface condition log_tracks_table, once the sender of a
   session that is up is drained, the peer's view is the session's Adj-RIB-Out entry by entry (keyed_table), and that
   table is the export view of the first 1/N selected candidates - i.e. (with 1) the export of the selection over the
   union of the current announcements. *)
Theorem Pipeline_peer_view_converges :
  forall (P : Type) (apply : P -> N -> AdjRIBOut.path -> option AdjRIBOut.path)
         (sel : nat -> list (LocRIBClients.entry AdjRIBOut.path) -> list (LocRIBClients.entry AdjRIBOut.path) * nat)
         (tagf : AdjRIBOut.bgp -> N),
  LocRIBClientsSpec.sel_ok AdjRIBOut.path sel ->
  forall (cfgs : list (scfg P)) (evs : list event) (j : nat) (c : scfg P) (s : sst P),
  let st := run P apply sel tagf cfgs evs in
  let ls := rev (ss_lab P s) in
  locrib_paths_distinct P st ->
  nth_error cfgs j = Some c -> nth_error (ps_sess P st) j = Some s -> ss_up P s = true ->
  ExportViewSpec.guards (apply (sc_exp P c)) (sc_sess P c) (ss_hist P s) -> AdjRIBOut.errs (ss_out P s) = 0%N ->
  UpdateSenderSpec.client_protocol (sc_us P c) ls -> UpdateSenderSpec.hash_faithful (sc_us P c) ls ->
  UpdateSenderSpec.all_fit (sc_us P c) ls -> UpdateSenderSpec.no_withdraw_in_flight (sc_us P c) ls ->
  log_tracks_table P tagf (sc_us P c) (ss_out P s) ->
  drained P s = true ->
  (forall p pid, peer_view P s p pid = keyed_table P tagf (sc_us P c) (ss_out P s) p pid) /\
  (forall p : N,
     Permutation (map (ExportViewSpec.norm (sc_sess P c)) (AdjRIBOut.tbl_get p (AdjRIBOut.tbl (ss_out P s))))
                 (map (ExportViewSpec.norm (sc_sess P c))
                      (ExportViewSpec.export_view (apply (sc_exp P c)) (sc_sess P c) p
                         (visible (sc_opts P c) (ps_loc P st) (lpfx p))))).
Proof.
  intros P apply sel tagf Hsel cfgs evs j c s st ls HD Hc Hs. destruct (Oinv_run P apply sel tagf Hsel cfgs evs HD) as [HO HR].
  exact (Oinv_peer_view_converges P apply tagf cfgs st j c s HO HR (Uinv_run P apply sel tagf cfgs evs j c s Hc Hs) Hc Hs).
Qed.
Print Assumptions Pipeline_peer_view_converges.

(* 4. After SessionDown i - and as long as i stays down - nothing learned from i is a candidate of any prefix, hence
   (visible is a prefix of the candidates) nothing learned from i is shown to any session: by 2 and 3 its Adj-RIB-Out
   and, once drained, its peer's view are the export of paths learned from other sessions only. *)
Theorem Pipeline_session_down_removes_contribution :
  forall (P : Type) (apply : P -> N -> AdjRIBOut.path -> option AdjRIBOut.path)
         (sel : nat -> list (LocRIBClients.entry AdjRIBOut.path) -> list (LocRIBClients.entry AdjRIBOut.path) * nat)
         (tagf : AdjRIBOut.bgp -> N),
  LocRIBClientsSpec.sel_ok AdjRIBOut.path sel ->
  forall (cfgs : list (scfg P)) (evs : list event) (i : nat) (c : scfg P) (s : sst P),
  let st := run P apply sel tagf cfgs evs in
  distinct_peers P cfgs ->
  nth_error cfgs i = Some c -> nth_error (ps_sess P st) i = Some s -> ss_up P s = false ->
  forall (p : N) (x : AdjRIBOut.path),
    (In x (candidates P st p) -> src_of x <> Some (sc_ip P c)) /\
    (forall o, In x (visible o (ps_loc P st) (lpfx p)) -> src_of x <> Some (sc_ip P c)).
Proof. intros P apply sel tagf Hsel cfgs evs i c s st DP. apply Inv_session_down; [exact DP|now apply Inv_run]. Qed.
Print Assumptions Pipeline_session_down_removes_contribution.

(* 5. Non-interference: an event of session k never changes what another session's Adj-RIB-In holds, whom it serves,
   what it told its clients, its policy or its attributes (icore); announcements, withdrawals and sender steps of k
   leave every other session's receiving half untouched altogether; only a session coming up or going down is seen
   by the others, through the VRF's contributing ASN / cluster-id refcounters. *)
Theorem Pipeline_noninterference :
  forall (P : Type) (apply : P -> N -> AdjRIBOut.path -> option AdjRIBOut.path)
         (sel : nat -> list (LocRIBClients.entry AdjRIBOut.path) -> list (LocRIBClients.entry AdjRIBOut.path) * nat)
         (tagf : AdjRIBOut.bgp -> N) (cfgs : list (scfg P)) (st : pst P) (ev : event) (j : nat),
  ev_session ev <> j ->
  nth_error (map icore (map (inpart P) (ps_sess P (step P apply sel tagf cfgs st ev)))) j =
  nth_error (map icore (map (inpart P) (ps_sess P st))) j /\
  match ev with
  | EUp _ | EDown _ => True
  | _ => nth_error (map (inpart P) (ps_sess P (step P apply sel tagf cfgs st ev))) j = nth_error (map (inpart P) (ps_sess P st)) j
  end.
Proof. exact noninterference. Qed.
Print Assumptions Pipeline_noninterference.

(* 6. C02, composed: two pipelines - configurations, histories, arrival orders across sessions and the (admissible)
   selections may all differ - whose candidates of a prefix are the same multiset for the decision process hold them
   with the same key list and ECMP count; if no two candidates tie, both Loc-RIBs show every client the same paths
   (hence, by 2, the Adj-RIB-Outs of equally configured sessions agree). *)
Theorem Pipeline_selection_order_independent :
  forall (P1 P2 : Type) apply1 apply2 sel1 sel2 tagf1 tagf2 (cfgs1 : list (scfg P1)) (cfgs2 : list (scfg P2)) evs1 evs2 p,
  sel_decides sel1 -> sel_decides sel2 ->
  let st1 := run P1 apply1 sel1 tagf1 cfgs1 evs1 in
  let st2 := run P2 apply2 sel2 tagf2 cfgs2 evs2 in
  Permutation (map wp_of (candidates P1 st1 p)) (map wp_of (candidates P2 st2 p)) ->
  map PathSelSpec.pkey (map ps_of (candidates P1 st1 p)) = map PathSelSpec.pkey (map ps_of (candidates P2 st2 p)) /\
  LocRIBClients.ecmp (LocRIBClients.route_at (ps_loc P1 st1) (lpfx p)) =
  LocRIBClients.ecmp (LocRIBClients.route_at (ps_loc P2 st2) (lpfx p)) /\
  (NoDup (map PathSelSpec.pkey (map ps_of (candidates P1 st1 p))) ->
   Permutation (candidates P1 st1 p) (candidates P2 st2 p) ->
   forall o, visible o (ps_loc P1 st1) (lpfx p) = visible o (ps_loc P2 st2) (lpfx p)).
Proof.
  intros P1 P2 apply1 apply2 sel1 sel2 tagf1 tagf2 cfgs1 cfgs2 evs1 evs2 p D1 D2. apply sorted_order_independent; now apply LSorted_run.
Qed.
Print Assumptions Pipeline_selection_order_independent.

(* ---- the end-to-end statement without log_tracks_table is false on the current code (known finding
   addpath-duplicate-export-withdrawn-while-copy-remains): a drained add-path session whose Adj-RIB-Out holds a route
   for prefix 0 under path id 1 while the peer was told to withdraw it. *)
Theorem Pipeline_peer_view_converges_refuted_duplicate :
  let s := ex_sess_at dup_state 1 in
  let c := nth 1 dup_cfgs (ex_scfg true false 0 0 (fun _ _ => None)) in
  ss_up AdjRIBOut.chain s = true /\ drained AdjRIBOut.chain s = true /\
  AdjRIBOut.errs (ss_out AdjRIBOut.chain s) = 0%N /\
  keyed_table AdjRIBOut.chain ex_tagf (sc_us AdjRIBOut.chain c) (ss_out AdjRIBOut.chain s) 0%N 1%N = Some 167772379303809%N /\
  peer_view AdjRIBOut.chain s 0%N 1%N = None /\
  ~ log_tracks_table AdjRIBOut.chain ex_tagf (sc_us AdjRIBOut.chain c) (ss_out AdjRIBOut.chain s).
Proof.
  cbv zeta.
  assert (K : keyed_table AdjRIBOut.chain ex_tagf
                (sc_us AdjRIBOut.chain (nth 1 dup_cfgs (ex_scfg true false 0 0 (fun _ _ => None))))
                (ss_out AdjRIBOut.chain (ex_sess_at dup_state 1)) 0%N 1%N = Some 167772379303809%N) by (vm_compute; reflexivity).
  repeat split; try (vm_compute; reflexivity).
  intros H. specialize (H 0%N 1%N). rewrite K in H. vm_compute in H. discriminate.
Qed.
Print Assumptions Pipeline_peer_view_converges_refuted_duplicate.

(* ---- Examples (Spec/PipelineSpec.v: ex_cfgs = two route-server clients that announce prefix 1, the second one's
   import policy sets LOCAL_PREF 300, and an iBGP listener; selection: highest LOCAL_PREF). *)

(* the selection of the examples meets the hypothesis of 1-4 *)
Example Pipeline_example_sel_ok : LocRIBClientsSpec.sel_ok AdjRIBOut.path ex_sel.
Proof. exact ex_sel_ok. Qed.

(* 1: both announcements are candidates, the rewritten one (LOCAL_PREF 300) first; the union of contributions is the
   same two paths; after the second client went down only the first client's path is left *)
Example Pipeline_example_locrib :
  map lp_of (candidates _ (ex_run (ex_evs1 ++ ex_drain2a)) 1%N) = [300%N; 100%N] /\
  Permutation (candidates _ (ex_run (ex_evs1 ++ ex_drain2a)) 1%N)
              (union_of_contributions _ ex_cfgs (ex_run (ex_evs1 ++ ex_drain2a)) 1%N) /\
  map src_of (candidates _ (ex_run (ex_evs1 ++ ex_drain2a ++ [EDown 1])) 1%N) = [Some 167772161%N] /\
  distinct_peers _ ex_cfgs.
Proof.
  split; [vm_compute; reflexivity|]. split; [vm_compute; apply perm_swap|]. split; [vm_compute; reflexivity|].
  vm_compute. repeat constructor; cbn; intuition discriminate.
Qed.

(* 2/3: the listener's Adj-RIB-Out holds the export of the best candidate; once its sender is drained its peer has
   exactly that route (the tag of the LOCAL_PREF-300 path); after the second client went down and the sender was
   drained again, the peer has the first client's path instead, and no candidate is learned from the second client *)
Example Pipeline_example_end_to_end :
  let st1 := ex_run (ex_evs1 ++ ex_drain2a) in
  let st2 := ex_run (ex_evs1 ++ ex_drain2a ++ [EDown 1] ++ ex_drain2b) in
  map (fun e => (fst e, lp_of (snd e))) (AdjRIBOut.tbl (ss_out _ (ex_sess_at st1 2))) = [(1%N, 300%N)] /\
  drained _ (ex_sess_at st1 2) = true /\
  peer_view _ (ex_sess_at st1 2) 1%N 0%N = Some (ex_tagf_of 201326594 300 167772162) /\
  drained _ (ex_sess_at st2 2) = true /\
  peer_view _ (ex_sess_at st2 2) 1%N 0%N = Some (ex_tagf_of 201326593 100 167772161) /\
  ss_up _ (ex_sess_at st2 1) = false /\
  locrib_paths_distinct _ st2.
Proof.
  cbv zeta. repeat split; try (vm_compute; reflexivity).
  vm_compute. repeat constructor; cbn; intuition discriminate.
Qed.

(* 5: the announcement of client 1 leaves client 0's receiving half untouched *)
Example Pipeline_example_noninterference :
  let st := ex_run ex_evs1 in
  AdjRIBIn.tab (ss_in _ (ex_sess_at (step _ AdjRIBOut.interp ex_sel ex_tagf ex_cfgs st (EAnnounce 1 2%N (ex_path 201326595 65102))) 0)) =
  AdjRIBIn.tab (ss_in _ (ex_sess_at st 0)) /\
  length (AdjRIBIn.tab (ss_in _ (ex_sess_at st 0))) = 1.
Proof. cbv zeta. split; vm_compute; reflexivity. Qed.

(* 3b is not vacuous: on the example (the listener after both clients announced and its sender was drained) every
   hypothesis of Pipeline_peer_view_converges holds - C08's guards on the recorded views, C10's four hypotheses on the
   recorded labels, the interface condition - and the theorem gives the peer's view and the table *)
Example Pipeline_example_applies :
  (forall p pid, peer_view _ ex_s2 p pid = keyed_table _ ex_tagf (sc_us _ ex_c2) (ss_out _ ex_s2) p pid) /\
  peer_view _ ex_s2 1%N 0%N = Some (ex_tagf_of 201326594 300 167772162).
Proof.
  destruct ex_state_facts as [HD [Hc [Hs [Hu [HE Hdr]]]]].
  destruct ex_c10_guards as [G1 [G2 [G3 G4]]].
  split; [|vm_compute; reflexivity].
  exact (proj1 (Pipeline_peer_view_converges _ AdjRIBOut.interp ex_sel ex_tagf ex_sel_ok ex_cfgs (ex_evs1 ++ ex_drain2a) 2 ex_c2 ex_s2
                  HD Hc Hs Hu ex_guards_hold HE G1 G2 G3 G4 ex_log_tracks Hdr)).
Qed.
