(* C27 - A monitored router cannot crash or exhaust the BMP receiver.
   Only statements here; proofs live in Proofs/BMPCodecProofs.v and Proofs/BMPServeProofs.v.
   The model (Model/BMPCodec.v, Model/BMPRouter.v) is Router.serve on a connection that delivers the
   byte stream s and then ends: recvBMPMsg framing, packet.Decode, processMsg and its handlers,
   cleanup. Byte strings are lists of numbers below 256 (bytes_ok). The BGP layer below BMP
   (decoding of the OPENs of a peer up, decode + application of the BGP message of a route
   monitoring message) is a pair of arbitrary total functions: the theorems hold for every choice. *)
From Coq Require Import List NArith.
Import ListNotations.
From BioVerif Require Import Model.BMPCodec Model.BMPRouter Proofs.BMPCodecProofs Proofs.BMPServeProofs.
Open Scope N_scope.

(* No byte stream makes the session panic: neither the framing (slice bounds on short or huge length
   fields), nor a decoder, nor a handler (empty reason TLV, OPENs that disagree with the per-peer
   header, route monitoring carrying anything) - from any router state, under any configuration. *)
Theorem C27_no_panic :
  forall (open_decode : bytes -> option open_info) (upd_apply : bool -> bool -> bool -> bytes -> list uevent)
         (c : cfg) (st : rstate) (s : bytes),
  bytes_ok s ->
  forall k f, serve open_decode upd_apply c st s <> SPanic k f.
Proof. intros od ua c st s _. exact (proj1 (serve_no_panic od ua c st s)). Qed.
Print Assumptions C27_no_panic.

(* The session is never wedged: serve returns (after cleanup) on every stream, having handed
   `frames` messages to processMsg, each of which consumed at least its 6 byte header. *)
Theorem C27_serve_returns :
  forall (open_decode : bytes -> option open_info) (upd_apply : bool -> bool -> bool -> bytes -> list uevent)
         (c : cfg) (st : rstate) (s : bytes),
  bytes_ok s ->
  exists st' cost frames,
    serve open_decode upd_apply c st s = SDone st' cost frames /\ 6 * frames <= len s /\
    cost <= 8 * len s + 5800 * (frames + 1).
Proof.
  intros od ua c st s Hb. destruct (serve_total od ua c st s) as (st' & k & n & E & A & B).
  exists st', k, n. auto.
Qed.
Print Assumptions C27_serve_returns.

(* Every loop consumes input: the loops of the model run on fuel (the length of what is left to
   read, plus one) and never exhaust it; a framed message takes at least 6 bytes off the stream. *)
Theorem C27_fuel :
  (forall (open_decode : bytes -> option open_info) (upd_apply : bool -> bool -> bool -> bytes -> list uevent)
          (c : cfg) (st : rstate) (s : bytes),
     bytes_ok s -> serve open_decode upd_apply c st s <> SFuel) /\
  (forall s, recv s <> RFuel) /\
  (forall s m rest k, recv s = RMsg m rest k -> len rest + 6 <= len s) /\
  (forall msg, framed msg -> fst (decode msg) <> Fuel).
Proof. exact fuel_suffices. Qed.
Print Assumptions C27_fuel.

(* Allocation of the BMP layer (receive buffers, every make/append whose size comes from the
   input, binary.Read's scratch slices) is proportional to the bytes received:
   at most 8 bytes per byte received plus 5800 per message (4096 of which is the receive buffer),
   hence at most 975 * length + 5800 whatever the length fields, counts and TLV lengths say. *)
Theorem C27_alloc_proportional :
  forall (open_decode : bytes -> option open_info) (upd_apply : bool -> bool -> bool -> bytes -> list uevent)
         (c : cfg) (st : rstate) (s : bytes) (st' : rstate) (cost frames : N),
  bytes_ok s ->
  serve open_decode upd_apply c st s = SDone st' cost frames ->
  cost <= 975 * len s + 5800.
Proof. exact serve_alloc_linear. Qed.
Print Assumptions C27_alloc_proportional.

(* Non-vacuity: streams that made the code before the fixes panic or allocate 4 GiB are served. *)
Definition no_open (_ : bytes) : option open_info := None.
Definition no_events (_ _ _ : bool) (_ : bytes) : list uevent := [].
Definition dflt : cfg := mk_cfg [] false false.

(* message length 3 < 6; message length 2^32-1 on a 6 byte stream; termination message with an empty
   reason TLV: all end the session without a panic, with a small allocation *)
Example C27_example_short_length :
  serve no_open no_events dflt init [3; 0; 0; 0; 3; 4] = SDone init 4096 0.
Proof. vm_compute. reflexivity. Qed.
Example C27_example_huge_length :
  serve no_open no_events dflt init [3; 255; 255; 255; 255; 4] = SDone init 4096 0.
Proof. vm_compute. reflexivity. Qed.
Example C27_example_empty_reason :
  exists st, serve no_open no_events dflt init [3; 0; 0; 0; 10; 5; 0; 1; 0; 0] = SDone st 8192 1
             /\ r_counters st = [0; 0; 0; 0; 0; 1; 0].
Proof. eexists. vm_compute. split; reflexivity. Qed.
(* a statistics report announcing 2^32-1 counters in 4 bytes is rejected before anything is sized by it *)
Example C27_example_stats_count :
  snd (decode ([3; 0; 0; 0; 52; 1] ++ repeat 0 42 ++ [255; 255; 255; 255])) = 0.
Proof. vm_compute. reflexivity. Qed.
(* ... and so is a count of 2^30, whose 4-fold is 0 modulo 2^32: the check multiplies in 64 bits *)
Example C27_example_stats_count_wrap :
  snd (decode ([3; 0; 0; 0; 52; 1] ++ repeat 0 42 ++ [64; 0; 0; 0])) = 0 /\
  snd (decode ([3; 0; 0; 0; 56; 1] ++ repeat 0 42 ++ [64; 0; 0; 1; 0; 1; 0; 0])) = 0.
Proof. vm_compute. split; reflexivity. Qed.
