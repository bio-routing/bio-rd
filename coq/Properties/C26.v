(* C26 - The RIB pipeline and session layer are free of data races.
   PARTIAL (DESIGN.md 3.3, 6, 8): lock-set discipline over the access table that tools/locktab
   regenerates from the Go source on every run, for the mutex-protected shared fields listed in
   Spec/LockSpec.v (guarded_fields); the goroutine-confined session fields (confined_fields) are
   not claimed.  The Go memory model enters as "a mutex release happens before the next acquire". *)
From Coq Require Import List NArith.
Import ListNotations.
From BioVerif Require Import Model.LockSem Gen.LockModel Spec.LockSpec Proofs.LockProofs Proofs.LockInstance.

(* For every set of threads, schedule and trace length: two accesses to the same location by
   different threads, each made while holding the mutex m, are separated in the trace by a release
   of m by the first thread followed by an acquisition of m by the second. *)
Theorem C26_lockset_discipline_orders_conflicts :
  forall ps tr1 s1 s1' tr2 s2 s2' i j x w1 w2 m,
    exec (init ps) tr1 s1 -> step s1 (i, Acc x w1) s1' ->
    exec s1' tr2 s2 -> step s2 (j, Acc x w2) s2' ->
    i <> j -> holds_at s1 i m -> holds_at s2 j m ->
    exists a b c, tr2 = a ++ (i, Rel m) :: b ++ (j, Acq m) :: c.
Proof. exact lockset_discipline_orders_conflicts. Qed.
Print Assumptions C26_lockset_discipline_orders_conflicts.

(* every access (outside constructors) to a guarded field holds the field's guard -- in write mode
   for a write --, except the listed sites (Spec/LockSpec.v: access_exceptions) *)
Theorem C26_lockset_consistent : forall a, In a accesses -> acc_ok a = true \/ acc_exc a <> None.
Proof. exact lockset_consistent. Qed.
Print Assumptions C26_lockset_consistent.

(* every field of RoutingTable, Route, LocRIB, AdjRIBIn, AdjRIBOut, ClientManager, UpdateSender, FSM,
   peer and fsmAddressFamily is guarded, or never written after publication, or one of the listed
   goroutine-confined session fields (which are outside the claim) *)
Theorem C26_fields_classified : forall f, In f field_names -> field_classified (fst f) = true.
Proof. exact (fun f _ => fields_classified (fst f)). Qed.
Print Assumptions C26_fields_classified.

(* the guard table refers to locks and fields that exist in the generated model *)
Theorem C26_guards_resolve : forall g, In g guarded_fields ->
  id_of lock_names (snd g) <> None /\ id_of field_names (fst g) <> None.
Proof. exact guards_resolve. Qed.
Print Assumptions C26_guards_resolve.

(* a table row that passes the check holds the guard *)
Theorem C26_row_holds_guard : forall a m, acc_ok a = true -> guard_map (fst (fst (fst a))) = Some m -> In m (snd a).
Proof. exact acc_ok_guard. Qed.
Print Assumptions C26_row_holds_guard.

(* ownership of inserted paths (locktab rule P): no call site hands the same *route.Path object to
   LocRIB.AddPath / AdjRIBIn.AddPath more than once (loop, twice) or writes it after the insertion,
   except the listed sites (none) *)
Theorem C26_no_shared_path_insertions : forall r, In r shared_path_sites -> shared_exc r <> None.
Proof. exact no_shared_path_insertions. Qed.
Print Assumptions C26_no_shared_path_insertions.

(* goroutine lifecycle (locktab rule J): every function that addresses a goroutine of its type through a channel
   or WaitGroup field waits for it (blocking rendezvous or WaitGroup.Wait) -- a teardown that only closes
   the channel is a violation row --, except the listed sites (none) *)
Theorem C26_goroutines_joined_on_teardown : forall r, In r goroutine_joins -> join_waits r = true \/ join_exc r <> None.
Proof. exact goroutines_joined_on_teardown. Qed.
Print Assumptions C26_goroutines_joined_on_teardown.

(* lifting: threads whose accesses to guarded fields all hold the guard (what the table says of every
   non-excepted site) never perform two accesses to a guarded field from different threads that are
   not ordered by release / acquire of its guard *)
Theorem C26_guarded_accesses_ordered_partial :
  forall ps tr1 s1 s1' tr2 s2 s2' i j x w1 w2 m,
    Forall (disciplined guard_map []) ps -> guard_map x = Some m ->
    exec (init ps) tr1 s1 -> step s1 (i, Acc x w1) s1' ->
    exec s1' tr2 s2 -> step s2 (j, Acc x w2) s2' -> i <> j ->
    exists a b c, tr2 = a ++ (i, Rel m) :: b ++ (j, Acq m) :: c.
Proof. exact (disciplined_accesses_ordered guard_map). Qed.
Print Assumptions C26_guarded_accesses_ordered_partial.

(* non-vacuity: without a guard two conflicting accesses can be adjacent in a trace *)
Example C26_example_unguarded_unordered :
  let ps := [[Acc 0%N true]; [Acc 0%N false]] in
  exists s, exec (init ps) [(0%nat, Acc 0%N true); (1%nat, Acc 0%N false)] s.
Proof. exact unguarded_accesses_unordered. Qed.
