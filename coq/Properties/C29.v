(* C29 - The merged RIB holds a route exactly while some source advertises it. *)
From Coq Require Import List NArith.
Import ListNotations.
From BioVerif Require Import Model.Merged Spec.MergedSpec Proofs.MergedProofs.

(* For every history of advertisements (repeated ones included), withdrawals and source drops
   over any sources and routes: the route is installed in the Loc-RIB below the merged table
   iff at least one source currently advertises it ... *)
Theorem C29_present_iff_advertised : forall (ops : list op) (r : rid),
  In r (rib (run ops)) <-> advertised (spec_run ops) r.
Proof. intros ops r. apply Inv_present, run_inv. Qed.
Print Assumptions C29_present_iff_advertised.

(* ... it is installed exactly once (one AddPath per presence, so one RemovePath clears it) ... *)
Theorem C29_present_once : forall ops : list op, NoDup (rib (run ops)).
Proof. intros ops. exact (inv_nd _ _ (run_inv ops)). Qed.
Print Assumptions C29_present_once.

(* ... and the per-route source sets are exactly the current advertisers. *)
Theorem C29_sources_exact : forall (ops : list op) (s : src) (r : rid),
  In s (sources_of (run ops) r) <-> In (s, r) (spec_run ops).
Proof. intros ops. exact (inv_src _ _ (run_inv ops)). Qed.
Print Assumptions C29_sources_exact.

(* Presence is per route identity: whether route r is installed depends only on the advertisements and
   withdrawals of r itself and on the source drops - advertisements and withdrawals of OTHER routes
   (however similar: same prefix, paths that best-path selection treats as equal) never shadow it. *)
Theorem C29_presence_per_route_identity : forall (ops : list op) (r : rid),
  In r (rib (run ops)) <-> In r (rib (run (filter (about r) ops))).
Proof.
  intros ops r. rewrite !C29_present_iff_advertised.
  pose proof (spec_run_about r ops [] [] (fun s => iff_refl _)) as E.
  split; intros [s H]; exists s; apply E, H.
Qed.
Print Assumptions C29_presence_per_route_identity.

(* The RIS client glue (risclient.go: serviceLoop/processUpdate/processDownEvent) maps the stream
   events of client c to AddRoute/RemoveRoute/DropAllBySrc with ONE source key per client, so the
   merged table holds a route iff some client currently has it from its upstream (an ended stream
   forgets everything that client had learned). *)
Theorem C29_client_events_map_consistently : forall (evs : list event) (r : rid),
  In r (rib (run_events evs)) <-> exists c, In (c, r) (client_run evs).
Proof.
  intros evs r. unfold run_events, client_run. rewrite client_run_glue.
  apply C29_present_iff_advertised.
Qed.
Print Assumptions C29_client_events_map_consistently.

(* Non-vacuity: a history with a repeated advertisement followed by one withdrawal. *)
Example C29_example_repeated_add :
  rib (run [Add 1 7; Add 1 7; Remove 1 7])%N = [] /\
  rib (run [Add 1 7; Add 2 7; Remove 1 7])%N = [7%N].
Proof. split; reflexivity. Qed.

Example C29_example_stream_end :
  rib (run_events [Adv 0 1; Adv 0 2; Adv 1 2; StreamEnd 0])%N = [2%N] /\
  rib (run_events [Adv 0 1; Adv 0 2; Adv 1 2; StreamEnd 0; StreamEnd 1; Adv 0 1; Wd 0 1])%N = [].
Proof. split; reflexivity. Qed.
