(* C21 - Peer input cannot crash the speaker; errors are reported with NOTIFICATION.
   Model: Model/FSM.v ([recv_msg] = fsm.go:recvMsg with its slice arithmetic, [decode] = the part of
   packet.Decode that decides which NOTIFICATION is owed, [step]); specification of the owed
   NOTIFICATION: Spec/RFC4271Errors.v, written from RFC 4271 section 6. *)
From Coq Require Import List NArith.
Import ListNotations.
From BioVerif Require Import Model.FSM Spec.RFC4271Errors
  Proofs.FSMProofs Proofs.FSMSysProofs Proofs.FSMErrProofs.
Local Open Scope N_scope.

(* recvMsg does not slice out of range for any 16-bit header length, below 19 and above 4096
   included, however many octets follow ... *)
Theorem C21_no_panic : forall len avail : N, len < 65536 -> recv_msg len avail <> FrPanic.
Proof. intros len avail _. apply recv_msg_no_panic. Qed.
Print Assumptions C21_no_panic.

(* ... whereas the function as it was (without the length guard) panicked exactly for the lengths the
   property names. *)
Theorem C21_unguarded_panicked : forall len avail : N,
  recv_msg_unguarded len avail = FrPanic <-> (len < 19 \/ 4096 < len).
Proof. exact recv_msg_unguarded_panics. Qed.
Print Assumptions C21_unguarded_panicked.

(* No sequence of events - transmissions of any kind included - makes any handler crash. *)
Theorem C21_no_crash : forall (c : cfg) (es : list ev) (e : ev), ~ In Crash (snd (step c (final c es) e)).
Proof. intros c es e. apply step_no_crash, final_inv. Qed.
Print Assumptions C21_no_crash.

(* Whatever one session receives, the other sessions of the speaker keep their state, their routes
   and their Adj-RIB-Ins. *)
Theorem C21_other_sessions_untouched : forall (y : sys) (i : nat) (e : ev) (j : nat),
  i <> j ->
  nth_sess (y_sess (fst (sys_step y i e))) j = nth_sess (y_sess y) j /\
  rib_of (fst (sys_step y i e)) (N.of_nat j) = rib_of y (N.of_nat j) /\
  adjin_of (fst (sys_step y i e)) (N.of_nat j) = adjin_of y (N.of_nat j).
Proof. exact other_sessions_untouched. Qed.
Print Assumptions C21_other_sessions_untouched.

(* The decoder's classified errors are sound w.r.t. RFC 4271 section 6 ... *)
Theorem C21_error_codes_sound : forall (m : msg) (e : N * N), decode m = DErr (Some e) -> owes m e.
Proof. exact decode_owes. Qed.
Print Assumptions C21_error_codes_sound.

(* ... and, per error class, the NOTIFICATION with exactly that code and subcode is the first thing
   written, the connection is closed afterwards and the session is Idle and detached - in OpenSent,
   OpenConfirm and Established alike. *)
Theorem C21_notification : forall (c : cfg) (s : sess) (m : msg) (code sub : N),
  inv s -> listens s = true -> wr_ok s = true ->
  frame_of m = FrFrame ->
  decode m = DErr (Some (code, sub)) ->
  exists post,
    snd (step c s (EMsg m)) = SentNotification code sub :: post /\
    In Closed post /\
    s_st (fst (step c s (EMsg m))) = Idle /\ s_conn (fst (step c s (EMsg m))) = ConnClosed /\
    s_att (fst (step c s (EMsg m))) = false.
Proof.
  intros c s m code sub Hi Hl Hw Hf Hd.
  destruct (classified_error_exit c s m code sub Hl Hw Hf Hd) as (post & A & B & C & D).
  exists post. repeat split; try assumption.
  rewrite (inv_att _ (proj1 (step_refines c s (EMsg m) Hi))), C. reflexivity.
Qed.
Print Assumptions C21_notification.

(* Partial form of "every malformed message is answered with the RFC's NOTIFICATION": it holds for
   every malformed transmission of a classified kind (header errors of all three subcodes incl. the
   per-type length rules, OPEN with a wrong version, a zero identifier or hold time 1-2) ... *)
Theorem C21_malformed_notified_partial : forall (c : cfg) (s : sess) (m : msg),
  inv s -> listens s = true -> wr_ok s = true ->
  frame_of m = FrFrame -> classified m = true -> malformed m ->
  exists code sub post,
    owes m (code, sub) /\
    snd (step c s (EMsg m)) = SentNotification code sub :: post /\
    In Closed post /\
    s_st (fst (step c s (EMsg m))) = Idle /\ s_conn (fst (step c s (EMsg m))) = ConnClosed.
Proof.
  intros c s m _ Hl Hw Hf Hc Hm.
  destruct (malformed_classified m Hc Hm) as [[code sub] Hd].
  destruct (classified_error_exit c s m code sub Hl Hw Hf Hd) as (post & A & B & C & D).
  exists code, sub, post. repeat split; try assumption. apply decode_owes. exact Hd.
Qed.
Print Assumptions C21_malformed_notified_partial.

(* ... and the unguarded statement is refuted: a body that packet.Decode rejects with a plain error
   (OPEN optional parameters / capabilities, UPDATE attributes) closes the session without any
   NOTIFICATION (known finding, re-confirmed on the implementation by corpus/C21 on every run). *)
Theorem C21_malformed_notified_refuted :
  exists c s m,
    inv s /\ listens s = true /\ wr_ok s = true /\ frame_of m = FrFrame /\ malformed m /\
    forall code sub, ~ In (SentNotification code sub) (snd (step c s (EMsg m))).
Proof.
  exists wit_cfg, wit_sess, MBadBody.
  split; [apply (final_inv wit_cfg)|].
  split; [reflexivity|]. split; [reflexivity|]. split; [reflexivity|].
  split; [exists (3, 0); apply ow_body; right; reflexivity|].
  intros code sub H. vm_compute in H. destruct H as [H|[H|H]]; try discriminate; contradiction.
Qed.
Print Assumptions C21_malformed_notified_refuted.

(* Non-vacuity: an established session and three malformed transmissions. *)
Example C21_example_len_18 :
  snd (step wit_cfg wit_sess (EMsg (MHeader true 18 4 0))) = [SentNotification 1 2; Uninit; Closed].
Proof. reflexivity. Qed.
Example C21_example_len_4097 :
  snd (step wit_cfg wit_sess (EMsg (MHeader true 4097 2 100))) = [SentNotification 1 2; Uninit; Closed].
Proof. reflexivity. Qed.
Example C21_example_keepalive_len_20 :
  snd (step wit_cfg wit_sess (EMsg (MHeader true 20 4 1))) = [SentNotification 1 2; Uninit; Closed].
Proof. reflexivity. Qed.
