(* C28 - BMP receiver tables mirror the monitored sessions.
   Model: Model/BMPRouter.v over Model/BMPCodec.v (the very definitions C27 is about and the
   correspondence check runs). Spec: Spec/BMPMirrorSpec.v - the history is read, frame by frame, into
   a trace of session events (peer up with its add-path modes, peer down, route announced / withdrawn,
   reset = termination message or loss of the connection); `sess` says whether a peer is up, `live`
   whether a route was announced by it and since neither withdrawn (nor replaced) while it stayed up.
   Well-formed histories (wf): every frame is exactly one decodable BMP message, no frame follows a
   termination message on the same connection, a peer up arrives only for a peer that is not up, IPv4
   peer addresses have their 12 leading zero bytes, and the BGP layer (an arbitrary pair of functions: OPEN
   decoding, decode + application of UPDATEs) yields path identifier 0 on sessions without add-path and
   announces no path the pseudo session's Adj-RIB-In hides. Configurations: any IgnorePrePolicy /
   IgnorePostPolicy, no IgnorePeerASNs (C28_mirror_refuted shows what happens with them). *)
From Coq Require Import List NArith.
Import ListNotations.
From BioVerif Require Import Model.BMPCodec Model.BMPRouter Spec.BMPMirrorSpec
  Proofs.BMPTableLemmas Proofs.BMPMirrorProofs Proofs.BMPObserverProofs.
Open Scope N_scope.

(* The statement (mirror_holds, Proofs/BMPMirrorProofs.v): the router survives the history, and afterwards
   (1) for every peer k that is up (source address s): route y of family v6 is in the table of k's VRF,
       under s, exactly once if it is live and not at all otherwise;
   (2) every entry of every table is a live route of a peer of that VRF that is up.
   It holds for every well-formed history under every configuration without IgnorePeerASNs ... *)
Theorem C28_mirror_partial :
  forall (open_decode : bytes -> option open_info) (upd_apply : bool -> bool -> bool -> bytes -> list uevent)
         (c : cfg),
  ignore_asns c = [] ->
  forall acts, wf open_decode upd_apply c acts = true -> mirror_holds open_decode upd_apply c acts.
Proof. exact mirror. Qed.
Print Assumptions C28_mirror_partial.

(* ... and not for all configurations: with IgnorePeerASNs the router remembers ignored peers by address
   only, so a peer of another VRF with the same address is not mirrored either (known finding
   route-missing:address-shared-with-ignored-peer-of-other-vrf; witness in corpus/C28). *)
Theorem C28_mirror_refuted :
  exists open_decode upd_apply c acts,
    wf open_decode upd_apply c acts = true /\ ~ mirror_holds open_decode upd_apply c acts.
Proof.
  exists wit_open, (wit_apply (mk_pa false [65011] 0 [])), wit_cfg, wit_hist. split; [vm_compute; reflexivity|].
  intros (st & R & H1 & _). vm_compute in R. injection R as <-.
  specialize (H1 (1, 167772162) (false, 167772162) false false false 1 false ((1, 24), 0)).
  vm_compute in H1. specialize (H1 eq_refl). discriminate.
Qed.
Print Assumptions C28_mirror_refuted.

(* ... nor for announcements the Adj-RIB-In of the pseudo session hides (wf excludes them): an eBGP path
   without AS_PATH and a path whose ORIGINATOR_ID is the monitored router's own id are stored hidden and
   never reach the table (known findings route-missing:hidden-*; witnesses in corpus/C28). Paths with
   the monitored router's AS or cluster id in AS_PATH / CLUSTER_LIST are NOT hidden and are covered by
   C28_mirror_partial. *)
Theorem C28_mirror_hidden_refuted :
  exists open_decode upd_apply c acts,
    ignore_asns c = [] /\ ~ mirror_holds open_decode upd_apply c acts.
Proof.
  exists wit_open, (wit_apply (mk_pa true [] 0 [])), (mk_cfg [] false false), wit2_hist. split; [reflexivity|].
  intros (st & R & H1 & _). vm_compute in R. injection R as <-.
  specialize (H1 (1, 167772162) (false, 167772162) false false false 1 false ((1, 24), 0)).
  vm_compute in H1. specialize (H1 eq_refl). discriminate.
Qed.
Print Assumptions C28_mirror_hidden_refuted.

(* Nothing learned from a peer or session that is gone remains: tables hold routes of up peers only;
   right after a peer down of k its VRF's tables hold only routes of other peers; right after a
   termination message or the loss of the connection there is no neighbor and every table is empty
   (the VRFs themselves are gone). *)
Theorem C28_nothing_remains :
  forall (open_decode : bytes -> option open_info) (upd_apply : bool -> bool -> bool -> bytes -> list uevent)
         (c : cfg),
  ignore_asns c = [] ->
  forall acts st,
  wf open_decode upd_apply c acts = true ->
  run open_decode upd_apply c init acts = Some st ->
  (forall rd v6 e, In e (table st rd v6) ->
     exists addr x, sess (trace open_decode upd_apply c acts) (rd, addr) = Some x /\ fst (fst (fst (fst x))) = fst (fst e)) /\
  (forall k tr', trace open_decode upd_apply c acts = EDown k :: tr' ->
     forall v6 e, In e (table st (fst k) v6) ->
     exists addr x, addr <> snd k /\ sess tr' (fst k, addr) = Some x) /\
  (forall tr', trace open_decode upd_apply c acts = EReset :: tr' ->
     r_nbrs st = [] /\ forall rd v6, table st rd v6 = []).
Proof.
  intros od ua c Hign acts st Hwf Hrun. destruct (wf_inv od ua c Hign acts Hwf) as (st' & cl & R & I).
  rewrite Hrun in R. injection R as <-. exact (inv_remains _ _ _ I).
Qed.
Print Assumptions C28_nothing_remains.

(* Table observers are informed: for every history of arriving bytes (any bytes), observer
   registrations with distinct ids and connection losses that the router survives, every observer
   registered on a VRF table has been told - adds minus removes - exactly the table's content. *)
Theorem C28_observers_follow :
  forall (open_decode : bytes -> option open_info) (upd_apply : bool -> bool -> bool -> bytes -> list uevent)
         (c : cfg) (acts : list action) (st : rstate),
  NoDup (obs_ids acts) ->
  run open_decode upd_apply c init acts = Some st ->
  forall v w o x, In v (r_vrfs st) -> In o (obs w v) -> cnt x (view o (r_log st)) = cnt x (tab w v).
Proof.
  intros od ua c acts st Hd R. exact (oi_follow _ _ (run_oi od ua c acts init st (oi_init _) Hd R)).
Qed.
Print Assumptions C28_observers_follow.

(* ... and when the connection is lost (Router.cleanup, also run after a termination message) every
   registered observer is told Dispose and the VRFs are dropped. *)
Theorem C28_observers_disposed :
  forall (st : rstate) (o : N) (v : vrf) (w : bool), In v (r_vrfs st) -> In o (obs w v) ->
  disposed o (r_log (cleanup st)) = true /\ r_vrfs (cleanup st) = [].
Proof.
  intros st o v w Hv Ho. rewrite cleanup_eq. exact (conj (dispose_vrfs_tells st o v w Hv Ho) eq_refl).
Qed.
Print Assumptions C28_observers_disposed.

(* ---- Non-vacuity: a concrete well-formed history on an add-path session. The BGP layer is a toy:
   every OPEN announces add-path send/receive for IPv4 and the AS in its bytes 20-21; a carried BGP
   message [1; p; i] announces p/24 with path id i, [2; p; i] withdraws it. *)
Definition ex_open (b : bytes) : option open_info :=
  Some (mk_open (be (firstn 2 (skipn 20 b))) 1 [] [(1, 1, 3)]).
(* an ordinary path, and one whose AS_PATH contains the monitored router's own AS 65001 (a real session's
   Adj-RIB-In would hide it as an AS loop; the BMP mirror stores what was reported) *)
Definition ex_attrs : pattrs := mk_pa false [65010; 65001; 65100] 0 [65001].
Definition ex_apply (_ _ _ : bool) (b : bytes) : list uevent :=
  match b with
  | [1; p; i] => [UAnn false (p, 24) i ex_attrs]
  | [2; p; i] => [UWdr false (p, 24) i]
  | _ => []
  end.
Definition ex_cfg : cfg := mk_cfg [] false false.
Definition ex_hdr (l t : N) : bytes := [3; 0; 0; 0; l; t].
(* peer 10.0.0.2, AS 65010, global VRF *)
Definition ex_pph : bytes := [0; 0] ++ repeat 0 8 ++ repeat 0 12 ++ [10; 0; 0; 2] ++ [0; 0; 253; 242] ++ repeat 0 12.
Definition ex_openmsg (hi lo : N) : bytes := repeat 255 16 ++ [0; 29; 1; 4; hi; lo; 0; 180; 1; 1; 1; 1; 0].
Definition ex_up : bytes :=
  ex_hdr 126 3 ++ ex_pph ++ repeat 0 16 ++ [0; 179; 156; 64] ++ ex_openmsg 253 233 ++ ex_openmsg 253 242.
Definition ex_rm (k p i : N) : bytes := ex_hdr 51 0 ++ ex_pph ++ [k; p; i].
Definition ex_down : bytes := ex_hdr 49 2 ++ ex_pph ++ [4].
Definition ex_peer : src := (false, 167772162).

Definition ex_hist : list action :=
  [AFrame ex_up; AObserve 7 0 false; AFrame (ex_rm 1 1 1); AFrame (ex_rm 1 1 2); AFrame (ex_rm 2 1 1)].

(* two paths of 1.0.0.0/24 announced, path 1 withdrawn: path 2 is there, the observer saw it all *)
Example C28_example_addpath :
  wf ex_open ex_apply ex_cfg ex_hist = true /\
  exists st, run ex_open ex_apply ex_cfg init ex_hist = Some st /\
    table st 0 false = [(ex_peer, (1, 24), 2)] /\ view 7 (r_log st) = [(ex_peer, (1, 24), 2)] /\
    live (trace ex_open ex_apply ex_cfg ex_hist) (0, 167772162) false ((1, 24), 2) = true /\
    live (trace ex_open ex_apply ex_cfg ex_hist) (0, 167772162) false ((1, 24), 1) = false.
Proof. split; [vm_compute; reflexivity|]. eexists. vm_compute. repeat split; reflexivity. Qed.

(* after the peer down nothing of the peer remains and the observer was told so; after the loss of
   the connection the observer has been disposed and the VRF is gone *)
Example C28_example_peer_down :
  exists st, run ex_open ex_apply ex_cfg init (ex_hist ++ [AFrame ex_down]) = Some st /\
    wf ex_open ex_apply ex_cfg (ex_hist ++ [AFrame ex_down]) = true /\
    table st 0 false = [] /\ view 7 (r_log st) = [] /\ r_nbrs st = [] /\ disposed 7 (r_log st) = false.
Proof. eexists. vm_compute. repeat split; reflexivity. Qed.
Example C28_example_conn_loss :
  exists st, run ex_open ex_apply ex_cfg init (ex_hist ++ [AConnLoss]) = Some st /\
    r_vrfs st = [] /\ r_nbrs st = [] /\ disposed 7 (r_log st) = true.
Proof. eexists. vm_compute. repeat split; reflexivity. Qed.
