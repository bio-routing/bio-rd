(* C11 - Add-path identifiers are unique per prefix and never exhausted spuriously. Export policies are any
   type P with any evaluation function `apply` (P -> prefix -> path -> accepted path or reject); ops is any
   history of AddPath / RemovePath / ReplaceFilterChain calls (Model.AdjRIBOut.op) - in particular the call
   streams a Loc-RIB produces for the session as a client. *)
From Coq Require Import List NArith.
Import ListNotations.
From BioVerif Require Import Model.PathIDs Model.AdjRIBOut Spec.AroIDsSpec
  Proofs.AroIDsProofs.

(* Any two paths held by the Adj-RIB-Out (for one prefix or for two) that carry the same path
   identifier are the same announcement: two different paths advertised for a prefix carry different ids. *)
Theorem C11_ids_unique :
  forall (P : Type) (apply : P -> N -> path -> option path) (s : sess),
  s_addpath s = true ->
  forall (c : P) (ops : list (op P)) pfx1 pfx2 r1 b1 r2 b2,
  let a := run P apply s c ops in
  In (pfx1, PBgp r1 b1) (tbl a) -> In (pfx2, PBgp r2 b2) (tbl a) ->
  b_pid b1 = b_pid b2 -> same_announcement b1 b2.
Proof. intros P apply s Hap c ops. intros. eapply ids_unique; [apply (run_inv P apply s Hap)|eassumption..]. Qed.
Print Assumptions C11_ids_unique.

(* What the table holds is what the clients (the update sender) were told: every stored path is a BGP
   path that was announced for that prefix exactly as stored, identifier included. *)
Theorem C11_table_is_announced :
  forall (P : Type) (apply : P -> N -> path -> option path) (s : sess),
  s_addpath s = true ->
  forall (c : P) (ops : list (op P)) pfx p,
  let a := run P apply s c ops in
  In (pfx, p) (tbl a) -> (exists r b, p = PBgp r b) /\ In (Announce pfx p) (elog a).
Proof. intros P apply s Hap c ops pfx p. apply table_announced, (run_inv P apply s Hap). Qed.
Print Assumptions C11_table_is_announced.

(* A withdrawal carries the identifier its path was announced with: every Withdraw the clients see was
   preceded (elog is newest first) by an Announce of exactly that path - attributes and identifier -
   for the same prefix ... *)
Theorem C11_withdraw_id :
  forall (P : Type) (apply : P -> N -> path -> option path) (s : sess),
  s_addpath s = true ->
  forall (c : P) (ops : list (op P)) l1 l2 pfx w,
  elog (run P apply s c ops) = l1 ++ Withdraw pfx w :: l2 -> In (Announce pfx w) l2.
Proof. intros P apply s Hap c ops. apply (I_wd P _ (run_inv P apply s Hap c ops)). Qed.
Print Assumptions C11_withdraw_id.

(* ... and the path withdrawn is the stored announcement of the path whose removal was requested (the
   same path in the sense of Path.Compare, with the identifier the Adj-RIB-Out assigned). *)
Theorem C11_withdraw_is_of_requested_path :
  forall (P : Type) (s : sess),
  s_addpath s = true ->
  forall (a a' : aro P) pfx p,
  remove_exported P s a pfx p = (a', true) -> Inv P a ->
  exists sp, In (pfx, sp) (tbl a) /\ is_announcement_of sp p = true /\
             elog a' = Withdraw pfx sp :: elog a.
Proof. intros P s Hap a a' pfx p H I. exact (proj2 (remove_exported_inv P s Hap a pfx p I) a' H). Qed.
Print Assumptions C11_withdraw_is_of_requested_path.

(* The in-use counter is exactly the number of distinct announcements stored (invariant
   used = |ids in use|), the identifier search always terminates, and whenever fewer than 2^32-1
   identifiers are in use an allocation - for a known or a new announcement k - succeeds. *)
Theorem C11_no_spurious_exhaustion :
  forall (P : Type) (apply : P -> N -> path -> option path) (s : sess),
  s_addpath s = true ->
  forall (c : P) (ops : list (op P)) (k : hkey),
  let a := run P apply s c ops in
  used (pm a) = N.of_nat (ids_in_use (tbl a)) /\
  diverged a = false /\
  (N.lt (N.of_nat (ids_in_use (tbl a))) max32 ->
   exists m' i, pid_add hkey hkey_eq_dec k (pm a) = (m', AddOk i)).
Proof.
  intros P apply s Hap c ops k a. pose proof (run_inv P apply s Hap c ops) as I.
  split; [exact (proj2 (used_exact P a I))|]. split; [exact (I_div P a I)|]. now apply no_spurious_exhaustion.
Qed.
Print Assumptions C11_no_spurious_exhaustion.

(* Non-vacuity: an iBGP add-path session; the same path for two prefixes shares identifier 1, a path
   differing only in OTC gets identifier 2, and after both prefixes withdrew the shared path a new
   announcement still gets an identifier (the pre-fix code answered "out of path IDs" here). *)
Definition ex_sess : sess := mkSess true false false true 65000 16843009 33686018 9 false 0.
Definition ex_b (otc med : N) : bgp :=
  mkBgp 50529027 50529027 100 med 50529027 0 None true false 0 otc [(true, [65001%N])] 1 None None None [] 0.
Definition ex_ops : list (op chain) :=
  [OAdd 0 (PBgp 0 (ex_b 0 0)); OAdd 1 (PBgp 0 (ex_b 0 0)); OAdd 0 (PBgp 0 (ex_b 5 0));
   ORemove 0 (PBgp 0 (ex_b 0 0)); ORemove 1 (PBgp 0 (ex_b 0 0)); OAdd 1 (PBgp 0 (ex_b 0 7))]%N.

Example C11_example :
  let a := run chain interp ex_sess [] ex_ops in
  map (fun e => (fst e, match snd e with PBgp _ b => b_pid b | _ => 0%N end)) (tbl a) = [(0, 2); (1, 3)]%N /\
  used (pm a) = 2%N /\ errs a = 0%N /\ length (elog a) = 6%nat.
Proof. vm_compute. repeat split. Qed.
