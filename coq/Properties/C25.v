(* C25 - Table operations and session control never deadlock.
   PARTIAL (DESIGN.md 3.3, 6, 8): the theorems are about the lock / channel tables that
   tools/locktab regenerates from the Go source on every run (Gen/LockModel.v) and about an
   abstract semantics of mutexes and rendezvous (Model/LockSem.v).  That the tables
   over-approximate the program is an assumption; real interleavings are only searched by the
   stress harness. *)
From Coq Require Import List NArith.
Import ListNotations.
From BioVerif Require Import Model.LockSem Gen.LockModel Spec.LockSpec Proofs.LockProofs Proofs.LockInstance.

(* Ranked lock order (= acyclic lock-order graph), no lock leak, no rendezvous under a lock: in every
   reachable state in which no thread can move, every thread has finished or waits at a channel
   operation holding no lock -- no thread is ever blocked on a mutex for ever. *)
Theorem C25_ranked_lock_order_no_deadlock : forall (rank : lock -> N) (ps : list (list ev)) (s : state),
  Forall (wf rank []) ps -> reachable ps s -> ~ can_step s -> forall t, In t s -> parked t.
Proof. exact ranked_lock_order_no_deadlock. Qed.
Print Assumptions C25_ranked_lock_order_no_deadlock.

(* ... and without channel operations the only such states are the final ones *)
Theorem C25_ranked_lock_order_progress : forall rank ps s,
  Forall (wf rank []) ps -> Forall chan_free ps -> reachable ps s -> ~ can_step s -> finished s.
Proof.
  intros rank ps s HF HC Hr Hstuck t Hin. apply parked_chan_free.
  - exact (ranked_lock_order_no_deadlock rank ps s HF Hr Hstuck t Hin).
  - exact (all_threads_reachable (fun _ => chan_free) (fun _ => chan_free_tail) ps s HC Hr t Hin).
Qed.
Print Assumptions C25_ranked_lock_order_progress.

(* No return with a lock held: finished threads hold nothing, a mutex somebody waits for is held by
   a thread that still has work to do, and when all threads are done every mutex is free (the table
   stays usable). *)
Theorem C25_no_return_holding_lock_progress : forall rank ps s,
  Forall (wf rank []) ps -> reachable ps s ->
  (forall t, In t s -> prog t = [] -> held t = []) /\
  (forall t l p, In t s -> prog t = Acq l :: p -> ~ free s l ->
     exists h, In h s /\ In l (held h) /\ prog h <> []) /\
  (finished s -> forall l, free s l).
Proof. exact no_return_holding_lock_progress. Qed.
Print Assumptions C25_no_return_holding_lock_progress.

(* On the generated tables, by computation; the excepted sites are listed in Spec/LockSpec.v
   (edge_exceptions, leak_exceptions, rendezvous_exceptions). *)

(* the lock-order graph of bio-rd's RIB pipeline and BGP session layer, without the excepted sites, is ranked *)
Theorem C25_lock_order_ranked :
  exists rank : lock -> N, forall e, In e lock_edges -> edge_exc e = None ->
    (rank (fst (fst e)) < rank (snd (fst e)))%N.
Proof.
  destruct (acyclic_check_sound _ good_edges_acyclic) as [rank Hr]. exists rank.
  intros e Hin He. destruct (edges_covered e Hin) as [H|H]; [congruence|].
  apply (Hr _ _ H).
Qed.
Print Assumptions C25_lock_order_ranked.

(* with them it is not: Loc-RIB lock -> Adj-RIB-Out lock (route changes) and back (ReplaceFilterChain) *)
Theorem C25_lock_order_refuted :
  ~ exists rank : lock -> N, forall a b, In (a, b) all_edges -> (rank a < rank b)%N.
Proof.
  pose proof all_edges_cyclic as H.
  destruct (find_cycle all_edges) as [w|]; [exact (cycle_refutes_rank _ w H)|discriminate].
Qed.
Print Assumptions C25_lock_order_refuted.

(* no function returns with a lock it took still held, except the listed sites *)
Theorem C25_no_lock_leak : forall r, In r lock_leaks -> leak_exc r <> None.
Proof. exact no_lock_leak. Qed.
Print Assumptions C25_no_lock_leak.

(* no blocking operation on an unbuffered channel happens while a lock is held, except the listed sites *)
Theorem C25_no_rendezvous_under_lock : forall r, In r rendezvous_under_lock -> rdv_exc r <> None.
Proof. exact no_rendezvous_under_lock. Qed.
Print Assumptions C25_no_rendezvous_under_lock.

(* the analysis follows every call made under a lock (no call through a function value there) *)
Theorem C25_no_dynamic_call_under_lock : forall d, In d dynamic_calls -> snd d = [].
Proof. exact no_dynamic_call_under_lock. Qed.
Print Assumptions C25_no_dynamic_call_under_lock.

(* lifting: operations that take locks only along the non-excepted edges of the generated graph,
   release what they take and do not rendezvous under a lock complete, under every schedule, or
   wait lock-free at a channel *)
Theorem C25_no_lock_deadlock_partial : forall (ps : list (list ev)) (s : state),
  Forall (conforms good_edges []) ps -> reachable ps s -> ~ can_step s ->
  forall t, In t s -> parked t.
Proof. exact (fun ps s => checked_order_no_deadlock good_edges ps s good_edges_acyclic). Qed.
Print Assumptions C25_no_lock_deadlock_partial.

(* Non-vacuity, and why each hypothesis is needed. *)
Example C25_example_ranked_threads :
  Forall (wf (fun l => l) []) [[Acq 0%N; Acq 1%N; Rel 1%N; Rel 0%N]; [Acq 0%N; Acc 7%N true; Rel 0%N]].
Proof. exact ranked_example. Qed.

Example C25_example_inversion_deadlocks :
  let ps := [[Acq 0%N; Acq 1%N; Rel 1%N; Rel 0%N]; [Acq 1%N; Acq 0%N; Rel 0%N; Rel 1%N]] in
  exists s, reachable ps s /\ ~ can_step s /\ exists t l p, In t s /\ prog t = Acq l :: p.
Proof. exact inversion_deadlocks. Qed.

Example C25_example_leak_deadlocks :
  let ps := [[Acq 0%N]; [Acq 0%N; Rel 0%N]] in
  exists s, reachable ps s /\ ~ can_step s /\ ~ finished s.
Proof. exact leak_deadlocks. Qed.

Example C25_example_rendezvous_under_lock_deadlocks :
  let ps := [[Acq 0%N; Send 5%N; Rel 0%N]; [Acq 0%N; Rel 0%N; Recv 5%N]] in
  exists s, reachable ps s /\ ~ can_step s /\ exists t, In t s /\ held t <> [] /\ exists c p, prog t = Send c :: p.
Proof. exact rendezvous_under_lock_deadlocks. Qed.
