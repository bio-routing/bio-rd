(* Wire-to-wire theorems about the composed speaker (Model/Speaker.v; notes/Pipeline.md, section "Speaker"): what a set
   of Established sessions does with the BYTES it receives and which BYTES it sends.  Registered with C08
   (props/C08.py: more_properties_files).  The speaker is the RIB pipeline of Model/Pipeline.v between the
   decoder (Model/BGPCodec.v, C16/C19) + per-NLRI application (Spec/UpdateApplySpec.v, C20) on the way in and the update
   sender's packing (C10/C18) + encoder (Model/BGPEncode.v, C17) on the way out; every statement carries exactly the
   guards of the component theorems it is obtained from.  The RIB part of `srun` is a run of the pipeline
   (Proofs/SpeakerProofs.v: srun_is_run), so all Pipeline theorems apply to every speaker state. *)
From Coq Require Import List NArith ZArith Bool Permutation.
Import ListNotations.
From BioVerif Require Import Model.Pipeline Model.Speaker Spec.PipelineSpec Spec.SpeakerSpec Proofs.PipelineExamples
  Proofs.SpeakerProofs Proofs.SpeakerExamples.
From BioVerif Require Proofs.PipelineProofs Proofs.PipelineOut Proofs.PipelineSend.
From BioVerif Require Model.AdjRIBIn Model.LocRIBClients Model.AdjRIBOut Model.UpdateSender Model.BGPCodec Model.BGPEncode
  Model.UpdateApply Spec.UpdateApplySpec Spec.BGPUpdateSpec Spec.BGPRoundtripSpec Spec.LocRIBClientsSpec
  Spec.ExportViewSpec Spec.UpdateSenderSpec.

(* 1. One frame received on a session that is in Established, from ANY reachable state (recvMsg hands the frame over in
   a zero-padded 4096-byte buffer: recv_decode):
   - it decodes to an UPDATE u: the consumed bytes are well-formed for u (C19, up to its known finding), the decoded
     values have the Go types processAttributes asserts, and the session's Adj-RIB-In afterwards is processUpdate of
     the decoded message (C20's model) = the fold of the per-NLRI operations, which are appended to the session's
     history; it stays up; no other session's receiving half changes;
   - KEEPALIVE: nothing changes;  NOTIFICATION, OPEN, decoding error: the session has left Established;
   - the decoder neither panics nor runs out of fuel (C16).
   What the Loc-RIB, the Adj-RIB-Outs and the peers then hold follows from the Pipeline theorems (3. below). *)
Theorem Speaker_installs_what_was_decoded :
  forall (P : Type) (apply : P -> N -> AdjRIBOut.path -> option AdjRIBOut.path)
         (sel : nat -> list (LocRIBClients.entry AdjRIBOut.path) -> list (LocRIBClients.entry AdjRIBOut.path) * nat)
         (tagf : AdjRIBOut.bgp -> N) (cs : list (spcfg P)),
  LocRIBClientsSpec.sel_ok AdjRIBOut.path sel ->
  forall (evs : list sevent) (k : nat) (c : spcfg P) (s : sst P) (b : list N),
  distinct_peers P (cfgs_of P cs) ->
  nth_error cs k = Some c ->
  nth_error (ps_sess P (sp_pipe P (srun P apply sel tagf cs evs))) k = Some s -> ss_up P s = true -> frame_ok b = true ->
  let st := srun P apply sel tagf cs evs in
  let st' := sstep P apply sel tagf cs st (SRecv k b) in
  match recv_decode (sp_dec P c) b with
  | BGPCodec.Ok m rest =>
    match BGPCodec.m_body m with
    | BGPCodec.BUpdate u =>
      let ops := UpdateApplySpec.message_ops 1 (conv_update u) in
      (exists consumed, padded b = consumed ++ rest /\ BGPUpdateSpec.wellformed false (BGPCodec.m_len m) u consumed) /\
      UpdateApplySpec.well_typed (conv_update u) /\
      exists s', nth_error (ps_sess P (sp_pipe P st')) k = Some s' /\ ss_up P s' = true /\
        UpdateApply.process_update 1 1 (conv_update u) (ss_in P s) = UpdateApply.Done (ss_in P s') /\
        ss_ops P s' = ss_ops P s ++ ops /\
        (forall j, j <> k ->
           option_map (recv_state P) (nth_error (ps_sess P (sp_pipe P st')) j) =
           option_map (recv_state P) (nth_error (ps_sess P (sp_pipe P st)) j))
    | BGPCodec.BKeepalive => st' = st
    | _ => is_up P (sp_pipe P st') k = false
    end
  | BGPCodec.Err => is_up P (sp_pipe P st') k = false
  | _ => False
  end.
Proof. intros P apply sel tagf cs _ evs k c s b _. apply installs_any_state. Qed.
Print Assumptions Speaker_installs_what_was_decoded.

(* 2. What is written to a session's connection (output: the sender's wire log, message by message, through
   msg_update = the packet.BGPUpdate built from the exported path's attributes (C09: ExportWire) and the encoder).
   Under C17's guard on these messages (sendable: representable under the session's options and accepted by the
   serializer): every UPDATE written is at most 4096 bytes and decodes - with the options the peer negotiated - to the
   UPDATE it was made from (same withdrawn routes, NLRI, attribute types and values), and the table the peer builds from
   the decoded UPDATEs (dview) is, at every (prefix, path id), the sender's view (C10's peer_view) with the attribute
   values of the exported path standing behind the tag. *)
Theorem Speaker_output_decodes_to_export_view :
  forall (P : Type) (apply : P -> N -> AdjRIBOut.path -> option AdjRIBOut.path)
         (sel : nat -> list (LocRIBClients.entry AdjRIBOut.path) -> list (LocRIBClients.entry AdjRIBOut.path) * nat)
         (tagf : AdjRIBOut.bgp -> N) (cs : list (spcfg P))
         (evs : list sevent) (j : nat) (c : spcfg P) (s : sst P),
  nth_error cs j = Some c -> nth_error (ps_sess P (sp_pipe P (srun P apply sel tagf cs evs))) j = Some s ->
  sendable P tagf c s ->
  Forall2 (written P tagf c s) (rev (UpdateSender.wire (ss_us P s))) (output P tagf c s) /\
  exists us, decoded_output P tagf c s = map Some us /\
    forall p pid, dview (rev us) (upfx p) pid =
                  option_map (tag_attrs P tagf c (ss_out P s)) (peer_view P s p pid).
Proof. intros P apply sel tagf cs evs j c s _ _ SD. split; [now apply output_roundtrip|now apply output_decodes_to_view]. Qed.
Print Assumptions Speaker_output_decodes_to_export_view.

(* 3. Wire to wire.  For a session j that is up and whose sender is drained, inside the guards of the component
   theorems (C08's three known findings: ExportViewSpec.guards; no path-id allocation failure; C10's four hypotheses
   including its known finding no_withdraw_in_flight; the interface condition log_tracks_table, false exactly for the
   known finding addpath-duplicate-export-withdrawn-while-copy-remains; C17's sendable), after ANY history of bytes
   received on any sessions, session ups and downs and sender steps:
   IN       the candidates of the Loc-RIB are the union over the sessions that are up of their contributions - each the
            C05/C06 reading of the operations that session's received bytes decoded to (1.: ss_ops grows by message_ops
            of every decoded UPDATE);
   THROUGH  j's Adj-RIB-Out is the export view of the first 1/N selected candidates;
   OUT      the bytes written to j decode, and the table peer j builds from them holds at (prefix, path id) the
            attribute values of exactly the Adj-RIB-Out entry with that key (keyed_table).
   So peer j's view is a function of the byte histories of the other sessions: decode, contribute, select, export,
   encode. *)
Theorem Speaker_wire_to_wire :
  forall (P : Type) (apply : P -> N -> AdjRIBOut.path -> option AdjRIBOut.path)
         (sel : nat -> list (LocRIBClients.entry AdjRIBOut.path) -> list (LocRIBClients.entry AdjRIBOut.path) * nat)
         (tagf : AdjRIBOut.bgp -> N) (cs : list (spcfg P)),
  LocRIBClientsSpec.sel_ok AdjRIBOut.path sel ->
  forall (evs : list sevent) (j : nat) (c : spcfg P) (s : sst P),
  let st := sp_pipe P (srun P apply sel tagf cs evs) in
  let pc := sp_c P c in
  let ls := rev (ss_lab P s) in
  distinct_peers P (cfgs_of P cs) -> locrib_paths_distinct P st ->
  nth_error cs j = Some c -> nth_error (ps_sess P st) j = Some s -> ss_up P s = true ->
  ExportViewSpec.guards (apply (sc_exp P pc)) (sc_sess P pc) (ss_hist P s) -> AdjRIBOut.errs (ss_out P s) = 0%N ->
  UpdateSenderSpec.client_protocol (sc_us P pc) ls -> UpdateSenderSpec.hash_faithful (sc_us P pc) ls ->
  UpdateSenderSpec.all_fit (sc_us P pc) ls -> UpdateSenderSpec.no_withdraw_in_flight (sc_us P pc) ls ->
  log_tracks_table P tagf (sc_us P pc) (ss_out P s) ->
  drained P s = true ->
  sendable P tagf c s ->
  (forall p, Permutation (map ckey (candidates P st p)) (map ckey (union_of_contributions P (cfgs_of P cs) st p))) /\
  (forall p, Permutation (map (ExportViewSpec.norm (sc_sess P pc)) (AdjRIBOut.tbl_get p (AdjRIBOut.tbl (ss_out P s))))
                         (map (ExportViewSpec.norm (sc_sess P pc))
                              (ExportViewSpec.export_view (apply (sc_exp P pc)) (sc_sess P pc) p
                                 (visible (sc_opts P pc) (ps_loc P st) (lpfx p))))) /\
  exists us, decoded_output P tagf c s = map Some us /\
    forall p pid, dview (rev us) (upfx p) pid =
                  option_map (tag_attrs P tagf c (ss_out P s)) (keyed_table P tagf (sc_us P pc) (ss_out P s) p pid).
Proof.
  intros P apply sel tagf cs Hsel evs j c s st pc ls DP LD Hc Hs Hup G1 G2 U1 U2 U3 U4 LT Dr SD.
  destruct (output_decodes_to_view P tagf c s SD) as [us [E V]].
  destruct (srun_is_run P apply sel tagf cs evs) as [pevs EQ]. unfold st in *. clear st. rewrite EQ in *.
  pose proof (cfgs_nth P cs j c Hc) as Hj.
  destruct (PipelineOut.Oinv_run P apply sel tagf Hsel _ pevs LD) as [HO HR].
  destruct (PipelineSend.Oinv_peer_view_converges P apply tagf _ _ j pc s HO HR (PipelineSend.Uinv_run P apply sel tagf _ pevs j pc s Hj Hs)
              Hj Hs Hup G1 G2 U1 U2 U3 U4 LT Dr) as [PV TB].
  split; [intros p; apply PipelineProofs.Inv_union; now apply PipelineProofs.Inv_run|]. split; [exact TB|].
  exists us. split; [exact E|]. intros p pid. now rewrite V, PV.
Qed.
Print Assumptions Speaker_wire_to_wire.

(* every speaker state's RIB part is a state of the pipeline: the Pipeline theorems apply to it *)
Theorem Speaker_run_is_pipeline_run :
  forall (P : Type) (apply : P -> N -> AdjRIBOut.path -> option AdjRIBOut.path)
         (sel : nat -> list (LocRIBClients.entry AdjRIBOut.path) -> list (LocRIBClients.entry AdjRIBOut.path) * nat)
         (tagf : AdjRIBOut.bgp -> N) (cs : list (spcfg P)) (evs : list sevent),
  exists pevs, sp_pipe P (srun P apply sel tagf cs evs) = run P apply sel tagf (cfgs_of P cs) pevs.
Proof. exact srun_is_run. Qed.
Print Assumptions Speaker_run_is_pipeline_run.

(* ---- Examples on real byte strings (Spec/SpeakerSpec.v: the three sessions of the Pipeline examples; the two
   route-server clients send 45-byte UPDATEs for 0.0.0.0/1, the iBGP listener's sender writes). *)

(* 1: the first client's bytes are read as the announcement of prefix id 1 with next hop 12.0.0.1, AS_PATH [65101];
   a Total Path Attribute Length past the message is a decoding error; the frames are frames.  Fed the bytes, the
   speaker is exactly where the RIB pipeline is when fed the announcements (Pipeline examples).  A KEEPALIVE changes
   nothing; the damaged UPDATE takes session 1 down and leaves only the first client's route. *)
Example Speaker_example_installs :
  (option_map (fun u => UpdateApplySpec.message_ops 1 (conv_update u)) (recv_update ex_opts (ex_update_bytes 65101 1)) =
     Some [AdjRIBIn.Announce 1%N (ex_path 201326593 65101)] /\
   recv_decode ex_opts ex_bad_bytes = BGPCodec.Err /\
   frame_ok (ex_update_bytes 65101 1) = true /\ frame_ok ex_bad_bytes = true /\ frame_ok ex_keepalive = true) /\
  sp_pipe _ (ex_srun ex_sevs2) = ex_run (ex_evs1 ++ ex_drain2a) /\
  (ex_sstep (ex_srun ex_sevs1) (SRecv 0 ex_keepalive) = ex_srun ex_sevs1 /\
   let st := sp_pipe _ (ex_sstep (ex_srun ex_sevs1) (SRecv 1 ex_bad_bytes)) in
   is_up _ st 1 = false /\ is_up _ st 0 = true /\
   map src_of (candidates _ st 1%N) = [Some 167772161%N] /\
   map src_of (candidates _ (sp_pipe _ (ex_srun ex_sevs1)) 1%N) = [Some 167772162%N; Some 167772161%N]).
Proof.
  (* the splits are spelled out: `repeat split` would try eq_refl on the equations, by lazy conversion *)
  split; [|split; [exact ex_same_state|cbv zeta]]; (split; [|split; [|split; [|split]]]); vm_compute; reflexivity.
Qed.

(* 2: the bytes written to the listener - End-of-RIB (23 bytes), the withdrawal of 0.0.0.0/1 (the first client's route
   was replaced while its announcement was still queued), the 52-byte announcement of the second client's route
   (AS_PATH [65102], ORIGIN IGP, NEXT_HOP 12.0.0.2, LOCAL_PREF 300) - and the table the peer decodes from them. *)
Example Speaker_example_output :
  output _ ex_tagf ex_sc2 ex_ss2 =
    [Some (repeat 255%N 16 ++ [0; 23; 2;  0; 0;  0; 0]%N);
     Some (repeat 255%N 16 ++ [0; 25; 2;  0; 2; 1; 0;  0; 0]%N);
     Some (repeat 255%N 16 ++ [0; 52; 2;  0; 0;  0; 27;  64; 2; 6; 2; 1; 0; 0; 254; 78;  64; 1; 1; 0;  64; 3; 4; 12; 0; 0; 2;
                               64; 5; 4; 0; 0; 1; 44;  1; 0]%N)] /\
  exists us, decoded_output _ ex_tagf ex_sc2 ex_ss2 = map Some us /\
    dview (rev us) (upfx 1) 0%N =
      Some [(2%N, BGPCodec.AVASPath [(2%N, [65102%N])]); (1%N, BGPCodec.AVOrigin 0); (3%N, BGPCodec.AVNextHop (BGPCodec.IP4 201326594));
            (5%N, BGPCodec.AVU32 300)] /\
    dview (rev us) (upfx 2) 0%N = None.
Proof.
  split; [vm_compute; reflexivity|].
  set (d := decoded_output _ ex_tagf ex_sc2 ex_ss2). vm_compute in d.
  let v := eval cbv delta [d] in d in
  match v with [Some ?a; Some ?b; Some ?c] => exists [a; b; c] end.
  split; [reflexivity|]. split; vm_compute; reflexivity.
Qed.

(* 3: every hypothesis of Speaker_wire_to_wire holds for the listener of the example, and the theorem gives the three
   conclusions for it *)
Example Speaker_example_wire_to_wire :
  let st := sp_pipe _ (ex_srun ex_sevs2) in
  let pc := sp_c _ ex_sc2 in
  (forall p, Permutation (map ckey (candidates _ st p)) (map ckey (union_of_contributions _ (cfgs_of _ ex_spcfgs) st p))) /\
  (forall p, Permutation (map (ExportViewSpec.norm (sc_sess _ pc)) (AdjRIBOut.tbl_get p (AdjRIBOut.tbl (ss_out _ ex_ss2))))
                         (map (ExportViewSpec.norm (sc_sess _ pc))
                              (ExportViewSpec.export_view (AdjRIBOut.interp (sc_exp _ pc)) (sc_sess _ pc) p
                                 (visible (sc_opts _ pc) (ps_loc _ st) (lpfx p))))) /\
  exists us, decoded_output _ ex_tagf ex_sc2 ex_ss2 = map Some us /\
    forall p pid, dview (rev us) (upfx p) pid =
                  option_map (tag_attrs _ ex_tagf ex_sc2 (ss_out _ ex_ss2))
                             (keyed_table _ ex_tagf (sc_us _ pc) (ss_out _ ex_ss2) p pid).
Proof.
  destruct ex_state_facts as [HD [_ [Hs [Hu [HE Hdr]]]]]. destruct ex_c10_guards as [G1 [G2 [G3 G4]]].
  assert (DP : distinct_peers _ (cfgs_of _ ex_spcfgs)) by (vm_compute; repeat constructor; cbn; intuition discriminate).
  cbv zeta. rewrite ex_ss2_eq.
  refine (Speaker_wire_to_wire _ AdjRIBOut.interp ex_sel ex_tagf ex_spcfgs ex_sel_ok ex_sevs2 2 ex_sc2 ex_s2
            DP _ eq_refl _ Hu ex_guards_hold HE G1 G2 G3 G4 ex_log_tracks Hdr ex_sendable);
    cbv zeta; fold (ex_srun ex_sevs2); rewrite ex_same_state; [exact HD|exact Hs].
Qed.
