(* C10 - The peer's view equals the Adj-RIB-Out under any timing.

   run c ls            the update sender after the labels ls (Add / Remove / Dequeue / EmitOne /
                       EoRBegin / EoRStep: the atomic steps of update_sender.go, any order, any
                       map iteration order); None if a label is not enabled where it occurs
   view (wire s)       replay of everything written to the peer, keyed by prefix and path id
   adj_rib_out c ls    the Adj-RIB-Out as the AddPath/RemovePath calls define it
   quiescent s         nothing queued, nothing in flight, no EndOfRIB in progress *)
From Coq Require Import List NArith ZArith.
Import ListNotations.
From BioVerif Require Import Model.UpdateSender Spec.UpdateSenderSpec Proofs.UpdateSenderProofs.
Open Scope Z_scope.

(* For EVERY finite sequence of labels (all interleavings of route changes with the sender's steps,
   all iteration orders) in which no route is withdrawn while its announcement is between Dequeue
   and EmitOne: once changes stop and everything is flushed, the peer's view is the Adj-RIB-Out.
   Hypotheses: the Adj-RIB-Out's client protocol (a path is added to a vacant key or re-added),
   sha256 = identity on the hashed tuple, every prefix fits next to its attributes (C18). *)
Theorem C10_converges_partial : forall (c : cfg) (ls : list label) (s : st),
  run c ls = Some s ->
  client_protocol c ls ->
  hash_faithful c ls ->
  all_fit c ls ->
  no_withdraw_in_flight c ls ->
  quiescent s = true ->
  forall x pid, view (wire s) x pid = adj_rib_out c ls x pid.
Proof. exact converges_partial. Qed.
Print Assumptions C10_converges_partial.

(* Without that guard the statement is false on the current code: RemovePath cannot cancel what the
   sender goroutine has already dequeued (it sends without holding toSendMu), the withdraw
   overtakes the announcement and the peer keeps a route the Adj-RIB-Out no longer has. *)
Theorem C10_converges_refuted :
  exists (c : cfg) (ls : list label) (s : st),
    run c ls = Some s /\
    client_protocol c ls /\ hash_faithful c ls /\ all_fit c ls /\
    quiescent s = true /\
    exists x pid, view (wire s) x pid <> adj_rib_out c ls x pid.
Proof. exact witness_overtakes. Qed.
Print Assumptions C10_converges_refuted.

(* Non-vacuity of the partial theorem, on the situation the property singles out: a route is
   withdrawn while its announcement is still queued, then replaced; two more entries are pending
   and flushed in an arbitrary order. *)
Definition ex_cfg : cfg := mkcfg V4 false true true false.
Definition ex_x : pfx := mkpfx 167837696 16.
Definition ex_y : pfx := mkpfx 167903232 16.
Definition ex_p1 : path := mkpath 1 0 [1%N] true false false false false 0 0 0 [].
Definition ex_p2 : path := mkpath 2 0 [2%N] false false false false false 0 0 0 [].
Definition ex_hist : list label :=
  [Add ex_x ex_p1; Add ex_y ex_p1; Remove ex_x ex_p1; Add ex_x ex_p2;
   Dequeue (pkey ex_p2); Remove ex_y ex_p1; EmitOne; EoRBegin []; EoRStep].

Example C10_example_withdrawn_while_queued :
  exists s, run ex_cfg ex_hist = Some s /\ quiescent s = true /\
    client_protocol ex_cfg ex_hist /\ hash_faithful ex_cfg ex_hist /\ all_fit ex_cfg ex_hist /\
    no_withdraw_in_flight ex_cfg ex_hist /\
    view (wire s) ex_x 0%N = Some 2%N /\ view (wire s) ex_y 0%N = None.
Proof.
  eexists. split; [vm_compute; reflexivity|]. split; [reflexivity|].
  split; [apply client_protocol_check; reflexivity|].
  split; [apply hash_faithful_check; reflexivity|].
  split; [apply all_fit_check; reflexivity|].
  split; [apply no_withdraw_in_flight_check; reflexivity|].
  split; reflexivity.
Qed.
