(* C12 - Replacing a policy converges to the new policy's result. Export side: Model.AdjRIBOut.replace_chain =
   AdjRIBOut.ReplaceFilterChain with the Loc-RIB's RefreshClient (after the fixes 678760d8, a6e11f38,
   532f0aba, a95945b3). Import side: Model.ImportReplace.replace_in = AdjRIBIn.ReplaceFilterChain acting on
   the Loc-RIB through AddPath / RemovePath / ReplacePath. Policies are arbitrary functions; the skip test is
   filter.Chain.Equal on the policy language (chain_eqb). *)
From Coq Require Import List NArith Permutation.
Import ListNotations.
From BioVerif Require Import Model.AdjRIBOut Model.LocView Model.ImportReplace
  Spec.ExportViewSpec Spec.ReplaceSpec
  Proofs.AroIDsProofs Proofs.ExportViewC Proofs.ReplaceProofs Proofs.ImportReplaceProofs.
Local Open Scope N_scope.

(* Whenever a session's Adj-RIB-Out holds the export view of the Loc-RIB under the old policy c (and, on
   add-path sessions, the C11 invariant - both are what C08/C11 establish for reachable states), replacing the
   policy by n turns it into the export view under n - for every session kind, rewriting ones and
   redistributed static routes included - under the guards rguards (Spec/ReplaceSpec.v: duplicate-free view;
   on add-path sessions old and new exports of different paths are Compare-distinct; Compare-equal old and new
   export of one path are equal). *)
Theorem C12_replace_converges_export :
  forall (P : Type) (apply : P -> N -> path -> option path) (s : sess) (c n : P) (v : view) (a : aro P),
  rguards (apply c) (apply n) s v ->
  cur a = c -> (s_addpath s = true -> Inv P a) ->
  ribout_is_export_view (apply c) s v a ->
  errs (replace_chain P apply s a n v) = errs a ->
  ribout_is_export_view (apply n) s v (replace_chain P apply s a n v) /\
  cur (replace_chain P apply s a n v) = n.
Proof. exact replace_converges. Qed.
Print Assumptions C12_replace_converges_export.

(* ... hence, after any Loc-RIB history meeting the C08 guards for both policies: establish with c, feed h,
   replace by n = establish with n, feed h (tables equal per prefix as multisets, path ids aside) *)
Theorem C12_replace_converges :
  forall (P : Type) (apply : P -> N -> path -> option path) (s : sess) (c n : P) (h : list (N * list path)),
  guards (apply c) s h -> guards (apply n) s h ->
  let stc := feed P apply s c h in
  let stn := feed P apply s n h in
  rguards (apply c) (apply n) s (fst stc) ->
  errs (snd stc) = 0 -> errs (snd stn) = 0 ->
  let a' := replace_chain P apply s (snd stc) n (fst stc) in
  errs a' = 0 ->
  cur a' = n /\
  forall pfx, Permutation (map (norm s) (tbl_get pfx (tbl a'))) (map (norm s) (tbl_get pfx (tbl (snd stn)))).
Proof.
  intros P apply s c n h Gc Gn stc stn RG Ec En a' Ea.
  destruct (feed_inv_guards P apply s c h Gc Ec) as [Gd _ Hview]. fold stc in Gd, Hview.
  destruct (replace_converges P apply s c n (fst stc) (snd stc) RG (good_cur P s c _ Gd) (good_inv P s c _ Gd) Hview)
    as [Hn Hcur].
  { fold a'. now rewrite Ea. }
  fold a' in Hn, Hcur. split; [exact Hcur|].
  pose proof (ribout_is_export_view_partial P apply s n h Gn En) as Hfresh. fold stn in Hfresh.
  assert (EV : fst stn = fst stc) by apply feed_view_indep.
  intros pfx. eapply Permutation_trans; [apply Hn|].
  apply Permutation_sym. rewrite <- EV. apply Hfresh.
Qed.
Print Assumptions C12_replace_converges.

(* The Loc-RIB l holds what a session established with the old import policy fc announced for the Adj-RIB-In
   r, next to the paths `other` of other sources.  After ReplaceFilterChain it holds what a session established
   with fn would have announced, next to the same other paths - under iguards: eligible paths of a prefix differ
   in (source, path id), the policies keep both, other sources differ, Compare-equal outputs are equal. *)
Theorem C12_replace_converges_import :
  forall (fc fn : N -> path -> option path) (r : rin) (other : loc),
  iguards fc fn r other ->
  forall l : loc,
  Permutation l (other ++ establish fc r) ->
  Permutation (replace_in fc fn r l) (other ++ establish fn r).
Proof. exact import_replace_converges. Qed.
Print Assumptions C12_replace_converges_import.

(* fsmAddressFamily.replace{Import,Export}FilterChain return without doing anything iff Chain.Equal(new, old).
   Chains that are Equal treat every route alike; so if some route is treated differently the replacement is
   carried out. *)
Theorem C12_never_skipped : forall c d,
  chain_eqb c d = true -> forall pfx p, interp c pfx p = interp d pfx p.
Proof. exact chain_eqb_sound. Qed.
Print Assumptions C12_never_skipped.

Theorem C12_never_skipped_contrapositive : forall c d pfx p,
  interp c pfx p <> interp d pfx p -> chain_eqb c d = false.
Proof.
  intros c d pfx p H. destruct (chain_eqb c d) eqn:E; [|reflexivity].
  exfalso. apply H. now apply chain_eqb_sound.
Qed.
Print Assumptions C12_never_skipped_contrapositive.

(* ---- the fsm's entry points, skip test included (Model.ImportReplace.fam_replace_{export,import} =
   fsmAddressFamily.replace{Export,Import}FilterChain: do nothing iff the new chain Equals the current chain of
   the SAME direction).  With or without the shortcut the tables end up as the new policy demands, and the
   session afterwards filters like the new chain. *)
Theorem C12_family_export_converges :
  forall (s : sess) (f : family) (a : aro chain) (c : chain) (v : view),
  fam_up f = true ->
  rguards (interp (fam_exp f)) (interp c) s v ->
  cur a = fam_exp f -> (s_addpath s = true -> Inv chain a) ->
  ribout_is_export_view (interp (fam_exp f)) s v a ->
  let x' := fam_replace_export s (f, a) c v in
  errs (snd x') = errs a ->
  ribout_is_export_view (interp c) s v (snd x') /\
  (forall pfx p, interp (fam_exp (fst x')) pfx p = interp c pfx p) /\
  (forall pfx p, interp (cur (snd x')) pfx p = interp c pfx p).
Proof.
  intros s f a c v Up G Hc I H x' HE. subst x'.
  destruct (fam_replace_export_cases s f a c v) as [[E S]|E]; rewrite E in *; cbn [fst snd fam_exp] in *.
  - split; [|now rewrite Hc]. intros pfx. rewrite (export_view_ext (interp c) (interp (fam_exp f)) s pfx _ S). apply H.
  - rewrite Up in *. destruct (replace_converges chain interp s (fam_exp f) c v a G Hc I H HE) as [R C].
    split; [exact R|]. split; [reflexivity|]. intros pfx p. now rewrite C.
Qed.
Print Assumptions C12_family_export_converges.

Theorem C12_family_import_converges :
  forall (f : family) (r : rin) (other l : loc) (c : chain),
  fam_up f = true ->
  iguards (interp (fam_imp f)) (interp c) r other ->
  Permutation l (other ++ establish (interp (fam_imp f)) r) ->
  let x' := fam_replace_import (f, l) r c in
  Permutation (snd x') (other ++ establish (interp c) r) /\
  (forall pfx p, interp (fam_imp (fst x')) pfx p = interp c pfx p).
Proof.
  intros f r other l c Up G H x'. subst x'.
  destruct (fam_replace_import_cases f l r c) as [[-> S]| ->]; cbn [fst snd fam_imp].
  - split; [|auto]. now rewrite (establish_ext (interp c) (interp (fam_imp f)) r S).
  - rewrite Up. split; [|reflexivity]. now apply import_replace_converges.
Qed.
Print Assumptions C12_family_import_converges.

(* Established or not, a replacement is stored: afterwards the address family holds chains that filter like
   the new ones (a session that is down has no tables to touch) ... *)
Theorem C12_family_replace_stores :
  forall (s : sess) (f : family) (a : aro chain) (l : loc) (r : rin) (c : chain) (v : view),
  (forall pfx p, interp (fam_exp (fst (fam_replace_export s (f, a) c v))) pfx p = interp c pfx p) /\
  (forall pfx p, interp (fam_imp (fst (fam_replace_import (f, l) r c))) pfx p = interp c pfx p) /\
  fam_up (fst (fam_replace_export s (f, a) c v)) = fam_up f /\
  fam_up (fst (fam_replace_import (f, l) r c)) = fam_up f /\
  (fam_up f = false -> snd (fam_replace_export s (f, a) c v) = a /\ snd (fam_replace_import (f, l) r c) = l).
Proof.
  intros s f a l r c v. split; [intros; apply fam_replace_export_filters|]. split; [intros; apply fam_replace_import_filters|].
  destruct (fam_replace_export_cases s f a c v) as [[-> _]| ->], (fam_replace_import_cases f l r c) as [[-> _]| ->];
    cbn [fst snd fam_up]; (split; [reflexivity|]); (split; [reflexivity|]); intros Dn; rewrite ?Dn; split; reflexivity.
Qed.
Print Assumptions C12_family_replace_stores.

(* ... init() builds the Adj-RIB-Out from the stored chain and the Loc-RIB's initial dump: the export view
   under that chain (C08 guards on the dump) ... *)
Theorem C12_family_init_converges :
  forall (s : sess) (f : family) (v : view),
  guards (interp (fam_exp f)) s v -> NoDup (map fst v) ->
  let x' := fam_init_export s f v in
  errs (snd x') = 0 ->
  ribout_is_export_view (interp (fam_exp f)) s (fst (feed chain interp s (fam_exp f) v)) (snd x') /\
  fam_up (fst x') = true /\ cur (snd x') = fam_exp f.
Proof.
  intros s f v G ND x' HE.
  destruct (init_dump_converges chain interp s (fam_exp f) v G ND HE) as [R C]. repeat split; assumption.
Qed.
Print Assumptions C12_family_init_converges.

(* ... so a replacement that arrives while the session is down (before the first establishment, or between
   dispose() and the next init(), any number of times) is not lost: the session that comes up next holds
   the export view under the NEW policy *)
Theorem C12_family_down_replace_then_init :
  forall (s : sess) (f : family) (a : aro chain) (c : chain) (v0 v : view),
  let f' := fst (fam_replace_export s (f, a) c v0) in
  guards (interp (fam_exp f')) s v -> NoDup (map fst v) ->
  let x' := fam_init_export s f' v in
  errs (snd x') = 0 ->
  forall pfx, Permutation (map (norm s) (tbl_get pfx (tbl (snd x'))))
                          (map (norm s) (export_view (interp c) s pfx
                                           (view_get pfx (fst (feed chain interp s (fam_exp f') v))))).
Proof.
  intros s f a c v0 v f' G ND x' HE pfx.
  destruct (C12_family_init_converges s f' v G ND HE) as [R _]. fold x' in R.
  rewrite <- (export_view_ext (interp (fam_exp f')) (interp c) s pfx _ (fam_replace_export_filters s f a c v0)). apply R.
Qed.
Print Assumptions C12_family_down_replace_then_init.

(* doing nothing is right by C12_never_skipped and C12_family_export_converges *)
Theorem C12_never_skipped_family : forall s f a c v,
  fam_replace_export s (f, a) c v = (f, a) \/ fam_exp (fst (fam_replace_export s (f, a) c v)) = c.
Proof. intros. destruct (fam_replace_export_cases s f a c v) as [[E _]| ->]; auto. Qed.
Print Assumptions C12_never_skipped_family.

(* Non-vacuity: an eBGP session (prepend, next-hop-self); the policy changes the prepended ASN only (the case
   the pre-fix code ignored): the table follows. *)
Definition ex_s : sess := mkSess false false false false 65000 16843009 33686018 9 false 0.
Definition ex_p : path :=
  PBgp 0 (mkBgp 50529027 50529027 100 0 50529027 0 None true false 0 0 [(true, [65001])] 1 None None None [] 0).
Definition ex_old : chain := [[mkTerm [] [APrepend 64999 1; AAccept]]].
Definition ex_new : chain := [[mkTerm [] [APrepend 64998 1; AAccept]]].

Example C12_example :
  chain_eqb ex_old ex_new = false /\
  let a := run chain interp ex_s ex_old [OAdd 0 ex_p] in
  let a' := replace_chain chain interp ex_s a ex_new [(0, [ex_p])] in
  map (fun e => match snd e with PBgp _ b => b_aspath b | _ => [] end) (tbl a) = [[(true, [64999; 65000; 65001])]] /\
  map (fun e => match snd e with PBgp _ b => b_aspath b | _ => [] end) (tbl a') = [[(true, [64998; 65000; 65001])]] /\
  tbl a' = tbl (run chain interp ex_s ex_new [OAdd 0 ex_p]).
Proof. vm_compute. repeat split. Qed.
