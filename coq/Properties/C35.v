(* C35 - The shortest-path-tree computation (util/dijkstra Topology.SPT) is correct on every graph.

   `run guard o nodes edges src` models NewTopology(nodes, edges).SPT(src); `o` fixes the order in
   which Go's map iteration visits keys, `guard = true` is the code with the nil test that the
   fix commit added before `from = *next`.

   Domain (hypotheses of every theorem): the edges connect listed nodes (in_domain), weights are
   non-negative and at most W with |nodes| * W < 2^63 (no int64 overflow on any candidate path),
   the source is a listed node, and the oracle returns permutations. Duplicate nodes and
   duplicate edges in the input lists are inside the domain (for edges the last entry counts). *)
From Coq Require Import List NArith ZArith Permutation Lia.
Import ListNotations.
From BioVerif Require Import Model.Dijkstra Spec.DijkstraSpec Proofs.DijkstraProofs.
From BioVerif Require Lib.ListFacts.
Open Scope Z_scope.

(* For every graph, source and map order: SPT returns (no panic); the result has exactly one entry
   per listed node; each entry is either a shortest path from the source along existing edges
   together with its weight, or (-1, no edges) for a node that no path reaches; and the entries
   form a tree (the path of v = the path of v's predecessor plus one edge). *)
Theorem C35_correct : forall nodes es W src o,
  in_domain nodes es W -> no_overflow nodes W -> In src nodes -> oracle_ok o ->
  exists spt, run true o nodes es src = Ok spt /\
    NoDup (keys spt) /\ (forall v, In v (keys spt) <-> In v nodes) /\
    (forall v r, get v spt = Some r -> node_result_ok (graph_of es) src v r) /\
    tree_ok spt.
Proof.
  intros nodes es W src o Hd Hov Hs Ho.
  destruct (run_general true nodes es W src o Hd Hov Hs Ho) as (spt & B & [(A & _)|(A & _)]); [eauto|discriminate].
Qed.
Print Assumptions C35_correct.

Theorem C35_no_panic : forall nodes es W src o,
  in_domain nodes es W -> no_overflow nodes W -> In src nodes -> oracle_ok o ->
  exists spt, run true o nodes es src = Ok spt.
Proof. intros nodes es W src o Hd Hov Hs Ho. destruct (C35_correct nodes es W src o Hd Hov Hs Ho) as (spt & H & _). eauto. Qed.
Print Assumptions C35_no_panic.

(* Several calls on ONE Topology object: t := NewTopology(nodes, es); t.SPT(s1); t.SPT(s2); ...
   (spt returns the tree AND the topology the call leaves behind; spt_seq hands it to the next call).
   SPT does not modify the topology ... *)
Theorem C35_spt_pure : forall guard o t from, fst (spt guard o t from) = t.
Proof. reflexivity. Qed.
Print Assumptions C35_spt_pure.

(* ... so every call of every sequence of calls (any sources, the same one twice, each call with its
   own map order) returns a correct tree for ITS source. *)
Theorem C35_correct_sequence : forall nodes es W calls,
  in_domain nodes es W -> no_overflow nodes W ->
  Forall (fun c => oracle_ok (fst c) /\ In (snd c) nodes) calls ->
  Forall2 (fun c out => exists spt, out = Ok spt /\
             NoDup (keys spt) /\ (forall v, In v (keys spt) <-> In v nodes) /\
             (forall v r, get v spt = Some r -> node_result_ok (graph_of es) (snd c) v r) /\
             tree_ok spt)
          calls (run_seq true nodes es calls).
Proof.
  intros nodes es W calls Hd Hov Hc. unfold run_seq. rewrite spt_seq_runs. apply ListFacts.Forall2_map_r.
  intros [o from] Hin. destruct (proj1 (Forall_forall _ _) Hc _ Hin) as [Ho Hs].
  exact (C35_correct nodes es W from o Hd Hov Hs Ho).
Qed.
Print Assumptions C35_correct_sequence.

(* The two halves of node_result_ok spelled out per node. *)
Theorem C35_reachable_minimal_unreachable_marked : forall nodes es W src o spt v,
  in_domain nodes es W -> no_overflow nodes W -> In src nodes -> oracle_ok o ->
  run true o nodes es src = Ok spt -> In v nodes ->
  exists r, get v spt = Some r /\
    (reachable (graph_of es) src v ->
       shortest (graph_of es) src v (pedges r) /\ pdist r = weight (pedges r)) /\
    (~ reachable (graph_of es) src v -> pdist r = -1 /\ pedges r = []).
Proof.
  intros nodes es W src o spt v Hd Hov Hs Ho Hrun Hv.
  destruct (C35_correct nodes es W src o Hd Hov Hs Ho) as (spt' & Hrun' & Hok).
  rewrite Hrun in Hrun'. injection Hrun' as <-. exact (result_ok_entry nodes es src spt v Hok Hv).
Qed.
Print Assumptions C35_reachable_minimal_unreachable_marked.

(* The code as found (guard = false: no nil test) panics exactly when some node is unreachable. *)
Theorem C35_code_as_found_panics_iff_unreachable : forall nodes es W src o,
  in_domain nodes es W -> no_overflow nodes W -> In src nodes -> oracle_ok o ->
  (run false o nodes es src = Panic <->
   exists v, In v nodes /\ ~ reachable (graph_of es) src v).
Proof.
  intros nodes es W src o Hd Hov Hs Ho.
  destruct (run_general false nodes es W src o Hd Hov Hs Ho) as (spt & _ & [(A & C)|(_ & A & B)]); [|tauto].
  split; [rewrite A; discriminate|]. intros (v & Hv & Hn). destruct (Hn (C eq_refl v Hv)).
Qed.
Print Assumptions C35_code_as_found_panics_iff_unreachable.

(* The executable path test used by the model driver on the implementation's edge lists. *)
Theorem C35_path_check_sound : forall g s t p, is_path_b g s t p = true <-> is_path g s t p.
Proof. exact is_path_b_spec. Qed.
Print Assumptions C35_path_check_sound.

Definition ex_id : oracle := mkO (fun _ l => l) (fun _ l => l).
Definition ex_rev : oracle := mkO (fun _ l => rev l) (fun _ l => rev l).
(* 0 -> 1 (2), 0 -> 2 (0), 2 -> 1 (1), 1 -> 3 (0), 2 -> 3 (2), 3 -> 0 (1), duplicate 0 -> 1 (5 then 2),
   node 4 unreachable, node 2 listed twice *)
Definition ex_nodes : list node := [0; 1; 2; 3; 4; 2]%N.
Definition ex_edges : list edge :=
  [mkE 0 1 5; mkE 0 2 0; mkE 2 1 1; mkE 1 3 0; mkE 2 3 2; mkE 3 0 1; mkE 0 1 2; mkE 4 0 1]%N.

Example C35_example_domain :
  in_domain ex_nodes ex_edges 5 /\ no_overflow ex_nodes 5 /\ In 0%N ex_nodes /\
  oracle_ok ex_id /\ oracle_ok ex_rev.
Proof.
  split; [|split; [|split; [|split]]].
  - intros e0 He. cbn in He.
    repeat (destruct He as [<-|He]; [cbn; repeat split; auto 10; lia|]). destruct He.
  - reflexivity.
  - cbn. auto.
  - split; intros; apply Permutation_refl.
  - split; intros; cbn; apply Permutation_sym, Permutation_rev.
Qed.

Example C35_example_run :
  run true ex_id ex_nodes ex_edges 0%N =
  Ok [(0, mkP [] 0); (1, mkP [mkE 0 2 0; mkE 2 1 1] 1); (2, mkP [mkE 0 2 0] 0);
      (3, mkP [mkE 0 2 0; mkE 2 1 1; mkE 1 3 0] 1); (4, mkP [] (-1))]%N
  /\ run true ex_rev ex_nodes ex_edges 0%N = run true ex_id ex_nodes ex_edges 0%N
  /\ run false ex_id ex_nodes ex_edges 0%N = Panic.
Proof. repeat split; vm_compute; reflexivity. Qed.

Example C35_example_sequence :
  run_seq true ex_nodes ex_edges [(ex_id, 2); (ex_rev, 0); (ex_id, 2)]%N =
  [run true ex_id ex_nodes ex_edges 2%N; run true ex_rev ex_nodes ex_edges 0%N; run true ex_id ex_nodes ex_edges 2%N].
Proof. vm_compute. reflexivity. Qed.
