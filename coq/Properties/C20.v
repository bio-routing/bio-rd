(* C20 - Received UPDATEs are applied NLRI by NLRI.
   process_update afi safi u s (Model/UpdateApply.v): processUpdate of the address family (afi, safi)
   on the Adj-RIB-In model state s, outcome Done s' or Panic.  message_ops afi u
   (Spec/UpdateApplySpec.v): the per-NLRI reading of the message - one Announce per announced NLRI of
   the family with that NLRI's own path identifier and the message's attributes, one Withdraw per
   withdrawn NLRI with that NLRI's own identifier, MP_REACH / MP_UNREACH and (IPv4) the classic fields
   alike.  well_typed u: every attribute value has the Go type the decoder gives it. *)
From Coq Require Import List NArith Bool.
Import ListNotations.
From BioVerif Require Import Model.AdjRIBIn Model.UpdateApply Spec.UpdateApplySpec
  Proofs.AdjRIBInProofs Proofs.UpdateApplyProofs.
Open Scope N_scope.

(* For every decoded UPDATE (any number of NLRI per field, any identifiers, any attribute list,
   both encodings, add-path on or off - that is part of the state's session attributes) and every
   Adj-RIB-In state: processing the message is the fold of the per-NLRI operations. *)
Theorem C20_per_nlri : forall (afi : N) (u : update) (s : st),
  well_typed u ->
  process_update afi 1 u s = Done (fold_left step (message_ops afi u) s).
Proof. exact per_nlri. Qed.
Print Assumptions C20_per_nlri.

(* A whole session: after any history pre and any sequence of messages, the Adj-RIB-In (and its
   clients) are in the state reached by the concatenated per-NLRI operations; all C05 / C06
   theorems about [run] therefore apply to what UPDATE processing produces. *)
Theorem C20_per_nlri_session : forall (a : sattrs) (pol : policy) (afi : N) (us : list update) (pre : list op),
  (forall u, In u us -> well_typed u) ->
  process_updates afi 1 us (run a pol pre) = Done (run a pol (pre ++ flat_map (message_ops afi) us)).
Proof. intros a pol afi us pre Hwt. rewrite run_app. apply process_updates_ops, Hwt. Qed.
Print Assumptions C20_per_nlri_session.

(* What one announced NLRI does: its slot (the prefix; with add-path the prefix and ITS identifier)
   afterwards holds exactly one path, carrying that identifier; every other slot is untouched. *)
Theorem C20_announce_installs_one : forall (a : sattrs) (pol : policy) (ops : list op) (p : pfx) (q : path),
  let s := run a pol ops in
  let s' := step s (Announce p q) in
  let slot := fun e : pfx * path => (fst e =? p) && (negb (addpath_rx a) || (pid (snd e) =? pid q)) in
  (exists qs, filter slot (tab s') = [(p, qs)] /\ pid qs = pid q) /\
  filter (fun e => negb (slot e)) (tab s') = filter (fun e => negb (slot e)) (tab s).
Proof. intros a pol ops p q. cbv zeta. rewrite <- (run_apx a pol ops). apply announce_slot. Qed.
Print Assumptions C20_announce_installs_one.

(* What one withdrawn NLRI does: exactly the path with ITS identifier is removed (all paths of the
   prefix without add-path); every other slot is untouched. *)
Theorem C20_withdraw_removes_one : forall (a : sattrs) (pol : policy) (ops : list op) (p : pfx) (i : N),
  let s := run a pol ops in
  let s' := step s (Withdraw p i) in
  let slot := fun e : pfx * path => (fst e =? p) && (negb (addpath_rx a) || (pid (snd e) =? i)) in
  filter slot (tab s') = [] /\
  filter (fun e => negb (slot e)) (tab s') = filter (fun e => negb (slot e)) (tab s).
Proof.
  intros a pol ops p i. cbv zeta. rewrite <- (run_apx a pol ops).
  apply (slot_at _ (Withdraw p i) _ []); [symmetry; apply app_nil_r | intros x []].
Qed.
Print Assumptions C20_withdraw_removes_one.

(* No message the decoder can produce makes processing panic - MP_REACH_NLRI without NLRI included. *)
Theorem C20_no_panic : forall (afi safi : N) (u : update) (s : st),
  well_typed u -> exists s', process_update afi safi u s = Done s'.
Proof. exact no_panic. Qed.
Print Assumptions C20_no_panic.

(* Non-vacuity: an add-path IPv6 session; one UPDATE announces two NLRI with identifiers 7 and 9 via
   MP_REACH_NLRI, a second one withdraws identifier 9 of the first prefix (which holds 7: nothing
   happens) and identifier 9 of the second; an MP_REACH_NLRI without NLRI is harmless; an ill-typed
   attribute value is a panic in the model as it is in Go. *)
Definition ex20_sa : sattrs := mkSA true true 9 65000 100 false false 0.
Definition ex20_u1 : update :=
  mkUpdate [] [AIgnored true; AASPath true [65002]; ALocalPref true 100;
               AReach true (mkReach 2 1 5 [mkNLRI 1 7; mkNLRI 2 9])] [].
Definition ex20_u2 : update :=
  mkUpdate [] [AUnreach true (mkUnreach 2 1 [mkNLRI 1 9; mkNLRI 2 9])] [].
Definition ex20_u3 : update := mkUpdate [] [AReach true (mkReach 2 1 5 [])] [].

Example C20_example :
  (match process_updates 2 1 [ex20_u1] (init ex20_sa (sample_policy 0 0)) with
   | Done s => map (fun e => (fst e, pid (snd e), nhop (snd e))) (tab s) = [(1, 7, 5); (2, 9, 5)]
   | Panic => False end) /\
  (match process_updates 2 1 [ex20_u1; ex20_u2; ex20_u3] (init ex20_sa (sample_policy 0 0)) with
   | Done s => map (fun e => (fst e, pid (snd e))) (tab s) = [(1, 7)]
   | Panic => False end) /\
  process_update 2 1 (mkUpdate [] [AMed false 0] []) (init ex20_sa (sample_policy 0 0)) = Panic.
Proof. vm_compute. repeat split. Qed.
