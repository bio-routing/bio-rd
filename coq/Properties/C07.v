(* C07 - Leaving Established withdraws everything the session contributed. Model/FSM.v, [sys_step]:
   any number of sessions (each an FSM as in C23) sharing one VRF: the IPv4 Loc-RIB as a list of
   (session, route, rewritten-by-import-policy), one Adj-RIB-In per session, the VRF's
   contributing-ASN and cluster-id refcounters (multisets, as util/refcounter), and the number of
   Adj-RIB-Outs registered with each Loc-RIB. [reach cs es] is the speaker after the history es of
   (session, event) pairs, the events being C23's. *)
From Coq Require Import List NArith Bool.
Import ListNotations.
From BioVerif Require Import Model.FSM Proofs.FSMProofs Proofs.FSMSysProofs.
Local Open Scope N_scope.

(* After EVERY history, for every session that is not Established (it never was, or it left by
   whatever event): it is detached, no route of it is in the Loc-RIB - with accepting, rejecting and
   rewriting import policies alike - and its Adj-RIB-In is empty. *)
Theorem C07_withdraws_everything : forall (cs : list cfg) (es : list (nat * ev)) (i : nat) (c : cfg) (s : sess),
  nth_sess (y_sess (reach cs es)) i = Some (c, s) ->
  s_st s <> Established ->
  s_att s = false /\ rib_of (reach cs es) (N.of_nat i) = [] /\ adjin_of (reach cs es) (N.of_nat i) = [].
Proof. intros cs es. apply withdraws_everything, reach_sinv. Qed.
Print Assumptions C07_withdraws_everything.

(* After every history the loop-detection refcounts (contributing ASNs, cluster ids) and the
   Adj-RIB-Outs registered with the Loc-RIBs are exactly the sum of what the currently attached
   (= Established, C23) sessions contribute: a session that left contributes 0, nothing is released
   twice, other sessions' shares are untouched. *)
Theorem C07_refcounts_exact : forall (cs : list cfg) (es : list (nat * ev)),
  let y := reach cs es in
  (forall a, rc_count (y_asn y) a = total (asn_c a) (y_sess y)) /\
  (forall a, rc_count (y_cid y) a = total (cid_c a) (y_sess y)) /\
  y_cl4 y = total cl4_c (y_sess y) /\ y_cl6 y = total cl6_c (y_sess y).
Proof.
  intros cs es. pose proof (si_cnt _ (reach_sinv cs es)) as H.
  repeat split; [intro a; apply (H (CAsn a)) | intro a; apply (H (CCid a)) | apply (H COut4) | apply (H COut6)].
Qed.
Print Assumptions C07_refcounts_exact.

(* Every step that takes an Established session out of Established - for every event - runs uninit. *)
Theorem C07_every_exit_uninits : forall (cs : list cfg) (es : list (nat * ev)) (i : nat) (c : cfg) (s : sess) (e : ev),
  nth_sess (y_sess (reach cs es)) i = Some (c, s) ->
  s_st s = Established ->
  s_st (fst (step c s e)) <> Established ->
  In Uninit (snd (step c s e)) /\ s_att (fst (step c s e)) = false.
Proof. intros cs es i c s e Hn. apply step_exit_uninits, (si_sess _ (reach_sinv cs es) i c s Hn). Qed.
Print Assumptions C07_every_exit_uninits.

(* A later (re-)establishment starts from empty Adj-RIBs. *)
Theorem C07_reestablish_starts_empty : forall (cs : list cfg) (es : list (nat * ev)) (i : nat) (e : ev),
  let y := reach cs es in
  In Init (snd (sys_step y i e)) ->
  rib_of (fst (sys_step y i e)) (N.of_nat i) = [] /\ adjin_of (fst (sys_step y i e)) (N.of_nat i) = [].
Proof. intros cs es. apply reestablish_starts_empty, reach_sinv. Qed.
Print Assumptions C07_reestablish_starts_empty.

(* Exactly its own contribution, nothing else's: whatever the other sessions did (flaps of sessions sharing the
   local AS or the cluster id included), an Established session's local AS - and its cluster id if it is a route
   reflector client - is still a contributing one, so that paths carrying them are still hidden ([apply_poison]). *)
Theorem C07_loop_detection_intact : forall (cs : list cfg) (es : list (nat * ev)) (i : nat) (c : cfg) (s : sess),
  nth_sess (y_sess (reach cs es)) i = Some (c, s) ->
  s_st s = Established -> c_v4 c || c_v6 c = true ->
  0 < rc_count (y_asn (reach cs es)) (c_las c) /\
  (c_rr c = true -> 0 < rc_count (y_cid (reach cs es)) (cluster_of c)).
Proof. intros cs es. apply loop_detection_intact, reach_sinv. Qed.
Print Assumptions C07_loop_detection_intact.

(* Non-vacuity: two sessions; session 0 (rewriting import policy) installs two routes and is then torn
   down by an undecodable UPDATE; session 1's route and refcount share stay. *)
Definition ex_c0 : cfg :=
  {| c_las := 65001; c_pas := 65002; c_rid := 10; c_hold := 90; c_v4 := true; c_v6 := false;
     c_apr4 := false; c_aps4 := false; c_apr6 := false; c_aps6 := false; c_mp4 := false; c_nx4 := false;
     c_role := 0; c_strict := false; c_rr := false; c_cluster := 0; c_imp := ImpRewrite; c_passive := false |}.
Definition ex_c1 : cfg :=
  {| c_las := 65001; c_pas := 65003; c_rid := 10; c_hold := 90; c_v4 := true; c_v6 := false;
     c_apr4 := false; c_aps4 := false; c_apr6 := false; c_aps6 := false; c_mp4 := false; c_nx4 := false;
     c_role := 0; c_strict := false; c_rr := false; c_cluster := 0; c_imp := ImpAccept; c_passive := false |}.
Definition ex_o (a : N) : open_msg := {| o_ver := 4; o_asn := a; o_hold := 90; o_id := 7; o_caps := [CapASN4 a] |}.
Definition ex_hist : list (nat * ev) :=
  [(1%nat, EAdmin 1); (1%nat, ETcpUp false); (1%nat, EMsg (MOpen (ex_o 65003))); (1%nat, EMsg MKeepalive);
   (1%nat, EMsg (MUpdate [4] []));
   (0%nat, EAdmin 1); (0%nat, ETcpUp false); (0%nat, EMsg (MOpen (ex_o 65002))); (0%nat, EMsg MKeepalive);
   (0%nat, EMsg (MUpdate [1; 2] []))].

Example C07_example_before :
  y_rib (reach [ex_c0; ex_c1] ex_hist) = [(1, 4, false); (0, 1, true); (0, 2, true)] /\
  rc_count (y_asn (reach [ex_c0; ex_c1] ex_hist)) 65001 = 2.
Proof. split; reflexivity. Qed.

Example C07_example_after :
  y_rib (reach [ex_c0; ex_c1] (ex_hist ++ [(0%nat, EMsg MBadBody)])) = [(1, 4, false)] /\
  rc_count (y_asn (reach [ex_c0; ex_c1] (ex_hist ++ [(0%nat, EMsg MBadBody)]))) 65001 = 1 /\
  y_cl4 (reach [ex_c0; ex_c1] (ex_hist ++ [(0%nat, EMsg MBadBody)])) = 1.
Proof. repeat split; reflexivity. Qed.
