(* C15 - Prefix and address arithmetic matches the bit-level definitions.
   Model: Model/NetArith.v, Model/IPText.v (transcriptions of /repo/net/prefix.go, ip.go);
   spec: Spec/NetSpec.v (everything defined on the list of address bits, MSB first).
   wf_ip / wf_pfx: an IPv4 address lives in the low 32 bits, words are 64-bit, len <= 32 / 128. *)
From Coq Require Import ZArith Lia List.
Import ListNotations.
From BioVerif Require Import Lib.Word Model.NetArith Model.IPText Spec.NetSpec
  Proofs.NetProofs Proofs.NetSupernet Proofs.IPTextRoundTrip
  Gen.NetGen Proofs.TrieNetGen Proofs.NetGenEquiv.
Open Scope Z_scope.

Theorem C15_contains : forall p x, wf_pfx p -> wf_pfx x ->
  (Contains p x = true <-> contains_spec p x).
Proof. exact Contains_correct. Qed.
Print Assumptions C15_contains.

Theorem C15_equal : forall p x, wf_pfx p -> wf_pfx x ->
  (pfx_equal p x = true <-> equal_spec p x).
Proof. exact Equal_correct. Qed.
Print Assumptions C15_equal.

Theorem C15_valid : forall p, wf_pfx p -> (Valid p = true <-> valid_spec p).
Proof. exact Valid_correct. Qed.
Print Assumptions C15_valid.

Theorem C15_baseaddr : forall p, wf_pfx p ->
  wf_ip (BaseAddr p) /\ legacy (BaseAddr p) = legacy (addr p) /\ ip_bits (BaseAddr p) = base_spec p.
Proof. intros p W. rewrite (BaseAddr_clear p W). destruct W. apply ip_clear_keeps; assumption. Qed.
Print Assumptions C15_baseaddr.

Theorem C15_valid_iff_base : forall p, wf_pfx p -> (Valid p = true <-> BaseAddr p = addr p).
Proof. intros p W. rewrite (Valid_clear p W), (BaseAddr_clear p W). apply ip_equal_eq. Qed.
Print Assumptions C15_valid_iff_base.

(* every uint8 position, 0 and > width included *)
Theorem C15_bitat : forall a pos, wf_ip a -> 0 <= pos < 256 -> BitAtPosition a pos = bit_spec a pos.
Proof. exact BitAtPosition_correct. Qed.
Print Assumptions C15_bitat.

(* address ordering = lexicographic order of the bits, within one family *)
Theorem C15_compare : forall a b, wf_ip a -> wf_ip b -> legacy a = legacy b ->
  ip_compare a b = compare_spec a b.
Proof. exact Compare_correct. Qed.
Print Assumptions C15_compare.

Theorem C15_masklast : forall a n, wf_ip a -> 0 <= n <= width a ->
  wf_ip (MaskLastNBits a n) /\ legacy (MaskLastNBits a n) = legacy a /\
  ip_bits (MaskLastNBits a n) = mask_last_spec a (Z.to_nat n).
Proof.
  intros a n W Hn. rewrite MaskLastNBits_clear by assumption. unfold mask_last_spec. rewrite NetBits.length_ip_bits.
  apply ip_clear_correct; [exact W | lia..].
Qed.
Print Assumptions C15_masklast.

Theorem C15_bytesinaddr : forall l, 0 <= l < 256 -> bytes_spec l (BytesInAddr l).
Proof. exact BytesInAddr_correct. Qed.
Print Assumptions C15_bytesinaddr.

(* The trie (routingtable/trie.go: addPath -> newSuperNode) calls GetSupernet only when the two
   prefixes are not Equal and neither Contains the other.  For canonical prefixes of one family: *)
Theorem C15_trie_precondition : forall p x,
  wf_pfx p -> wf_pfx x -> same_family (addr p) (addr x) -> Valid p = true -> Valid x = true ->
  ((pfx_equal p x = false /\ Contains p x = false /\ Contains x p = false) <->
   (lcp (pbits p) (pbits x) < Z.to_nat (Z.min (plen p) (plen x)))%nat).
Proof. exact trie_precondition_iff. Qed.
Print Assumptions C15_trie_precondition.

(* ... and then the result is the longest common prefix of the two, it is canonical, it strictly
   contains both, and the two prefixes differ in the bit right after it (which is the bit the
   trie uses to place them on different sides) *)
Theorem C15_supernet_trie : forall p x,
  wf_pfx p -> wf_pfx x -> same_family (addr p) (addr x) ->
  Valid p = true -> Valid x = true ->
  pfx_equal p x = false -> Contains p x = false -> Contains x p = false ->
  exists s, GetSupernet p x = Some s /\
    let k := lcp (pbits p) (pbits x) in
    plen s = Z.of_nat k /\ pbits s = supernet_bits k p /\
    wf_pfx s /\ same_family (addr s) (addr p) /\
    Contains s p = true /\ Contains s x = true /\ Valid s = true /\
    BitAtPosition (addr p) (plen s + 1) <> BitAtPosition (addr x) (plen s + 1).
Proof. exact GetSupernet_trie. Qed.
Print Assumptions C15_supernet_trie.

(* what the two functions compute for ALL addresses (no validity assumption): the first k bits
   of pfx, k = min(common bits, min(len)-1) for IPv4 but min(common bits, min(len)) for IPv6 *)
Theorem C15_supernet4 : forall p x,
  wf_pfx p -> wf_pfx x -> legacy (addr p) = true -> legacy (addr x) = true ->
  1 <= Z.min (plen p) (plen x) ->
  exists s, supernetIPv4 p x = Some s /\
    let k := Nat.min (lcp (pbits p) (pbits x)) (Z.to_nat (Z.min (plen p) (plen x)) - 1) in
    plen s = Z.of_nat k /\ wf_pfx s /\ legacy (addr s) = true /\ pbits s = supernet_bits k p.
Proof.
  intros p x Wp Wx Fp Fx Hmin. eexists. split; [apply supernetIPv4_clear; assumption|]. intros k.
  destruct Wp as [Wp Lp]. pose proof (clear_pfx p k Wp) as K. unfold width in *. rewrite Fp in *.
  replace (Z.min _ _) with (Z.of_nat k) by lia. apply K. lia.
Qed.
Print Assumptions C15_supernet4.

Theorem C15_supernet6 : forall p x,
  wf_pfx p -> wf_pfx x -> legacy (addr p) = false -> legacy (addr x) = false ->
  let k := Nat.min (lcp (pbits p) (pbits x)) (Z.to_nat (Z.min (plen p) (plen x))) in
  (k < 128)%nat ->
  exists s, supernetIPv6 p x = Some s /\
    plen s = Z.of_nat k /\ wf_pfx s /\ legacy (addr s) = false /\ pbits s = supernet_bits k p.
Proof.
  intros p x Wp Wx Fp Fx k Hk. eexists. split; [apply supernetIPv6_clear; assumption|].
  destruct Wp as [Wp [Lp _]], Wx as [_ [Lx _]]. pose proof (clear_pfx p k Wp) as K. unfold width in K. rewrite Fp in K.
  replace (Z.min _ _) with (Z.of_nat k) by lia. rewrite Z.max_r by lia. apply K. lia.
Qed.
Print Assumptions C15_supernet6.

(* outside the callers' precondition: uint8 wrap of min(len)-1 at length 0 gives a /255 ... *)
Theorem C15_supernet4_len0_wraps : forall p x,
  0 <= lo (addr p) < 2 ^ 32 -> 0 <= lo (addr x) < 2 ^ 32 ->
  0 <= plen p < 256 -> 0 <= plen x < 256 -> Z.min (plen p) (plen x) = 0 ->
  supernetIPv4 p x = Some (mkpfx (IPv4 0) 255).
Proof. exact (fun p x RA RB _ _ => supernetIPv4_len0_wraps p x RA RB). Qed.
Print Assumptions C15_supernet4_len0_wraps.

(* ... and two identical /128 lose their last address bit *)
Theorem C15_supernet6_at128 : forall p,
  wf_pfx p -> legacy (addr p) = false -> plen p = 128 ->
  supernetIPv6 p p = Some (mkpfx (mkip (hi (addr p)) (lo (addr p) / 2 * 2) false) 128).
Proof. exact supernetIPv6_at128. Qed.
Print Assumptions C15_supernet6_at128.

(* both loops terminate within the model's fuel for every uint8 length *)
Theorem C15_supernet_total4 : forall p x,
  0 <= lo (addr p) -> 0 <= lo (addr x) -> supernetIPv4 p x <> None.
Proof. exact (fun p x _ _ => supernetIPv4_total p x). Qed.
Print Assumptions C15_supernet_total4.

Theorem C15_supernet_total6 : forall p x,
  0 <= plen p < 256 -> 0 <= plen x < 256 -> supernetIPv6 p x <> None.
Proof. exact supernetIPv6_total. Qed.
Print Assumptions C15_supernet_total6.

(* printing then parsing; ParseIP is modelled, see Model/IPText.v *)
Theorem C15_string_total : forall a, wf_ip a -> exists s, ip_string a = Some s.
Proof. intros a _. destruct (ip_string_bytes a) as (s & Hs & _). exists s. exact Hs. Qed.
Print Assumptions C15_string_total.

Theorem C15_parse_format4 : forall a, wf_ip a -> legacy a = true ->
  ip_string a = Some (stringIPv4 a) /\ IPFromString (stringIPv4 a) = Some a.
Proof.
  intros a W F. destruct (ip_string_bytes a) as (s & Hs & Hp).
  rewrite IPFromBytes_Bytes, F in Hp by exact W. rewrite (ip_string4 a F) in Hs.
  injection Hs as <-. split; [exact (ip_string4 a F) | exact Hp].
Qed.
Print Assumptions C15_parse_format4.

(* KNOWN FINDING roundtrip6-v4mapped: an IPv6 value inside ::ffff:0:0/96 is printed as
   "::ffff:xxxx:xxxx" and parsed back as the IPv4 address (net.IP.To4 in IPFromString) *)
Theorem C15_parse_format6_refuted :
  exists a, wf_ip a /\ legacy a = false /\
            exists s, ip_string a = Some s /\ IPFromString s <> Some a.
Proof.
  exists (mkip 0 281470698652420 false). split; [|split; [reflexivity|]].
  - unfold wf_ip. cbn [legacy hi lo]. repeat split; vm_compute; congruence.
  - eexists. split; [vm_compute; reflexivity|]. vm_compute. discriminate.
Qed.
Print Assumptions C15_parse_format6_refuted.

Theorem C15_parse_format6_partial : forall a, wf_ip a -> legacy a = false -> ~ v4mapped a ->
  exists s, ip_string a = Some s /\ IPFromString s = Some a.
Proof.
  intros a W F NM. destruct (parse_format6 a W F) as (s & Hs & Hp). exists s. split; [exact Hs|].
  destruct (mapped_bytes (bytesIPv6 a)) eqn:M; [|exact Hp].
  destruct NM. apply (v4mapped_bytes a W F), M.
Qed.
Print Assumptions C15_parse_format6_partial.

Theorem C15_parse_format6_v4mapped : forall a, wf_ip a -> legacy a = false -> v4mapped a ->
  exists s, ip_string a = Some s /\ IPFromString s = Some (mkip 0 (lo a mod 2 ^ 32) true).
Proof.
  intros a W F M. destruct (parse_format6 a W F) as (s & Hs & Hp). exists s. split; [exact Hs|].
  apply (v4mapped_bytes a W F) in M. rewrite M in Hp. exact Hp.
Qed.
Print Assumptions C15_parse_format6_v4mapped.

(* a prefix: the address part as above, the length always comes back *)
Theorem C15_parse_format_pfx : forall p s a',
  wf_ip (addr p) -> 0 <= plen p < 256 ->
  ip_string (addr p) = Some s -> IPFromString s = Some a' ->
  pfx_string p = Some (s ++ [c_slash] ++ fmt_dec (plen p)) /\
  PrefixFromString (s ++ [c_slash] ++ fmt_dec (plen p)) = Some (mkpfx a' (plen p)).
Proof. exact (fun p s a' _ => parse_format_pfx p s a'). Qed.
Print Assumptions C15_parse_format_pfx.

(* the model regenerated from the Go source on this run (Gen/NetGen.v, tools/gosub2coq):
   every translated function that has a hand-written transcription equals it (IP.copy and util/math.Min,
   Max have none: Proofs/NetGenEquiv.v compares them with the identity, Z.min, Z.max), so every theorem
   above holds for net/prefix.go and net/ip.go as read on this run *)
Theorem C15_generated_model_agrees :
  (forall p x, g_Prefix_Contains p x = Contains p x) /\
  (forall p x, g_Prefix_containsIPv4 p x = containsIPv4 p x) /\
  (forall p x, g_Prefix_containsIPv6 p x = containsIPv6 p x) /\
  (forall p x, g_Prefix_Equal p x = pfx_equal p x) /\
  (forall a b, g_IP_Equal a b = ip_equal a b) /\
  (forall a b, g_IP_Compare a b = ip_compare a b) /\
  (forall p x, g_Prefix_supernetIPv4 p x = supernetIPv4 p x) /\
  (forall p x, g_Prefix_supernetIPv6 p x = supernetIPv6 p x) /\
  (forall p x, g_Prefix_GetSupernet p x = GetSupernet p x) /\
  (forall p, g_Prefix_Valid p = Valid p) /\
  (forall x n, g_checkLastNBitsUint32 x n = checkLastNBitsUint32 x n) /\
  (forall x n, g_checkLastNBitsUint64 x n = checkLastNBitsUint64 x n) /\
  (forall p, g_Prefix_baseAddr4 p = baseAddr4 p) /\
  (forall p, g_Prefix_baseAddr6 p = baseAddr6 p) /\
  (forall p, g_Prefix_BaseAddr p = BaseAddr p) /\
  (forall a pos, g_IP_BitAtPosition a pos = BitAtPosition a pos) /\
  (forall a pos, g_IP_bitAtPositionIPv4 a pos = bitAtPositionIPv4 a pos) /\
  (forall a pos, g_IP_bitAtPositionIPv6 a pos = bitAtPositionIPv6 a pos) /\
  (forall a n, g_IP_MaskLastNBits a n = MaskLastNBits a n) /\
  (forall a n, g_IP_maskLastNBitsIPv4 a n = maskLastNBitsIPv4 a n) /\
  (forall a n, g_IP_maskLastNBitsIPv6 a n = maskLastNBitsIPv6 a n) /\
  (forall a, g_IP_ToUint32 a = ToUint32 a) /\
  (forall a b, g_min a b = wminu a b) /\
  (forall v, g_IPv4 v = IPv4 v) /\ (forall h l, g_IPv6 h l = IPv6 h l) /\ (forall a l, g_NewPfx a l = NewPfx a l).
Proof.
  exact
    (conj tg_Contains_eq (conj gen_containsIPv4_eq (conj gen_containsIPv6_eq (conj gen_Prefix_Equal_eq
    (conj gen_IP_Equal_eq (conj gen_IP_Compare_eq (conj tg_supernetIPv4_eq (conj gen_supernetIPv6_eq
    (conj tg_GetSupernet_eq (conj gen_Valid_eq (conj gen_checkLastNBitsUint32_eq (conj gen_checkLastNBitsUint64_eq
    (conj gen_baseAddr4_eq (conj gen_baseAddr6_eq (conj gen_BaseAddr_eq (conj tg_BitAtPosition_eq
    (conj gen_bitAtPositionIPv4_eq (conj gen_bitAtPositionIPv6_eq (conj gen_MaskLastNBits_eq
    (conj gen_maskLastNBitsIPv4_eq (conj gen_maskLastNBitsIPv6_eq (conj gen_ToUint32_eq (conj gen_min_eq
    (conj gen_IPv4_eq (conj gen_IPv6_eq gen_NewPfx_eq))))))))))))))))))))))))).
Qed.
Print Assumptions C15_generated_model_agrees.

Theorem C15_contains_gen : forall p x, wf_pfx p -> wf_pfx x ->
  (g_Prefix_Contains p x = true <-> contains_spec p x).
Proof. intros p x. rewrite tg_Contains_eq. apply Contains_correct. Qed.
Print Assumptions C15_contains_gen.

Theorem C15_supernet_trie_gen : forall p x,
  wf_pfx p -> wf_pfx x -> same_family (addr p) (addr x) ->
  g_Prefix_Valid p = true -> g_Prefix_Valid x = true ->
  g_Prefix_Equal p x = false -> g_Prefix_Contains p x = false -> g_Prefix_Contains x p = false ->
  exists s, g_Prefix_GetSupernet p x = Some s /\
    let k := lcp (pbits p) (pbits x) in
    plen s = Z.of_nat k /\ pbits s = supernet_bits k p /\
    wf_pfx s /\ same_family (addr s) (addr p) /\
    g_Prefix_Contains s p = true /\ g_Prefix_Contains s x = true /\ g_Prefix_Valid s = true /\
    g_IP_BitAtPosition (addr p) (plen s + 1) <> g_IP_BitAtPosition (addr x) (plen s + 1).
Proof.
  intros p x. rewrite !gen_Valid_eq, gen_Prefix_Equal_eq, !tg_Contains_eq, tg_GetSupernet_eq.
  intros Wp Wx F Vp Vx NE C1 C2.
  destruct (GetSupernet_trie p x Wp Wx F Vp Vx NE C1 C2) as (s & Hs & H).
  exists s. split; [exact Hs|]. rewrite !gen_Valid_eq, !tg_Contains_eq, !tg_BitAtPosition_eq. exact H.
Qed.
Print Assumptions C15_supernet_trie_gen.

(* 2001:db8::/48 does not contain 2001:db8:ffff::/64 (it did before the fix of the masks) *)
Example C15_example_contains6 :
  Contains (mkpfx (IPv6 0x20010db800000000 0) 48) (mkpfx (IPv6 0x20010db8ffff0000 0) 64) = false /\
  Contains (mkpfx (IPv6 0x20010db800000000 0) 32) (mkpfx (IPv6 0x20010db8ffff0000 0) 64) = true /\
  Contains (mkpfx (IPv4 0) 0) (mkpfx (IPv6 0x20010db800000000 0) 32) = false.
Proof. repeat split; vm_compute; reflexivity. Qed.

(* common length exactly 64: 2001:db8:0:1::/128 and 2001:db8:0:1:8000::/128 *)
Example C15_example_supernet_at64 :
  GetSupernet (mkpfx (IPv6 0x20010db800000001 0) 128) (mkpfx (IPv6 0x20010db800000001 0x8000000000000000) 128)
  = Some (mkpfx (IPv6 0x20010db800000001 0) 64).
Proof. vm_compute. reflexivity. Qed.

(* the hypotheses of C15_supernet_trie are satisfiable: 10.0.0.0/9 and 10.128.0.0/9 *)
Example C15_example_trie_precondition :
  let p := mkpfx (IPv4 0x0a000000) 9 in let x := mkpfx (IPv4 0x0a800000) 9 in
  Valid p = true /\ Valid x = true /\ pfx_equal p x = false /\ Contains p x = false /\
  Contains x p = false /\ GetSupernet p x = Some (mkpfx (IPv4 0x0a000000) 8).
Proof. repeat split; vm_compute; reflexivity. Qed.
