(* C06 - Ineligible paths never reach the Loc-RIB nor any other client.
   [ineligible a las lcs q] (Spec/AdjRIBInSpec.v), the five clauses: a local ASN (multiset las) in the
   AS_PATH, local router id as ORIGINATOR_ID, a local cluster id (lcs) in the CLUSTER_LIST, RFC 9234 OTC
   check failure, empty AS_PATH on eBGP.  [justified]: where a delivered path may come from - the image,
   under a policy that was in force at some time, of an announcement that was eligible WHEN RECEIVED. *)
From Coq Require Import List NArith Bool.
Import ListNotations.
From BioVerif Require Import Model.AdjRIBIn Spec.AdjRIBInSpec Proofs.AdjRIBInProofs.
Open Scope N_scope.

(* For ALL histories - announcements, withdrawals, flushes, registrations at any time (late ones
   included, repeated ones included), any number of policy replacements by arbitrary policies,
   VRF ASN / cluster-id changes - and all session configurations: whatever any client holds and
   whatever was ever handed to any client stems from an announcement that was eligible when it
   was received.  No hypothesis on the history. *)
Theorem C06_never_installed : forall (a : sattrs) (pol : policy) (ops : list op),
  let s := run a pol ops in
  (forall c p q', In (p, q') (ct_get c (ctabs s)) -> justified a pol ops p q') /\
  (forall e c p q', In e (log s) -> delivered e = Some (c, p, q') -> justified a pol ops p q').
Proof. intros a pol ops. pose proof (run_Gd a pol [] ops) as H. rewrite app_nil_r in H. exact H. Qed.
Print Assumptions C06_never_installed.

(* Contrapositive reading: if every announcement for a prefix was ineligible, no client ever holds
   or is handed anything for that prefix, whatever the policies do and whenever clients register. *)
Theorem C06_ineligible_never : forall (a : sattrs) (pol : policy) (ops : list op) (p : pfx),
  (forall pre q post, ops = pre ++ Announce p q :: post ->
     ineligible a (s_las (spec_run a pre)) (s_lcs (spec_run a pre)) q = true) ->
  let s := run a pol ops in
  (forall c q', ~ In (p, q') (ct_get c (ctabs s))) /\
  (forall e c q', In e (log s) -> delivered e <> Some (c, p, q')).
Proof.
  intros a pol ops p Hall. apply (Gd_none _ _ _ p (C06_never_installed a pol ops)).
  intros qn (pre&q&post&E&H1&_). rewrite (Hall pre q post E) in H1. discriminate.
Qed.
Print Assumptions C06_ineligible_never.

(* The mark the Adj-RIB-In puts on a received path (HiddenReason) is exactly the five clauses,
   evaluated against the VRF's local ASNs / cluster ids at that moment. *)
Theorem C06_hidden_iff_ineligible : forall (a : sattrs) (pol : policy) (ops : list op) (p : pfx) (q : path),
  let s' := run a pol (ops ++ [Announce p q]) in
  exists qs, In (p, qs) (tab s') /\ pid qs = pid q /\
    (hid qs =? 0) = negb (ineligible a (s_las (spec_run a ops)) (s_lcs (spec_run a ops)) q).
Proof.
  intros a pol ops p q. cbv zeta. rewrite run_snoc. exists (stored_form (run a pol ops) q).
  split; [rewrite (step_tab (Announce p q)); apply in_or_app; right; left; reflexivity|].
  split; [apply stored_form_pid|]. destruct (run_Sim a pol ops) as [Hsa _ Has Hcs].
  destruct (stored_form_spec _ _ _ q Has Hcs) as [H _]. rewrite Hsa in H. exact H.
Qed.
Print Assumptions C06_hidden_iff_ineligible.

(* The OTC clause is the RFC 9234 ingress table, for every role value of the neighbour. *)
Theorem C06_otc_matrix : forall (a : sattrs) (q : path),
  otc_check_fails a q =
  roles_negotiated a && otc_table (role_remote a) (negb (otc q =? 0)) (otc q =? peer_asn a).
Proof. exact otc_matrix. Qed.
Print Assumptions C06_otc_matrix.

(* Non-vacuity: iBGP route-reflector client session, policy reject-all; three ineligible paths
   (own originator id 9, own cluster id 1, own ASN 65000) and one eligible path are received, then
   the policy is replaced by accept-all and a second client registers late.  Only the eligible
   path is ever delivered. *)
Definition ex6_sa : sattrs := mkSA true true 9 65000 100 false false 0.
Definition ex6_ops : list op :=
  [AddASN 65000; AddCID 1; Register 0;
   Announce 0 (mkPath 1 100 0 1 [65002] 9 [] 0 0);
   Announce 0 (mkPath 2 100 0 1 [65002] 0 [2; 1] 0 0);
   Announce 1 (mkPath 1 100 0 1 [65002; 65000] 0 [] 0 0);
   Announce 2 (mkPath 1 100 0 1 [65002] 5 [3] 0 0);
   ReplaceChain (sample_policy 0 0); Register 1].

Example C06_example :
  let s := run ex6_sa (sample_policy 1 0) ex6_ops in
  map (fun e => hid (snd e)) (tab s) = [4; 5; 3; 0] /\
  ct_get 0 (ctabs s) = [(2, mkPath 1 100 0 1 [65002] 5 [3] 0 0)] /\
  ct_get 1 (ctabs s) = [(2, mkPath 1 100 0 1 [65002] 5 [3] 0 0)] /\
  map delivered (log s) =
    [None; Some (1, 2, mkPath 1 100 0 1 [65002] 5 [3] 0 0); Some (0, 2, mkPath 1 100 0 1 [65002] 5 [3] 0 0); None].
Proof. vm_compute. repeat split. Qed.
