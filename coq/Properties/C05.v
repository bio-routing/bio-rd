(* C05 - The Loc-RIB mirrors the accepted paths of each Adj-RIB-In.
   [run a pol ops] (Model/AdjRIBIn.v): the Adj-RIB-In after the history ops, session attributes a,
   initial import policy pol (ANY function pfx -> path -> option path); a client c is a Loc-RIB.
   [spec_run a ops] (Spec/AdjRIBInSpec.v): the announcements in force (latest per prefix / per prefix
   and path id, not withdrawn, not flushed) with their eligibility when received;
   [contribution pol anns]: the eligible ones, each rewritten by pol.  [ekey]: a (prefix, path) pair up
   to the two fields Path.Compare ignores (OnlyToCustomer, HiddenReason).  [reg_once]: Register is only
   called for a client that is not registered; [replace_ok]: when the policy is replaced, old and new
   policy keep path identifiers (no filter action can change them). *)
From Coq Require Import List NArith Bool Permutation.
Import ListNotations.
From BioVerif Require Import Model.AdjRIBIn Spec.AdjRIBInSpec Proofs.AdjRIBInProofs.
Open Scope N_scope.

(* The property as stated: fixed import policy, all histories of announce / withdraw / flush /
   register / unregister / VRF changes, any session kind, any policy.  At every point a registered
   client holds exactly the contribution; a client that is not registered holds nothing of it. *)
Theorem C05_mirror : forall (a : sattrs) (pol : policy) (ops : list op),
  fixed_policy ops -> reg_once [] ops = true ->
  forall c,
    (In c (spec_regs ops) ->
       Permutation (map ekey (ct_get c (ctabs (run a pol ops))))
                   (map ekey (contribution pol (s_anns (spec_run a ops))))) /\
    (~ In c (spec_regs ops) -> ct_get c (ctabs (run a pol ops)) = []).
Proof. exact mirror_fixed. Qed.
Print Assumptions C05_mirror.

(* The same with policy replacements in the history (ReplaceFilterChain): the clients mirror the
   contribution under the policy now in force. *)
Theorem C05_mirror_replace : forall (a : sattrs) (pol : policy) (ops : list op),
  reg_once [] ops = true -> replace_ok pol ops ->
  forall c,
    (In c (spec_regs ops) ->
       Permutation (map ekey (ct_get c (ctabs (run a pol ops))))
                   (map ekey (contribution (final_policy pol ops) (s_anns (spec_run a ops))))) /\
    (~ In c (spec_regs ops) -> ct_get c (ctabs (run a pol ops)) = []).
Proof. exact mirror. Qed.
Print Assumptions C05_mirror_replace.

(* A new announcement replaces the previous one of the same prefix (and path id with add-path RX):
   afterwards the slot holds exactly one path, carrying the announced identifier; all other slots
   are untouched. *)
Theorem C05_announce_replaces : forall (a : sattrs) (pol : policy) (ops : list op) (p : pfx) (q : path),
  let s := run a pol ops in
  let s' := step s (Announce p q) in
  let slot := fun e : pfx * path => (fst e =? p) && (negb (addpath_rx a) || (pid (snd e) =? pid q)) in
  (exists qs, filter slot (tab s') = [(p, qs)] /\ pid qs = pid q) /\
  filter (fun e => negb (slot e)) (tab s') = filter (fun e => negb (slot e)) (tab s).
Proof. intros a pol ops p q. cbv zeta. rewrite <- (run_apx a pol ops). apply announce_slot. Qed.
Print Assumptions C05_announce_replaces.

(* Unregistering removes exactly what the session contributed, rewritten paths included: the client
   is left with nothing of it, the RemovePath calls are exactly the contribution, nobody else is
   touched. *)
Theorem C05_unregister_exact : forall (a : sattrs) (pol : policy) (ops : list op) (c : N),
  reg_once [] ops = true -> replace_ok pol ops -> In c (spec_regs ops) ->
  let s := run a pol ops in
  let s' := step s (Unregister c) in
  let contributed := contribution (final_policy pol ops) (s_anns (spec_run a ops)) in
  ct_get c (ctabs s') = [] /\
  log s' = rev (map (fun x => EvRemove c (fst x) (snd x)) contributed) ++ log s /\
  tab s' = tab s /\
  (forall c', c' <> c -> ct_get c' (ctabs s') = ct_get c' (ctabs s)).
Proof.
  intros a pol ops c Hreg Hrep Hc. cbv zeta. split; [apply unregister_empties, run_Inv; assumption|].
  rewrite <- run_contribution. apply unregister_calls. rewrite run_regs. exact Hc.
Qed.
Print Assumptions C05_unregister_exact.

(* Flushing empties the Adj-RIB-In and removes the whole contribution from every client. *)
Theorem C05_flush_exact : forall (a : sattrs) (pol : policy) (ops : list op),
  reg_once [] ops = true -> replace_ok pol ops ->
  let s' := run a pol (ops ++ [Flush]) in
  tab s' = [] /\ forall c, ct_get c (ctabs s') = [].
Proof.
  intros a pol ops Hreg Hrep. cbv zeta. rewrite run_snoc.
  split; [apply (step_tab Flush) | apply flush_empties, run_Inv; assumption].
Qed.
Print Assumptions C05_flush_exact.

(* Non-vacuity: eBGP session with add-path RX and an import policy that sets LOCAL_PREF 200.
   Two announcements for prefix 1 (ids 7 and 9, the second one with our own ASN 65000 in the
   AS_PATH), then a replacement of id 7.  The Loc-RIB (client 0) holds the rewritten, eligible one;
   after Unregister it holds nothing. *)
Definition ex_sa : sattrs := mkSA false true 9 65001 100 false false 0.
Definition ex_ops : list op :=
  [AddASN 65000; Register 0;
   Announce 1 (mkPath 7 0 0 1 [65001] 0 [] 0 0);
   Announce 1 (mkPath 9 0 0 1 [65001; 65000] 0 [] 0 0);
   Announce 1 (mkPath 7 0 5 2 [65001; 65002] 0 [] 0 0)].

Example C05_example_mirror :
  ct_get 0 (ctabs (run ex_sa (sample_policy 3 200) ex_ops)) = [(1, mkPath 7 200 5 2 [65001; 65002] 0 [] 0 0)] /\
  contribution (sample_policy 3 200) (s_anns (spec_run ex_sa ex_ops)) = [(1, mkPath 7 200 5 2 [65001; 65002] 0 [] 0 0)] /\
  map (fun e => hid (snd e)) (tab (run ex_sa (sample_policy 3 200) ex_ops)) = [3; 0] /\
  reg_once [] ex_ops = true /\ spec_regs ex_ops = [0] /\
  ct_get 0 (ctabs (run ex_sa (sample_policy 3 200) (ex_ops ++ [Unregister 0]))) = [].
Proof. vm_compute. repeat split. Qed.
