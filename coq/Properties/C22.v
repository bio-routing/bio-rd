(* C22 - OPEN negotiation admits only valid sessions and negotiates correctly. Model: Model/FSM.v
   ([open_received], [process_caps], [sent_open]); specification Spec/OpenSpec.v: [valid_open]
   (version, peer AS resolved through AS_TRANS and the 4-octet capability, identifier, hold time 0
   or >= 3, RFC 9234 role pairs) and [negotiated_ok] (hold time = the smaller offer; every option on
   exactly when both OPENs advertised it). *)
From Coq Require Import List NArith.
Import ListNotations.
From BioVerif Require Import Model.FSM Spec.OpenSpec
  Proofs.FSMProofs Proofs.OpenAdmission.
Local Open Scope N_scope.

(* Any OPEN (any list of capabilities in any order, repeated or unknown ones included) received in
   OpenSent over a working connection: a valid one is answered with KEEPALIVE only and the session
   goes to OpenConfirm with exactly the negotiated parameters of the specification; an invalid one
   is answered with an OPEN Message Error NOTIFICATION (subcode 1, 2, 3, 6 or 11), the connection is
   closed and the session is Idle. *)
Theorem C22_admits_only_valid : forall (c : cfg) (s : sess) (o : open_msg),
  inv s -> s_st s = OpenSent -> wr_ok s = true ->
  (valid_open c o ->
     s_st (fst (step c s (EMsg (MOpen o)))) = OpenConfirm /\
     snd (step c s (EMsg (MOpen o))) = [SentKeepalive] /\
     negotiated_ok c o (s_neg (fst (step c s (EMsg (MOpen o))))) /\
     s_conn (fst (step c s (EMsg (MOpen o)))) = s_conn s) /\
  (~ valid_open c o ->
     exists sub pre,
       snd (step c s (EMsg (MOpen o))) = pre ++ [SentNotification 2 sub; Closed] /\
       (pre = [] \/ pre = [SentKeepalive]) /\ In sub [1; 2; 3; 6; 11] /\
       s_st (fst (step c s (EMsg (MOpen o)))) = Idle /\
       s_conn (fst (step c s (EMsg (MOpen o)))) = ConnClosed).
Proof.
  intros c s o _ Hst Hw. pose proof (open_admission c s o Hst Hw) as H. rewrite valid_open_iff.
  destruct (step c s (EMsg (MOpen o))) as [s' os].
  destruct (valid_openb c o); split; intro V; try exact H; [destruct V; reflexivity | discriminate V].
Qed.
Print Assumptions C22_admits_only_valid.

(* There is no other way up: from any reachable state, whatever the event, OpenConfirm is entered only
   by a valid OPEN received in OpenSent, and Established only from OpenConfirm (by C23 through a
   KEEPALIVE). Hence a session reaches Established only if the peer's OPEN was valid. *)
Theorem C22_only_valid_opens_reach_openconfirm : forall (c : cfg) (es : list ev) (e : ev),
  s_st (final c es) <> OpenConfirm -> s_st (fst (step c (final c es) e)) = OpenConfirm ->
  exists o, e = EMsg (MOpen o) /\ s_st (final c es) = OpenSent /\ valid_open c o /\
            negotiated_ok c o (s_neg (fst (step c (final c es) e))).
Proof. intros c es e. apply enters_openconfirm. apply final_inv. Qed.
Print Assumptions C22_only_valid_opens_reach_openconfirm.

Theorem C22_established_only_from_openconfirm : forall (c : cfg) (es : list ev) (e : ev),
  s_st (final c es) <> Established -> s_st (fst (step c (final c es) e)) = Established ->
  s_st (final c es) = OpenConfirm.
Proof. intros c es e. apply enters_established. apply final_inv. Qed.
Print Assumptions C22_established_only_from_openconfirm.

(* The capability loop computes the specification's negotiated parameters for every OPEN, whatever the
   state the previous connection left behind (it is reset first). *)
Theorem C22_negotiates : forall (c : cfg) (o : open_msg), negotiated_ok c o (k_neg (process_caps c o)).
Proof. exact caps_negotiated. Qed.
Print Assumptions C22_negotiates.

(* the code's three predicates are the RFC 9234 table, also outside the roles 0..4 *)
Theorem C22_role_matrix : forall l r : N, roles_compatible l r = rfc9234_pair l r.
Proof. exact pair_table. Qed.
Print Assumptions C22_role_matrix.

(* The role we announce is the RFC 9234 value of the configured role. *)
Example C22_example_sent_role :
  forall c, ebgp c = true -> c_role c = 1 -> In (CapRole 0) (o_caps (sent_open c)).
Proof.
  intros c He Hr. unfold sent_open. cbn [o_caps].
  repeat (apply in_or_app; right).
  unfold role_enabled. rewrite He, Hr. cbn. left. reflexivity.
Qed.

(* Our own capability list is a function of the configuration ([sent_open], transcribed from newPeer):
   with IPv4.NextHopExtended the multiprotocol capability for IPv4 is on the wire even if
   AdvertiseIPv4MultiProtocol is off - which is what entitles the session to enable it ([C22_negotiates]
   speaks about this list, not about configuration flags). *)
Example C22_example_nexthop_extended :
  forall c, c_v4 c = true -> c_nx4 c = true ->
  In (CapMP 1 1) (o_caps (sent_open c)) /\ In (CapExtNH 1 1 2) (o_caps (sent_open c)).
Proof.
  intros c H4 Hn. unfold sent_open. cbn [o_caps]. rewrite H4, Hn. cbn [andb].
  split; apply in_or_app; right; apply in_or_app; right; apply in_or_app; right; apply in_or_app; left; cbn; tauto.
Qed.

Definition exc : cfg :=
  {| c_las := 65001; c_pas := 300000; c_rid := 10; c_hold := 90; c_v4 := true; c_v6 := true;
     c_apr4 := true; c_aps4 := false; c_apr6 := false; c_aps6 := true; c_mp4 := false; c_nx4 := false;
     c_role := 1; c_strict := true; c_rr := false; c_cluster := 0; c_imp := ImpAccept; c_passive := false |}.
Definition exo : open_msg :=
  {| o_ver := 4; o_asn := 23456; o_hold := 30; o_id := 7;
     o_caps := [CapMP 2 1; CapAddPath 1 1 3; CapAddPath 2 1 2; CapRole 3; CapASN4 300000; CapUnknown 70] |}.
Example C22_example_valid : valid_open exc exo.
Proof. apply valid_open_iff. reflexivity. Qed.
Example C22_example_negotiated :
  let n := k_neg (process_caps exc exo) in
  n_hold n = 30 /\ n_asn4 n = true /\ n_rx4 n = true /\ n_tx4 n = false /\ n_rx6 n = false /\ n_tx6 n = false /\
  n_mp4 n = false /\ n_mp6 n = true.
Proof. cbn. repeat split; reflexivity. Qed.
Example C22_example_invalid_hold : ~ valid_open exc {| o_ver := 4; o_asn := 23456; o_hold := 2; o_id := 7; o_caps := o_caps exo |}.
Proof. intro H. apply valid_open_iff in H. discriminate. Qed.
