(* C23 - The session state machine refines the RFC 4271 FSM model. Model: Model/FSM.v ([step] = one
   event as fsm.run() processes it); specification: Spec/RFC4271FSM.v ([spec_step]: RFC 4271 state
   diagram + the three coupling requirements). *)
From Coq Require Import List NArith.
Import ListNotations.
From BioVerif Require Import Model.FSM Spec.RFC4271FSM Proofs.FSMProofs Proofs.FSMSysProofs.
Local Open Scope N_scope.

(* For every configuration and EVERY finite sequence of administrative events, connection events,
   received transmissions (well-formed or not) and timer expiries, the sequence of states the session
   goes through is a behaviour of the abstract RFC 4271 machine: each step is an edge of the RFC state
   diagram, attachment changes through Init/Uninit only and holds exactly in Established, UPDATEs are
   processed only in Established, leaving OpenSent/OpenConfirm/Established for Idle (or being
   destroyed) closes the connection, and nothing panics. *)
Theorem C23_refines : forall (c : cfg) (es : list ev),
  spec_trace (abs (init_sess c)) (snd (run c (init_sess c) es)) (abs (final c es)).
Proof. exact refines. Qed.
Print Assumptions C23_refines.

(* The three requirements, stated directly on the model for all event sequences. *)
Theorem C23_attached_iff_established : forall (c : cfg) (es : list ev),
  s_att (final c es) = true <-> s_st (final c es) = Established.
Proof. intros c es. apply (final_inv c es). Qed.
Print Assumptions C23_attached_iff_established.

Theorem C23_updates_only_in_established : forall (c : cfg) (es : list ev) (e : ev) (ann wd : list N),
  In (ProcessedUpdate ann wd) (snd (step c (final c es) e)) ->
  s_st (final c es) = Established /\ s_st (fst (step c (final c es) e)) = Established.
Proof. intros c es e ann wd. apply step_updates_established, final_inv. Qed.
Print Assumptions C23_updates_only_in_established.

Theorem C23_down_closes : forall (c : cfg) (es : list ev) (e : ev),
  in_session (s_st (final c es)) = true ->
  is_down (s_st (fst (step c (final c es) e))) = true ->
  In Closed (snd (step c (final c es) e)) /\ s_conn (fst (step c (final c es) e)) = ConnClosed.
Proof. intros c es e. apply (sf_down_closes _ _ _ _ (step_facts c _ e (final_inv c es))). Qed.
Print Assumptions C23_down_closes.

Theorem C23_no_crash : forall (c : cfg) (es : list ev) (e : ev),
  ~ In Crash (snd (step c (final c es) e)).
Proof. intros c es e. apply step_no_crash, final_inv. Qed.
Print Assumptions C23_no_crash.

(* "Attached" is about what the Loc-RIB holds, whatever import policy was in force when the session came
   up: replacing the import policy of an attached session (bgpServer.ReplaceImportFilterChain) makes the
   Loc-RIB hold exactly what the new policy makes of the eligible paths of its Adj-RIB-In. *)
Theorem C23_policy_replacement_reattaches : forall (y : sys) (i : nat) (c : cfg) (s : sess) (p : import_policy),
  nth_sess (y_sess y) i = Some (c, s) -> s_st s <> Ceased -> s_att s = true -> c_v4 c = true ->
  FSMSysProofs.rib_of (fst (sys_step y i (EReplaceImport p))) (N.of_nat i) =
  flat_map (fun rid => if is_hidden (y_hidden y) (N.of_nat i) rid then [] else imported p (N.of_nat i) rid)
           (FSMSysProofs.adjin_of y (N.of_nat i)).
Proof. exact replacement_reattaches. Qed.
Print Assumptions C23_policy_replacement_reattaches.

(* Non-vacuity: an eBGP session that is established, receives an UPDATE and then a message with a
   damaged marker: it is Established and attached before, Idle, detached and closed afterwards,
   having sent NOTIFICATION 1/1. *)
Definition ex_cfg : cfg :=
  {| c_las := 65001; c_pas := 65002; c_rid := 10; c_hold := 90; c_v4 := true; c_v6 := true;
     c_apr4 := false; c_aps4 := false; c_apr6 := false; c_aps6 := false; c_mp4 := false; c_nx4 := false;
     c_role := 0; c_strict := false; c_rr := false; c_cluster := 0; c_imp := ImpAccept; c_passive := false |}.
Definition ex_open : open_msg :=
  {| o_ver := 4; o_asn := 65002; o_hold := 30; o_id := 7; o_caps := [CapASN4 65002; CapMP 2 1] |}.
Definition ex_up : list ev :=
  [EAdmin 1; ETcpUp false; EMsg (MOpen ex_open); EMsg MKeepalive; EMsg (MUpdate [1; 2] [])].

Example C23_example_established :
  s_st (final ex_cfg ex_up) = Established /\ s_att (final ex_cfg ex_up) = true /\
  n_hold (s_neg (final ex_cfg ex_up)) = 30.
Proof. repeat split; reflexivity. Qed.

Example C23_example_decode_error :
  snd (step ex_cfg (final ex_cfg ex_up) (EMsg (MHeader false 19 4 0))) = [SentNotification 1 1; Uninit; Closed] /\
  s_st (fst (step ex_cfg (final ex_cfg ex_up) (EMsg (MHeader false 19 4 0)))) = Idle /\
  s_att (fst (step ex_cfg (final ex_cfg ex_up) (EMsg (MHeader false 19 4 0)))) = false.
Proof. repeat split; vm_compute; reflexivity. Qed.
