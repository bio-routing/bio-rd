(* C32 - The IS-IS LSDB follows the ISO 10589 update process. Model: Model/LSDB.v (the repaired
   lsdb.go: PSNP entries handled like CSNP entries; a newer copy of the own LSP raises the sequence
   counter and requests a regeneration, it is not installed). Histories: any receptions, aging ticks,
   updater runs, forced regenerations and transmission runs, on any set of interfaces (active with /
   without neighbor, passive). *)
From Coq Require Import List NArith.
Import ListNotations.
From BioVerif Require Import Model.LSDB Spec.LSDBSpec Proofs.LSDBProofs.
Open Scope N_scope.

(* ---- per LSP ID the copy with the highest sequence number is kept until it ages out *)

(* Reception of an LSP (in ANY state): afterwards the database copy of that id carries the higher of
   the two sequence numbers, with the lifetime of the copy that won; no other id is touched; a
   newer copy of the own LSP is not installed but raises the counter and requests a regeneration. *)
Theorem C32_highest_seq_kept : forall s i k sq lt,
  let s' := recv_lsp s i k sq lt in
  (forall k', k' <> k -> lookup k' (db s') = lookup k' (db s)) /\
  (local_newer s k sq = true ->
     db s' = db s /\ counter s' = N.max (counter s) sq /\ pending s' = true) /\
  (local_newer s k sq = false ->
     counter s' = counter s /\ pending s' = pending s /\
     exists e', lookup k (db s') = Some e' /\
       match lookup k (db s) with
       | None => seq e' = sq /\ life e' = lt
       | Some e => seq e' = N.max (seq e) sq /\ life e' = (if seq e <? sq then lt else life e)
       end).
Proof.
  intros s i k sq lt s'. unfold s'. rewrite recv_lsp_eq. destruct (local_newer s k sq).
  - split; [reflexivity |]. split; [intros _; cbn; auto | discriminate].
  - cbn [db counter pending with_db]. split; [intros k' Hne; apply lookup_store_other; auto |].
    split; [discriminate |]. intros _. split; [reflexivity |]. split; [reflexivity |].
    rewrite lookup_store_same. eexists. split; [reflexivity | apply lsp_entry_copy].
Qed.
Print Assumptions C32_highest_seq_kept.

(* No other event replaces or drops a copy: SNPs, transmissions and LSPs for other ids leave
   (sequence number, lifetime) alone; an aging tick decrements the lifetime and removes the copy
   exactly when its lifetime was <= 1; a regeneration only touches the own LSP. *)
Theorem C32_kept_until_aged_out : forall s ev k e,
  NoDup (map fst (db s)) -> lookup k (db s) = Some e ->
  match ev with
  | Tick =>
    lookup k (db (step s ev)) =
      if life e <=? 1 then None else Some (mkE (seq e) (life e - 1) (srm e) (ssn e))
  | Service | Regen => k <> local_id s -> lookup k (db (step s ev)) = Some e
  | RecvLSP _ _ _ _ => exists e', lookup k (db (step s ev)) = Some e' /\ seq e <= seq e'
  | _ => exists e', lookup k (db (step s ev)) = Some e' /\ seq e' = seq e /\ life e' = life e
  end.
Proof.
  intros s ev k e Hwf Hl. pose proof (step_kept s ev k) as Hk. rewrite Hl in Hk.
  destruct ev; try exact Hk; cbn [step].
  - apply recv_lsp_grows, Hl.
  - rewrite tick_lookup, Hl by exact Hwf. reflexivity.
  - intros Hne. rewrite service_lookup_other by exact Hne. exact Hl.
  - intros Hne. rewrite regen_lookup_other by exact Hne. exact Hl.
Qed.
Print Assumptions C32_kept_until_aged_out.

(* History form: over any history without aging ticks and regenerations, starting in any reachable
   state, the database copy of a foreign LSP carries the highest sequence number received for it. *)
Theorem C32_highest_seq_history : forall ifaces o evs0 evs k e,
  let s := run (init ifaces o) evs0 in
  quiet evs = true -> k <> mkId o 0 0 -> lookup k (db s) = Some e ->
  exists e', lookup k (db (run s evs)) = Some e' /\ seq e' = max_recv k evs (seq e).
Proof.
  intros ifaces o evs0 evs k e s Hq Hne Hl.
  apply highest_seq_history; [exact Hq | | exact Hl].
  unfold s. rewrite run_local_id. exact Hne.
Qed.
Print Assumptions C32_highest_seq_history.

(* ---- SRM / SSN flag rules, ISO 10589 7.3.15.2 and 7.3.16.4, as postconditions of each case *)
Theorem C32_flag_rules :
  (* LSP newer than the database (or unknown): flood to all other circuits, acknowledge on this one *)
  (forall s i k sq lt, local_newer s k sq = false ->
     (lookup k (db s) = None \/ exists e, lookup k (db s) = Some e /\ seq e < sq) ->
     exists e', lookup k (db (recv_lsp s i k sq lt)) = Some e' /\ ssn e' = [i] /\
       forall j, In j (srm e') <-> (j <> i /\ if_ok s j = true /\ sq <> 0)) /\
  (* LSP equal to the database copy: treat as acknowledgement, acknowledge *)
  (forall s i k sq lt e, lookup k (db s) = Some e -> sq = seq e ->
     exists e', lookup k (db (recv_lsp s i k sq lt)) = Some e' /\
       (forall j, In j (srm e') <-> In j (srm e) /\ j <> i) /\
       (forall j, In j (ssn e') <-> In j (ssn e) \/ j = i)) /\
  (* LSP older than the database copy: send ours, do not acknowledge *)
  (forall s i k sq lt e, lookup k (db s) = Some e -> sq < seq e ->
     exists e', lookup k (db (recv_lsp s i k sq lt)) = Some e' /\
       (forall j, In j (srm e') <-> In j (srm e) \/ (j = i /\ if_ok s i = true /\ seq e <> 0)) /\
       (forall j, In j (ssn e') <-> In j (ssn e) /\ j <> i)) /\
  (* one entry of a CSNP or PSNP *)
  (forall s i k sq lt,
     exists e', lookup k (db (snp_entry s i (k, sq, lt))) = Some e' /\
     match lookup k (db s) with
     | None => e' = mkE 0 lt [] [i]
     | Some e =>
       (seq e' = seq e /\ life e' = life e) /\
       if sq =? seq e then
         (forall j, In j (srm e') <-> In j (srm e) /\ j <> i) /\ ssn e' = ssn e
       else if sq <? seq e then
         (forall j, In j (srm e') <-> In j (srm e) \/ (j = i /\ if_ok s i = true /\ seq e <> 0)) /\
         (forall j, In j (ssn e') <-> In j (ssn e) /\ j <> i)
       else
         (forall j, In j (srm e') <-> In j (srm e) /\ j <> i) /\
         (forall j, In j (ssn e') <-> In j (ssn e) \/ j = i)
     end) /\
  (* completeness pass of a CSNP *)
  (forall s i lo hi l k e,
     let e' := snd (csnp_missing s i lo hi l (k, e)) in
     (seq e' = seq e /\ life e' = life e) /\ ssn e' = ssn e /\
     (life e <> 0 -> seq e <> 0 -> id_leb lo k = true -> id_leb k hi = true -> mentioned k l = false ->
        forall j, In j (srm e') <-> In j (srm e) \/ (j = i /\ if_ok s i = true)) /\
     (life e = 0 \/ seq e = 0 \/ id_leb lo k = false \/ id_leb k hi = false \/ mentioned k l = true ->
        e' = e)).
Proof.
  split; [| split; [| split; [| split; [exact flags_snp_entry | exact flags_csnp_missing]]]].
  - intros s i k sq lt Hln Hc. rewrite (recv_lsp_newer s i k sq lt Hln Hc).
    eexists. split; [reflexivity | apply flooded_flags].
  - intros s i k sq lt e He ->. rewrite (recv_lsp_same s i k lt e He).
    eexists. split; [reflexivity |]. split; intros j; [apply set_del_In | apply set_add_In].
  - intros s i k sq lt e He Hlt. rewrite (recv_lsp_older s i k sq lt e He Hlt).
    eexists. split; [reflexivity |]. split; intros j; [apply set_srm_In |].
    cbn [ssn clear_ssn]. rewrite set_del_In, (proj2 (set_srm_fields s i e)). reflexivity.
Qed.
Print Assumptions C32_flag_rules.

(* In every reachable database SRM is never set on a sequence number 0 entry and only on active
   interfaces that have a neighbor. *)
Theorem C32_flags_invariant : forall ifaces o evs k e,
  lookup k (db (run (init ifaces o) evs)) = Some e ->
  (seq e = 0 -> srm e = []) /\
  (forall j, In j (srm e) -> if_ok (run (init ifaces o) evs) j = true).
Proof.
  intros ifaces o evs k e Hl. exact (db_ok_lookup _ k (run_db_ok evs _ (init_db_ok ifaces o)) e Hl).
Qed.
Print Assumptions C32_flags_invariant.

(* ---- the local LSP is refreshed before it expires: in every history in which the LSP updater
   gets to run after each aging tick (anything else may happen in between, including copies of the
   own LSP arriving), the own LSP is in the database with at least 299 s of remaining lifetime *)
Theorem C32_refresh_before_expiry : forall ifaces o evs,
  serviced evs = true ->
  exists e, lookup (mkId o 0 0) (db (run (init ifaces o) evs)) = Some e /\ 299 <= life e.
Proof.
  intros ifaces o evs Hs.
  destruct (run_fresh evs (init ifaces o) (init_wf ifaces o) (regen_fresh _) Hs) as (e & He & Hl).
  exists e. rewrite run_local_id in He. auto.
Qed.
Print Assumptions C32_refresh_before_expiry.

(* ---- the own LSP is originated with a sequence number higher than any copy of it received: the
   counter dominates every received copy, and every origination (forced, or the updater serving a
   request) installs counter + 1 - as long as the 32 bit number space is not exhausted *)
Theorem C32_own_seq_dominates : forall ifaces o evs,
  nowrap_from (init ifaces o) evs ->
  let s := run (init ifaces o) evs in
  let m := max_recv (mkId o 0 0) evs 0 in
  m <= counter s /\
  (exists e, lookup (mkId o 0 0) (db (step s Regen)) = Some e /\ seq e = counter s + 1 /\ m < seq e) /\
  (pending s = true ->
   exists e, lookup (mkId o 0 0) (db (step s Service)) = Some e /\ seq e = counter s + 1 /\ m < seq e).
Proof.
  intros ifaces o evs Hnw. apply (originates_above (init ifaces o) evs 0 (init_wf ifaces o) Hnw).
  apply regen_dominated; [reflexivity | apply N.le_0_l].
Qed.
Print Assumptions C32_own_seq_dominates.

(* ---- LSP ids are the FULL (system id, pseudonode id, LSP number) triples everywhere: the lookups
   and the "mentioned in the CSNP" test use equality on all three components, the CSNP range test a
   total order on all three. All theorems above therefore distinguish ids that differ only in the
   LSP number (fragments of one LSP) or only in the pseudonode id. *)
Theorem C32_ids_are_full : forall a b,
  (id_eqb a b = true <-> a = b) /\
  (id_leb a b = true -> id_leb b a = true -> a = b) /\
  (id_leb a b = true \/ id_leb b a = true).
Proof.
  intros a b. split; [apply id_eqb_eq |]. split; [apply id_leb_antisym | apply id_leb_total].
Qed.
Print Assumptions C32_ids_are_full.

(* Non-vacuity. Three interfaces (two with a neighbor, one passive), own system 2. *)
Definition ex_ifs := [mkIf false true; mkIf false true; mkIf true false].
Example C32_example_history :
  let a := mkId 1 0 0 in
  let evs := [RecvLSP 0 a 3 5; RecvLSP 1 a 2 9; RecvCSNP 1 (mkId 0 0 0) (mkId 9 9 9) [(a, 4, 7)];
              RecvLSP 0 (mkId 2 0 0) 7 100] in
  let s := run (init ex_ifs 2) evs in
  lookup a (db s) = Some (mkE 3 5 [] [1%nat; 0%nat]) /\ counter s = 7 /\ pending s = true /\
  (exists e, lookup (mkId 2 0 0) (db (step s Service)) = Some e /\ seq e = 8) /\
  quiet evs = true /\ max_recv a evs 0 = 3.
Proof. vm_compute. repeat split; try reflexivity. eexists. split; reflexivity. Qed.

(* Fragments: R.00-00 and R.00-01 arrive on interface 0 and are acknowledged by interface 1 (so
   their SRM on 1 is clear). A CSNP on interface 1 over the whole range that lists only R.00-00
   flags the missing fragment R.00-01 for interface 1 and leaves R.00-00 alone; a CSNP whose range
   ends at R.00-00 does not touch R.00-01 (it lies outside the range). *)
Example C32_example_fragments :
  let r0 := mkId 1 0 0 in let r1 := mkId 1 0 1 in
  let learn := [RecvLSP 0 r0 3 9; RecvLSP 0 r1 5 9; RecvPSNP 1 [(r0, 3, 9); (r1, 5, 9)]] in
  let s := run (init ex_ifs 2) learn in
  let full := step s (RecvCSNP 1 (mkId 0 0 0) (mkId 9 9 9) [(r0, 3, 9)]) in
  let part := step s (RecvCSNP 1 (mkId 0 0 0) r0 [(r0, 3, 9)]) in
  (exists e, lookup r1 (db s) = Some e /\ srm e = []) /\
  (exists e, lookup r1 (db full) = Some e /\ srm e = [1%nat]) /\
  (exists e, lookup r0 (db full) = Some e /\ srm e = []) /\
  (exists e, lookup r1 (db part) = Some e /\ srm e = []) /\
  id_eqb r0 r1 = false /\ id_leb r0 r1 = true /\ id_leb r1 r0 = false.
Proof. vm_compute. repeat split; try reflexivity; eexists; split; reflexivity. Qed.

Example C32_example_serviced :
  serviced [Tick; Service; RecvLSP 0 (mkId 2 0 0) 9 3; Tick; Service] = true /\
  serviced [Tick; Tick] = false.
Proof. split; reflexivity. Qed.
