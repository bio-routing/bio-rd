(* C08 - Adj-RIB-Out equals the export view of the Loc-RIB. The Loc-RIB is what the session is entitled to see
   of it: per prefix the first 1 / N selected paths (Model.LocView); a Loc-RIB history h is a list of changes
   of that view, whatever caused them. feed runs the Adj-RIB-Out model (Model.AdjRIBOut.step, the definitions
   that are extracted and compared with the implementation) on the client calls LocRIB.propagateChanges
   derives from each change. export_view f s pfx l = the paths of l the export rules and the policy f admit,
   rewritten. The implementation violates the full statement in three ways (known findings K1-K3 below); the
   guards of the partial theorem exclude exactly these. *)
From Coq Require Import List NArith Permutation.
Import ListNotations.
From BioVerif Require Import Model.AdjRIBOut Model.LocView Spec.ExportViewSpec
  Proofs.ExportViewC Proofs.ExportViewD.
Local Open Scope N_scope.

(* For every policy type and evaluation function, every session (kind, add-path or best only, roles),
   every initial policy c and every Loc-RIB history h meeting `guards` (Spec/ExportViewSpec.v: the
   session does not rewrite and nothing is redistributed - K1; on add-path sessions no non-exportable
   path enters the view - K2 - and the policy keeps different paths of a prefix Compare-distinct - K3;
   views are duplicate free, best-only sessions see one path), provided no path-id allocation failed
   (C11: impossible below 2^32-1 ids): at the end of the history - hence at every quiescent point, as
   every prefix of a guarded history is guarded - the table holds per prefix exactly the export view of
   the Loc-RIB's current paths: nothing missing, nothing stale. *)
Theorem C08_ribout_is_export_view_partial :
  forall (P : Type) (apply : P -> N -> path -> option path) (s : sess) (c : P) (h : list (N * list path)),
  guards (apply c) s h ->
  errs (snd (feed P apply s c h)) = 0 ->
  ribout_is_export_view (apply c) s (fst (feed P apply s c h)) (snd (feed P apply s c h)).
Proof. exact ribout_is_export_view_partial. Qed.
Print Assumptions C08_ribout_is_export_view_partial.

(* the guards are met by the sessions that do not rewrite, and by every chain of the policy language *)
Theorem C08_guard_transparent_ibgp : forall s,
  s_ibgp s = true -> s_rrclient s = false -> forall r b b', rewrite s r b = Some b' -> b' = b.
Proof. exact transparent_ibgp_nonclient. Qed.
Print Assumptions C08_guard_transparent_ibgp.

Theorem C08_guard_transparent_rs_client : forall s,
  s_ibgp s = false -> s_rsclient s = true -> s_role_on s = false ->
  forall r b b', rewrite s r b = Some b' -> b' = b.
Proof. exact transparent_rs_client_no_roles. Qed.
Print Assumptions C08_guard_transparent_rs_client.

Theorem C08_guard_policy_language : forall c pfx r b q,
  interp c pfx (PBgp r b) = Some q -> exists r' b', q = PBgp r' b'.
Proof. exact interp_bgp. Qed.
Print Assumptions C08_guard_policy_language.

(* ---- the full statement (all well-formed histories, all sessions) is false: one witness per finding *)

(* K1 stale-after-withdraw-on-rewriting-session: removePath looks the UNREWRITTEN Loc-RIB path up *)
Theorem C08_ribout_is_export_view_refuted_rewriting :
  exists s c h, wf_history s h /\ ~ full_statement s c h.
Proof. exists (mk_sess false false false false), [], k1_h. split; [wf_hist|].
  intros F. specialize (F eq_refl 0). vm_compute in F. now apply Permutation_length in F.
Qed.
Print Assumptions C08_ribout_is_export_view_refuted_rewriting.

Theorem C08_ribout_is_export_view_refuted_redistributed :
  exists s c h, wf_history s h /\ ~ full_statement s c h.
Proof. exists (mk_sess true false false false), [], k1s_h. split; [wf_hist|].
  intros F. specialize (F eq_refl 0). vm_compute in F. now apply Permutation_length in F.
Qed.
Print Assumptions C08_ribout_is_export_view_refuted_redistributed.

(* K2 addpath-prefix-wiped-by-unexportable-arrival *)
Theorem C08_ribout_is_export_view_refuted_wipe :
  exists s c h, wf_history s h /\ ~ full_statement s c h.
Proof. exists (mk_sess true false false true), [], k2_h. split; [wf_hist|].
  intros F. specialize (F eq_refl 0). vm_compute in F. now apply Permutation_length in F.
Qed.
Print Assumptions C08_ribout_is_export_view_refuted_wipe.

(* K3 addpath-withdraw-hits-compare-equal-sibling *)
Theorem C08_ribout_is_export_view_refuted_sibling :
  exists s c h, wf_history s h /\ ~ full_statement s c h.
Proof. exists (mk_sess true false false true), [], k3_h. split; [wf_hist|].
  intros F. specialize (F eq_refl 0). vm_compute in F. now apply Permutation_length_1 in F.
Qed.
Print Assumptions C08_ribout_is_export_view_refuted_sibling.

(* Non-vacuity: an iBGP add-path session, a history with a second path arriving, a prefix change and a
   withdrawal meets the guards; the theorem applies to it. *)
Example C08_example_guards : guards (interp []) (mk_sess true false false true) ex_h.
Proof. exact ex_guards. Qed.

Example C08_example_applies :
  let st := feed chain interp (mk_sess true false false true) [] ex_h in
  ribout_is_export_view (interp []) (mk_sess true false false true) (fst st) (snd st) /\
  length (tbl (snd st)) = 2%nat.
Proof.
  split; [apply C08_ribout_is_export_view_partial; [exact ex_guards|reflexivity]|reflexivity].
Qed.
