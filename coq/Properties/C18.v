(* C18 - UPDATE packing is lossless and respects the message size limit.

   pack c p xs        the split of the prefixes xs queued with path p into UPDATE messages
                      (_getUpdateInformation with getBudget / pathAttributesLen / updateOverhead)
   batch_wire c p xs  what sendUpdates writes for them: a message SerializeUpdate refuses
                      (longer than 4096 bytes) is dropped
   msg_total c p l    length of the UPDATE carrying the attributes of p and the NLRI l, as the
                      serializers produce it (IPv4, IPv4 multiprotocol, IPv6 multiprotocol; add-path on/off)
   all_fit_list       every single prefix fits into an UPDATE next to the attributes *)
From Coq Require Import List NArith ZArith Permutation.
Import ListNotations.
From BioVerif Require Import Model.UpdateSender Spec.UpdateSenderSpec Proofs.UpdateSenderPackProofs.
Open Scope Z_scope.

(* The split itself never loses, duplicates or reorders a prefix - for every prefix list of any
   length, every path and every session kind. *)
Theorem C18_pack_partition : forall (c : cfg) (p : path) (xs : list pfx),
  concat (pack c p xs) = xs.
Proof. exact pack_concat. Qed.
Print Assumptions C18_pack_partition.

(* Every packed message is non-empty and at most 4096 bytes long, so SerializeUpdate accepts it ... *)
Theorem C18_size : forall (c : cfg) (p : path) (xs : list pfx),
  all_fit_list c p xs ->
  forall l, In l (pack c p xs) -> l <> [] /\ msg_total c p l <= 4096.
Proof.
  intros c p xs Hfit l Hin. destruct (pack_sum c p xs Hfit l Hin) as [Hne Hsum].
  exact (conj Hne (msg_total_bound c p l Hsum)).
Qed.
Print Assumptions C18_size.

(* ... hence every message is written, carries the queued attributes and path identifier, and the
   announced prefixes are exactly the queued ones, each once. *)
Theorem C18_lossless : forall (c : cfg) (p : path) (xs : list pfx),
  all_fit_list c p xs ->
  batch_wire c p xs = map (ann_of c p) (pack c p xs) /\
  Permutation (announced (batch_wire c p xs)) xs.
Proof. exact lossless. Qed.
Print Assumptions C18_lossless.

(* Unconditionally (also when a prefix does not fit): whatever is written carries the attributes
   and path identifier of the queued path and is at most 4096 bytes long. *)
Theorem C18_wire_bounded : forall (c : cfg) (p : path) (xs : list pfx) (m : msg),
  In m (batch_wire c p xs) -> carries c p m.
Proof.
  intros c p xs m Hm. rewrite batch_wire_eq in Hm. apply in_map_iff in Hm. destruct Hm as [l [<- Hl]].
  apply filter_In in Hl. cbn [ann_of carries]. split; [reflexivity|]. split; [reflexivity|]. apply Z.leb_le, Hl.
Qed.
Print Assumptions C18_wire_bounded.

(* The side condition "encoded attributes <= reserved bytes": BGPPath.Length() alone does not
   satisfy it (witness: iBGP, MED, ATOMIC_AGGREGATE, AGGREGATOR: 44 < 50) ... *)
Theorem C18_length_underestimates : exists (c : cfg) (p : path), length_est p < enc_attrs c p.
Proof.
  exists (mkcfg V4 false true true false), (mkpath 1 0 [2%N] true true true false false 0 0 0 []).
  vm_compute. reflexivity.
Qed.
Print Assumptions C18_length_underestimates.

(* ... the reservation of the repaired getBudget (pathAttributesLen) does. *)
Theorem C18_reserved_covers : forall (c : cfg) (p : path), enc_attrs c p <= reserved c p.
Proof. exact reserved_covers. Qed.
Print Assumptions C18_reserved_covers.

(* Non-vacuity: 1200 /24 prefixes on an iBGP IPv4 add-path session with MED, ATOMIC_AGGREGATE and
   AGGREGATOR fit individually and are split into three messages of 502, 502 and 196 prefixes. *)
Definition ex_cfg : cfg := mkcfg V4 true true true false.
Definition ex_path : path := mkpath 1 7 [2%N] true true true false false 0 0 0 [].
Definition ex_pfxs : list pfx := map (fun i => mkpfx (N.of_nat i) 24) (seq 0 1200).

Example C18_example_split :
  forallb (fun x => nlri_len ex_cfg x <=? budget ex_cfg ex_path) ex_pfxs = true /\
  map (@length pfx) (pack ex_cfg ex_path ex_pfxs) = [502%nat; 502%nat; 196%nat] /\
  map (msg_total ex_cfg ex_path) (pack ex_cfg ex_path ex_pfxs) = [4089; 4089; 1641].
Proof.
  split; [|split; vm_compute; reflexivity].
  unfold ex_pfxs. apply forallb_forall. intros x Hx. apply in_map_iff in Hx. destruct Hx as [i [<- _]]. reflexivity.
Qed.
