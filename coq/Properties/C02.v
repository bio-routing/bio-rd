(* C02 - Best-path and ECMP selection do not depend on arrival order; the preference relation is a
   total preorder.
   [embed w] is the Go *Path of a well-formed static or BGP path w; [sort_admits l o] says that o is a
   result sort.Slice may return for l (a permutation in which no element is `less` than its
   predecessor - nothing more is assumed; the sort is not stable). *)
From Coq Require Import List ZArith Sorting.Permutation Sorting.Sorted.
Import ListNotations.
From BioVerif Require Import Lib.ListFacts Model.PathSel Spec.PathSelSpec Proofs.PathSelProofs Proofs.SelectGenEquiv.
Open Scope N_scope.

(* ---- the preference relation is a total preorder *)
Theorem C02_antisym : forall a b z,
  path_select (embed a) (embed b) = Ok z -> path_select (embed b) (embed a) = Ok (- z)%Z.
Proof.
  intros a b z H. rewrite select_is_rfc in *. injection H as <-. f_equal. apply rfc_cmp_antisym.
Qed.
Print Assumptions C02_antisym.

Theorem C02_trans : forall a b c, strictly_prefers a b -> strictly_prefers b c -> strictly_prefers a c.
Proof.
  unfold strictly_prefers. intros a b c. rewrite !select_is_rfc, !Ok_inj. apply rfc_cmp_trans.
Qed.
Print Assumptions C02_trans.

Theorem C02_total_preorder :
  (forall a b, prefers a b \/ prefers b a) /\
  (forall a b c, prefers a b -> prefers b c -> prefers a c).
Proof. split; [exact prefers_total | exact prefers_trans]. Qed.
Print Assumptions C02_total_preorder.

(* ---- the same on the per-protocol functions regenerated from the Go source on this run
   (Gen/SelectGen.v; path_select_gen = the hand-modelled dispatcher over the generated BGPPath.Select /
   StaticPath.Select, Proofs/SelectGenEquiv.v) *)
Theorem C02_total_preorder_gen :
  (forall a b, prefers_gen a b \/ prefers_gen b a) /\
  (forall a b c, prefers_gen a b -> prefers_gen b c -> prefers_gen a c).
Proof.
  (* counted rewrites: the last, failing attempt of [rewrite !] would unify [prefers _ _] with
     [prefers_gen ?a ?b] by unfolding both dispatchers, which takes seconds *)
  split; intros *.
  - rewrite 2 prefers_gen_iff. apply prefers_total.
  - rewrite 3 prefers_gen_iff. apply prefers_trans.
Qed.
Print Assumptions C02_total_preorder_gen.

(* ties are reported exactly between paths the decision process cannot distinguish *)
Theorem C02_tie_iff_key_eq : forall a b, tied a b <-> key_of a = key_of b.
Proof. exact tie_iff_key_eq. Qed.
Print Assumptions C02_tie_iff_key_eq.

(* hence the `less` handed to sort.Slice is a strict weak order (irreflexive, transitive,
   incomparability transitive), which is what sort.Slice requires *)
Theorem C02_less_strict_weak_order :
  (forall a, less (embed a) (embed a) = Ok false) /\
  (forall a b c, less (embed a) (embed b) = Ok true -> less (embed b) (embed c) = Ok true ->
                 less (embed a) (embed c) = Ok true) /\
  (forall a b c, less (embed a) (embed b) = Ok false -> less (embed b) (embed a) = Ok false ->
                 less (embed b) (embed c) = Ok false -> less (embed c) (embed b) = Ok false ->
                 less (embed a) (embed c) = Ok false /\ less (embed c) (embed a) = Ok false).
Proof.
  split; [|split].
  - intros a. rewrite less_embed, (proj2 (rfc_cmp_eq _ _) eq_refl). reflexivity.
  - intros a b c. rewrite !less_embed. intros [= H1] [= H2]. apply Z.eqb_eq in H1, H2.
    rewrite (rfc_cmp_trans _ _ _ H1 H2). reflexivity.
  - intros a b c H1 H2 H3 H4.
    assert (E : key_of a = key_of b) by (apply Rkey_antisym; apply not_less_Rkey; assumption).
    rewrite !less_embed, E, <- !less_embed. split; assumption.
Qed.
Print Assumptions C02_less_strict_weak_order.

(* ---- order independence: whatever order the candidates are in when PathSelection runs and
   whichever admissible result the sort returns: same key list, same best path, same ECMP count
   (no panic), same ECMP set - up to paths the decision process cannot distinguish *)
Theorem C02_order_independent : forall (c1 c2 : list wpath) (o1 o2 : list path),
  Permutation c1 c2 ->
  sort_admits (map embed c1) o1 -> sort_admits (map embed c2) o2 ->
  map pkey o1 = map pkey o2 /\
  option_map pkey (best o1) = option_map pkey (best o2) /\
  (exists n, ecmp_count o1 = Ok n /\ ecmp_count o2 = Ok n) /\
  map pkey (ecmp_set o1) = map pkey (ecmp_set o2).
Proof. exact order_independent. Qed.
Print Assumptions C02_order_independent.

(* ---- whole histories of LocRIB.AddPath / RemovePath on a prefix (a sort after every operation, any
   admissible result each time): the path list after a history is a sorted arrangement of exactly the
   remaining candidates *)
Theorem C02_history_state : forall (h : list wop) (s : list path),
  runs [] (map embed_op h) s ->
  exists ws, s = map embed ws /\ Permutation (bag h) ws /\ Sorted not_less_than_pred s.
Proof. intros h s R. apply (history_state h [] s [] R). exists []. repeat constructor. Qed.
Print Assumptions C02_history_state.

(* hence two histories that leave the same multiset of candidates end in the same selection *)
Theorem C02_history_independent : forall (h1 h2 : list wop) (s1 s2 : list path),
  runs [] (map embed_op h1) s1 -> runs [] (map embed_op h2) s2 ->
  Permutation (bag h1) (bag h2) ->
  map pkey s1 = map pkey s2 /\
  option_map pkey (best s1) = option_map pkey (best s2) /\
  (exists n, ecmp_count s1 = Ok n /\ ecmp_count s2 = Ok n) /\
  map pkey (ecmp_set s1) = map pkey (ecmp_set s2).
Proof.
  intros h1 h2 s1 s2 R1 R2 P. eapply same_selection_sorted; [exact P | apply C02_history_state; assumption ..].
Qed.
Print Assumptions C02_history_independent.

(* ---- ECMP: a function of the keys, and never a panic on static/BGP paths, mixed or not *)
Theorem C02_ecmp_is_key : forall a b,
  path_ecmp (embed a) (embed b) = Ok (ecmp_key (key_of a) (key_of b)).
Proof. exact ecmp_is_key. Qed.
Print Assumptions C02_ecmp_is_key.

Theorem C02_ecmp_total : forall ws : list wpath, exists n, ecmp_count (map embed ws) = Ok n.
Proof. intros. eexists. apply ecmp_count_is_keys. Qed.
Print Assumptions C02_ecmp_total.

(* the ECMP set is exactly the candidates that are equal-cost with the best path (same protocol and,
   for BGP, same LOCAL_PREF, AS_PATH length, ORIGIN, MED) - a function of the candidate multiset *)
Theorem C02_ecmp_set_exact : forall (c : list wpath) (o : list path) (b : wpath),
  sort_admits (map embed c) o -> best o = Some (embed b) ->
  ecmp_count o = Ok (N.of_nat (length (filter (equal_cost b) c))).
Proof.
  intros c o b A Hb. apply admits_embed in A as [w [-> [P S]]].
  destruct w as [|x w]; [discriminate|]. injection Hb as Hb.
  apply (f_equal view) in Hb. rewrite !view_embed in Hb. injection Hb as ->.
  rewrite ecmp_count_is_keys, ecmp_count_keys_exact by (apply sorted_keys_strong, S).
  do 2 f_equal. symmetry. apply Permutation_length, Permutation_filter, P.
Qed.
Print Assumptions C02_ecmp_set_exact.

(* ---- the hypotheses are satisfiable: the executable insertion sort of the model is admissible, and
   every history has a run *)
Theorem C02_sort_hypothesis_satisfiable : forall c, sort_admits (map embed c) (isort (map embed c)).
Proof. exact isort_admits. Qed.
Print Assumptions C02_sort_hypothesis_satisfiable.

Theorem C02_every_history_runs : forall (h : list wop) (c : list wpath),
  exists s, run_exec (map embed c) (map embed_op h) = Ok s /\ runs (map embed c) (map embed_op h) s.
Proof. exact run_exec_runs. Qed.
Print Assumptions C02_every_history_runs.

(* Non-vacuity: three iBGP paths, one without CLUSTER_LIST (the shape that was cyclic before the
   repair), a static path next to them; both insertion orders end in the same selection. *)
Definition ex_bgp (bid : N) (cl : option (list N)) (peer : N) : wpath :=
  WBGP (mkbgp 100 2 0 0 false bid 0 cl (mkip 0 peer) (mkip 0 9) 0 0).
Definition ex_static : wpath := WStatic (mkstatic (mkip 0 1)).

Example C02_example_mixed :
  let a := ex_bgp 1 (Some [7; 8]) 3 in let b := ex_bgp 1 None 2 in let c := ex_bgp 1 (Some [7]) 1 in
  run_exec [] (map embed_op [WAdd a; WAdd b; WAdd c; WAdd ex_static]) = Ok (map embed [b; c; a; ex_static]) /\
  run_exec [] (map embed_op [WAdd ex_static; WAdd c; WAdd a; WAdd b]) = Ok (map embed [b; c; a; ex_static]) /\
  ecmp_count (map embed [b; c; a; ex_static]) = Ok 3.
Proof. repeat split. Qed.
