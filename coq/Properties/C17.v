(* C17 - Every BGP message bio-rd emits is well-formed and round-trips.
   Statements, and the lines that instantiate the general theorems of Proofs/BGPRoundtripProofs.v (the runs
   update_runs / open_runs / notification_runs, the attribute's image).
   encode* = model of the serializers (Model/BGPEncode.v), decode = model of packet.Decode (Model/BGPCodec.v),
   doptsOf o = the decode options of the session that negotiated the encode options o.
   Spec/BGPRoundtripSpec.v: wf_update / wf_attr / wf_nlri / wf_open say exactly which values the serializers can
   represent under the session options; same_update / same_attr / canon_open say what "the same content" is. *)
From Coq Require Import List NArith.
Import ListNotations.
From BioVerif Require Import Model.BGPCodec Model.BGPEncode Spec.BGPRoundtripSpec Proofs.BGPRoundtripProofs.
Local Open Scope N_scope.

(* Size: whatever structure SerializeUpdate is given, a message it emits is at most 4096 bytes long and carries
   its own length in the header. *)
Theorem C17_update_size : forall o safi u bs, encodeUpdate o safi u = EOk bs ->
  len bs <= 4096 /\ exists rest, bs = header (len bs) 2 ++ rest.
Proof. exact update_size. Qed.
Print Assumptions C17_update_size.

(* UPDATE: every representable UPDATE that is emitted decodes, with the session's options, to an UPDATE with the
   same withdrawn routes, the same NLRI and, attribute by attribute, the same type and value (unknown
   attributes: also Optional/Partial) - AS paths with any number of segments of up to 255 ASNs, communities,
   large communities and cluster lists of any length (extended length), unknown attributes of any length,
   add-path identifiers, MP_REACH_NLRI / MP_UNREACH_NLRI with IPv4 or IPv6 NLRI. *)
Theorem C17_update_roundtrip : forall o u bs,
  wf_update o u -> encodeUpdate o 1 u = EOk bs ->
  len bs <= 4096 /\
  exists u' al, decode (S (length bs)) (doptsOf o) bs = (Ok (mkMsg (len bs) 2 (BUpdate u')) [], al) /\
                same_update o u u'.
Proof. exact update_roundtrip. Qed.
Print Assumptions C17_update_roundtrip.

(* the per-attribute statement behind it: an attribute either puts nothing on the wire (empty communities /
   cluster list) or decodes back, consuming exactly its bytes, to an attribute with the same content *)
Theorem C17_attr_roundtrip : forall o a bs k,
  wf_attr o a -> encodeAttr o a = Some (bs, k) -> len bs <= 4096 ->
  bs = [] \/ exists a', forall fuel, (length bs < fuel)%nat -> emitted o a a' bs fuel.
Proof.
  intros o a bs k Hwf E H4. pose proof (encodeAttr_wf _ _ _ _ Hwf E H4) as ->.
  destruct (emits o a) eqn:Em.
  - right. exists (canon_attr o a). apply emitted_image; assumption.
  - left. unfold attrBytes. rewrite Em. reflexivity.
Qed.
Print Assumptions C17_attr_roundtrip.

Theorem C17_open_roundtrip : forall o m, wf_open m ->
  exists bs al, encodeOpen m = EOk bs /\ len bs <= 4096 /\
                decode (S (length bs)) o bs = (Ok (mkMsg (len bs) 1 (BOpen (canon_open m))) [], al).
Proof.
  intros o m Hwf. destruct (open_runs o m Hwf) as (bs & E & H4 & Hrun). exists bs.
  destruct (decode_of_runs _ _ _ _ (Hrun _ (le_n _))) as (al & Ed). eauto.
Qed.
Print Assumptions C17_open_roundtrip.

Theorem C17_notification_roundtrip : forall o code sub, code < 256 -> sub < 256 -> notificationOK code sub = true ->
  exists bs al, encodeNotification code sub = EOk bs /\ len bs = 21 /\
                decode (S (length bs)) o bs = (Ok (mkMsg 21 3 (BNotification code sub)) [], al).
Proof.
  intros o code sub Hc Hs Hok. unfold encodeNotification. rewrite (N.mod_small code), (N.mod_small sub) by assumption.
  destruct (decode_of_runs _ _ _ _ (notification_runs (S (length (header 21 3 ++ [code; sub]))) o code sub Hc Hs Hok))
    as (al & Ed). eauto.
Qed.
Print Assumptions C17_notification_roundtrip.

Theorem C17_keepalive_roundtrip : forall o,
  exists bs al, encodeKeepalive = EOk bs /\ len bs = 19 /\
                decode (S (length bs)) o bs = (Ok (mkMsg 19 4 BKeepalive) [], al).
Proof. intros o. eexists. exists 0. split; [reflexivity|]. split; reflexivity. Qed.
Print Assumptions C17_keepalive_roundtrip.

(* The two representability limits in wf_attr that the current code really has (known findings):
   (1) on a session without the 4-octet AS capability, ASNs above 65535 are truncated to 16 bits (no AS_TRANS /
       AS4_PATH): the message round-trips to a DIFFERENT AS path;
   (2) an AS_PATH segment of more than 255 ASNs is written with the count modulo 256: the message does not decode. *)
Definition c17_mk_update (segs : list (N * list N)) : update_msg :=
  mkUpdate 0 [] 0
    [ mkAttr false false false false 2 0 (AVASPath segs);
      mkAttr false false false false 1 0 (AVOrigin 0);
      mkAttr false false false false 3 0 (AVNextHop (IP4 167772161)) ]
    [ mkNLRI 0 [] (mkPfx (IP4 167772160) 8) ].

Theorem C17_roundtrip_refuted_asn_truncated :
  exists o u bs u' al,
    encodeUpdate o 1 u = EOk bs /\
    decode (S (length bs)) (doptsOf o) bs = (Ok (mkMsg (len bs) 2 (BUpdate u')) [], al) /\
    nth 0 (u_attrs u) (mkAttr false false false false 0 0 AVNone) = mkAttr false false false false 2 0 (AVASPath [(2, [65536])]) /\
    a_val (nth 0 (u_attrs u') (mkAttr false false false false 0 0 AVNone)) = AVASPath [(2, [0])].
Proof.
  exists (mkEOpts false false), (c17_mk_update [(2, [65536])]). do 3 eexists.
  split; [vm_compute; reflexivity|]. split; [vm_compute; reflexivity|]. split; reflexivity.
Qed.
Print Assumptions C17_roundtrip_refuted_asn_truncated.

Theorem C17_roundtrip_refuted_long_segment :
  exists o u bs,
    encodeUpdate o 1 u = EOk bs /\ fst (decode (S (length bs)) (doptsOf o) bs) = Err.
Proof.
  exists (mkEOpts false true), (c17_mk_update [(2, repeat 7 256)]). eexists.
  split; [vm_compute; reflexivity|]. vm_compute. reflexivity.
Qed.
Print Assumptions C17_roundtrip_refuted_long_segment.

(* Non-vacuity: a representable UPDATE with a 300-ASN path in two segments, 70 cluster IDs (extended length), a
   300-byte unknown attribute with the Partial flag and an add-path NLRI is emitted and round-trips. *)
Definition c17_example : update_msg :=
  mkUpdate 0 [] 0
    [ mkAttr false false false false 2 0 (AVASPath [(2, repeat 4200000000 255); (2, repeat 65001 45)]);
      mkAttr false false false false 1 0 (AVOrigin 2);
      mkAttr false false false false 3 0 (AVNextHop (IP4 167772161));
      mkAttr false false false false 10 0 (AVCluster (repeat 1 70));
      mkAttr true true true false 99 0 (AVUnknown (repeat 171 300)) ]
    [ mkNLRI 7 [] (mkPfx (IP4 167772160) 8) ].
Example C17_example_roundtrip :
  exists bs, encodeUpdate (mkEOpts true true) 1 c17_example = EOk bs /\ len bs = 1836 /\
  exists u' al, decode (S (length bs)) (doptsOf (mkEOpts true true)) bs = (Ok (mkMsg 1836 2 (BUpdate u')) [], al) /\
    u_nlri u' = u_nlri c17_example /\ map a_val (u_attrs u') = map a_val (u_attrs c17_example).
Proof.
  eexists. split; [vm_compute; reflexivity|]. split; [vm_compute; reflexivity|].
  do 2 eexists. split; [vm_compute; reflexivity|]. split; vm_compute; reflexivity.
Qed.

(* the hypothesis wf_update is satisfiable: a plain announcement as the update sender builds it *)
Definition c17_small : update_msg :=
  mkUpdate 0 [] 0
    [ mkAttr false false false false 2 0 (AVASPath [(2, [65001; 4200000000])]);
      mkAttr false false false false 1 0 (AVOrigin 0);
      mkAttr false false false false 3 0 (AVNextHop (IP4 167772161));
      mkAttr false false false false 8 0 (AVComms [4259840100]) ]
    [ mkNLRI 0 [] (mkPfx (IP4 167772160) 8) ].
Example C17_example_wf : wf_update (mkEOpts false true) c17_small.
Proof.
  unfold wf_update, c17_small. cbn [u_withdrawn u_attrs u_nlri useAddPath].
  split; [constructor|]. split.
  { repeat constructor; unfold wf_attr; cbn [a_type a_val N.eqb Pos.eqb orb use32].
    - eexists. split; [reflexivity|]. cbn. constructor; [|constructor]. unfold seg_ok. cbn [fst snd].
      split; [right; reflexivity|]. split; [vm_compute; split; congruence|].
      repeat constructor; vm_compute; reflexivity.
    - eexists. split; [reflexivity|]. vm_compute. reflexivity.
    - eexists. split; [reflexivity|]. vm_compute. reflexivity.
    - eexists. split; [reflexivity|]. repeat constructor. }
  split.
  { repeat constructor; cbn; try reflexivity; try (vm_compute; congruence). }
  split; [vm_compute; reflexivity|]. intros _. vm_compute. reflexivity.
Qed.
