(* C13 - Tables are isolated: exporting a route never alters stored routes.
   Model.Heap: routes are objects in a store (path object -> BGPPathA block, blocks shared through the
   deduplication cache); tables - the Loc-RIB, Adj-RIB-Ins, every session's Adj-RIB-Out - hold object ids.
   hstep is one export-side operation of a session: AddPath (advertise), RemovePath, ReplaceFilterChain
   (refresh: filter and rewrite again under a new policy), written as the code performs it: which object is
   copied, which object is assigned to in place.  An object id below nxt h is an object that exists in h. *)
From Coq Require Import List NArith.
From BioVerif Require Import Model.AdjRIBOut Model.Heap Spec.HeapSpec
  Proofs.HeapProofs Proofs.HeapWorld.
Local Open Scope N_scope.

(* For every policy type and function, every session kind, every store, every state of the session's
   Adj-RIB-Out and every export-side operation with ANY arguments (any object of the store, any view):
   every path object that existed before - wherever it is stored: in the Loc-RIB, in an Adj-RIB-In, in
   another session's Adj-RIB-Out or in this session's own table - reads the same afterwards; every
   BGPPathA block that existed is untouched (so neither does anything change that shares one); hence
   every table (any list of existing objects) holds the same routes. *)
Theorem C13_isolation :
  forall (P : Type) (apply : P -> N -> path -> option path) (s : sess) (x : heap * haro P) (o : hop P),
  wfh (fst x) ->
  let x' := hstep P apply s x o in
  wfh (fst x') /\
  (forall oid, oid < nxt (fst x) -> read (fst x') oid = read (fst x) oid) /\
  (forall k, k < nxt (fst x) -> blk_get k (blks (fst x')) = blk_get k (blks (fst x))) /\
  (forall tb : list N, Forall (fun oid => oid < nxt (fst x)) tb -> map (read (fst x')) tb = map (read (fst x)) tb).
Proof.
  intros P apply s x o W x'. pose proof (hstep_safe P apply s o x W) as S.
  split; [exact (ok_wfh _ _ S)|now apply ok_reads].
Qed.
Print Assumptions C13_isolation.

(* ... and over whole histories of a world with two sessions on one store, in which the import side keeps
   storing new (deduplicated or private) path objects and both sessions keep advertising, withdrawing and
   replacing their export policy: a route, once stored, reads the same ever after. *)
Theorem C13_isolation_history :
  forall (P : Type) (apply : P -> N -> path -> option path) (sa sb : sess)
         (ops : list (wop P)) (w : world P) oid,
  wfh (w_heap w) -> oid < nxt (w_heap w) ->
  read (w_heap (wrun P apply sa sb w ops)) oid = read (w_heap w) oid.
Proof. intros P apply sa sb ops w oid W. now apply ok_reads; [|apply wrun_ok]. Qed.
Print Assumptions C13_isolation_history.

(* the initial store is well-formed and stays so *)
Theorem C13_store_wellformed :
  forall (P : Type) (apply : P -> N -> path -> option path) (sa sb : sess) (ops : list (wop P)) (w : world P),
  wfh (w_heap w) -> wfh (w_heap (wrun P apply sa sb w ops)).
Proof. intros. now apply wrun_ok. Qed.
Print Assumptions C13_store_wellformed.

(* Non-vacuity / expressiveness: the model distinguishes "rewrite a copy" from "rewrite in place". Applying
   checkPropagateUpdate to the Loc-RIB's own object, as RefreshRoute did before fix 678760d8, changes the
   Loc-RIB's route AND the Adj-RIB-In's route that shares the deduplicated block. *)
Example C13_example_in_place_breaks :
  let h1 := fst (hnew heap_empty (PBgp 0 bad_path) true) in
  let h2 := fst (hnew h1 (PBgp 0 bad_path) true) in
  let h3 := refresh_in_place bad_sess h2 0 in
  wfh h2 /\ read h3 0 <> read h2 0 /\ read h3 2 <> read h2 2.
Proof.
  cbn zeta. split; [|split].
  - exact (ok_wfh _ _ (hnew_ok _ _ _ (ok_wfh _ _ (hnew_ok _ _ _ wfh_empty)))).
  - vm_compute. discriminate.
  - vm_compute. discriminate.
Qed.
