(* C36 - Configuration reload converges to the new configuration. *)
From Coq Require Import List NArith.
Import ListNotations.
From BioVerif Require Import Model.Reconf Spec.ReconfSpec Proofs.ReconfProofs.
Local Open Scope N_scope.

Definition ex_a (id : N) : addr := {| a_v4 := true; a_id := id |}.
Definition ex_n (id ttl : N) (passive : option bool) (v4 : option afconf) : neighbor :=
  {| n_addr := ex_a id; n_local := None; n_disabled := false; n_ttl := ttl; n_auth := 0;
     n_pas := 65200; n_las := 0; n_hold := 0; n_import := []; n_export := []; n_rsc := None;
     n_rrc := None; n_passive := passive; n_cluster := None; n_v4 := v4; n_v6 := None;
     n_mp4 := false; n_ri := None |}.
Definition ex_g (imp : list pname) (ns : list neighbor) : group :=
  {| g_local := Some (ex_a 1); g_ttl := 5; g_auth := 0; g_pas := 0; g_las := 0; g_hold := 0;
     g_import := imp; g_export := []; g_rsc := None; g_rrc := None; g_passive := None;
     g_cluster := None; g_v4 := None; g_v6 := None; g_ri := None; g_neighbors := ns |}.
Definition ex_c (gs : list group) : config :=
  {| c_as := 65100; c_rid := 1; c_policies := [(7, 3)]; c_ris := []; c_groups := Some gs |}.
Definition ex_c1 := ex_c [ex_g [7] [ex_n 2 9 (Some true) None; ex_n 3 0 None None]].
Definition ex_c2 := ex_c [ex_g [] [ex_n 2 4 (Some true)
   (Some {| af_addpath := Some {| ap_recv := true; ap_send := None |}; af_nhx := false |})]].

(* The statement of the property for every daemon life: start with c1, reload cs one after the
   other (files that are rejected, that make the configurator fail half-way, anything), then
   reload c. Whenever a fresh start with c works, the reload works too and leaves the same
   sessions (same keys, same stored configuration, same effective settings and capabilities,
   same policies in the configuration, in the peer and in its FSM).
   As the property is worded (no condition on c) this is false: ... *)
Theorem C36_reload_converges_refuted :
  ~ (forall c1 cs c s f,
        run c1 cs = Some s -> fresh c = Some (Applied f) ->
        exists s', reload s c = Applied s' /\ same_sessions s' f).
Proof.
  (* the daemon started with ex_c2 (router id 1) reloads a file whose router id is 2 *)
  intros H.
  edestruct (H ex_c2 [] {| c_as := 65100; c_rid := 2; c_policies := []; c_ris := [];
                           c_groups := c_groups ex_c2 |}) as [s' [Hr Hsame]]; [vm_compute; reflexivity..|].
  vm_compute in Hr. injection Hr as <-.
  specialize (Hsame (VDefault, ex_a 2)). vm_compute in Hsame. discriminate.
Qed.
Print Assumptions C36_reload_converges_refuted.

(* ... the BGP server keeps the router id of the start configuration (known finding), so the
   guard is: the new file has the router id the daemon was started with. Under that guard the
   statement holds for all configuration sequences. *)
Theorem C36_reload_converges_partial : forall c1 cs c s f,
  run c1 cs = Some s -> c_rid c = c_rid c1 -> fresh c = Some (Applied f) ->
  exists s', reload s c = Applied s' /\ same_sessions s' f.
Proof. exact reload_converges. Qed.
Print Assumptions C36_reload_converges_partial.

(* The same as equality of the sets of (key, session) pairs of the two servers. *)
Theorem C36_reload_same_session_set_partial : forall c1 cs c s f,
  run c1 cs = Some s -> c_rid c = c_rid c1 -> fresh c = Some (Applied f) ->
  exists s', reload s c = Applied s' /\
             forall k p, In (k, p) (s_peers s') <-> In (k, p) (s_peers f).
Proof.
  intros c1 cs c s f Hrun Hrid Hf.
  destruct (reload_converges _ _ _ _ _ Hrun Hrid Hf) as [s' [Hr Hsame]].
  exists s'; split; [exact Hr|].
  destruct (run_wf _ _ _ Hrun) as [Hwf _].
  apply same_sessions_in; [| |exact Hsame].
  - eapply reload_wf; [exact Hwf|]. now rewrite Hr.
  - eapply reload_wf; [apply wf_init|]. now rewrite (fresh_reload _ _ Hf).
Qed.
Print Assumptions C36_reload_same_session_set_partial.

(* Without any guard: after a successful reload the server holds, for every key, exactly the
   session the new file asks for (built from the last neighbor entry with that key, with the
   settings inherited from its group) and nothing for the other keys: removed neighbors are
   removed, added ones are added, every changed setting is in effect. *)
Theorem C36_reload_takes_effect : forall c1 cs c l s s',
  run c1 cs = Some s -> load c = Some l -> reload s c = Applied s' ->
  forall k, lookup k (s_peers s') = wanted (c_rid c1) (s_vrfs s') (l_nbrs l) k.
Proof.
  intros c1 cs c l s s' Hrun Hl Hr.
  destruct (run_wf _ _ _ Hrun) as [Hwf Hrid].
  pose proof (reload_cases s c Hwf) as H. rewrite Hl, Hr in H.
  destruct H as [_ [_ [Hvs [_ Hlk]]]]. now rewrite Hvs, <- Hrid.
Qed.
Print Assumptions C36_reload_takes_effect.

Example C36_example_run :
  exists s f s',
    run ex_c1 [] = Some s /\ length (s_peers s) = 2%nat /\
    fresh ex_c2 = Some (Applied f) /\ reload s ex_c2 = Applied s' /\
    s_peers s' = s_peers f /\
    option_map (fun p => (p_ttl p, p_import p, p_caps p)) (lookup (VDefault, ex_a 2) (s_peers s'))
      = Some (4, [0], [CapAddPath 1 1; CapASN4 65100]) /\
    lookup (VDefault, ex_a 3) (s_peers s') = None /\
    option_map (fun p => (p_ttl p, p_import p, p_fsm p)) (lookup (VDefault, ex_a 3) (s_peers s))
      = Some (5, [3], Some ([3], [0])).
Proof. vm_compute. repeat eexists. Qed.
