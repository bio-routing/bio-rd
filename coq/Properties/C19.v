(* C19 - Malformed UPDATEs never install routes.
   Only statements here; proofs live in Proofs/BGPUpdateProofs.v.
   decode = model of packet.Decode (Model/BGPCodec.v), installed = model of what the established session
   puts into the Adj-RIB-In of an address family (Model/BGPInstall.v); the server itself validates nothing
   beyond AFI/SAFI, so the property rests on what the decoder accepts. Spec/BGPUpdateSpec.v:
     wellformed exact l u c = sections exact l u c /\ prefix_lengths_ok u /\ mandatory_ok u
   - sections: the consumed bytes c are header, WithdrawnRoutesLen bytes of withdrawn routes, one chunk of
     exactly (3|4)+Length bytes per attribute [attribute contents match their declared lengths], NLRI ending
     exactly at the header length; with exact = true the attribute chunks also end exactly at TotalPathAttrLen;
   - prefix_lengths_ok: every NLRI (withdrawn, NLRI, MP_REACH, MP_UNREACH) has length <= 32 / 128 for its family;
   - mandatory_ok: NLRI present => ORIGIN, AS_PATH, NEXT_HOP; MP_REACH_NLRI present => ORIGIN, AS_PATH. *)
From Coq Require Import List NArith.
Import ListNotations.
From BioVerif Require Import Model.BGPCodec Model.BGPInstall Spec.BGPUpdateSpec Proofs.BGPUpdateProofs.
Local Open Scope N_scope.

(* Every UPDATE the decoder accepts, for every byte string and option combination, is well-formed - up to the
   one known defect: the attributes may run past TotalPathAttrLen (exact = false). *)
Theorem C19_accepted_update_wellformed : forall (o : options) (b : list N) l ty u rest al,
  decode (S (length b)) o b = (Ok (mkMsg l ty (BUpdate u)) rest, al) ->
  exists c, b = c ++ rest /\ wellformed false l u c.
Proof. exact update_wellformed. Qed.
Print Assumptions C19_accepted_update_wellformed.

(* The full "lengths add up" clause (the decoder consumes exactly the header length) is FALSE for the current
   code: decodePathAttrs does not notice that the last attribute ran past TotalPathAttrLen. Witness: header
   length 44 for 45 bytes, TotalPathAttrLen 17 for 18 bytes of attributes (corpus/C19). *)
Definition c19_witness : list N :=
  repeat 255 16 ++ [0; 44; 2;  0; 0;  0; 17;  64; 1; 1; 0;  64; 2; 4; 2; 1; 253; 233;  64; 3; 4; 10; 0; 0; 1;
                    24; 10; 1; 2].
Theorem C19_lengths_add_up_refuted :
  exists o b l ty u rest al,
    decode (S (length b)) o b = (Ok (mkMsg l ty (BUpdate u)) rest, al) /\ len b <> l + len rest.
Proof.
  exists (optionsOf 0), c19_witness. do 5 eexists. split; [vm_compute; reflexivity|]. vm_compute. discriminate.
Qed.
Print Assumptions C19_lengths_add_up_refuted.

(* ... and it holds whenever the declared attribute sizes sum up to TotalPathAttrLen (the exact guard that
   excludes the defect): then the consumed bytes are exactly the header length and all sections are exact. *)
Theorem C19_lengths_add_up_partial : forall (o : options) (b : list N) l ty u rest al,
  decode (S (length b)) o b = (Ok (mkMsg l ty (BUpdate u)) rest, al) ->
  attrs_fill_tpal u ->
  len b = l + len rest /\ exists c, b = c ++ rest /\ wellformed true l u c.
Proof. intros o b. exact (update_lengths_partial (S (length b)) o b). Qed.
Print Assumptions C19_lengths_add_up_partial.

(* Nothing reaches an Adj-RIB-In unless the bytes decode to a well-formed UPDATE, and every installed entry
   has a prefix length within its family's width, a next hop, and comes with ORIGIN and AS_PATH. *)
Theorem C19_installed_wellformed : forall (afi : N) (o : options) (b : list N) (e : entry),
  In e (installed afi o (decode (S (length b)) o b)) ->
  exists l ty u rest al c,
    decode (S (length b)) o b = (Ok (mkMsg l ty (BUpdate u)) rest, al) /\
    b = c ++ rest /\ wellformed false l u c /\ entry_ok afi u e.
Proof. intros afi o b. exact (installed_wellformed afi (S (length b)) o b). Qed.
Print Assumptions C19_installed_wellformed.

(* Non-vacuity: the well-formed UPDATE of C16's example installs 10.1.2.0/24 with a next hop in the IPv4
   family and nothing in the IPv6 family; with the prefix length byte changed to 33, or without the NEXT_HOP
   attribute, nothing is installed. *)
Definition c19_good : list N :=
  repeat 255 16 ++ [0; 45; 2;  0; 0;  0; 18;  64; 1; 1; 0;  64; 2; 4; 2; 1; 253; 233;  64; 3; 4; 10; 0; 0; 1;
                    24; 10; 1; 2].
Example C19_example_installs :
  installed 1 (optionsOf 0) (decode (S (length c19_good)) (optionsOf 0) c19_good)
    = [mkEntry (mkPfx (IP4 167838208) 24) 0 true] /\
  installed 2 (optionsOf 0) (decode (S (length c19_good)) (optionsOf 0) c19_good) = [].
Proof. split; vm_compute; reflexivity. Qed.
Definition c19_len33 : list N :=
  repeat 255 16 ++ [0; 47; 2;  0; 0;  0; 18;  64; 1; 1; 0;  64; 2; 4; 2; 1; 253; 233;  64; 3; 4; 10; 0; 0; 1;
                    33; 10; 1; 2; 3; 128].
Definition c19_no_nexthop : list N :=
  repeat 255 16 ++ [0; 38; 2;  0; 0;  0; 11;  64; 1; 1; 0;  64; 2; 4; 2; 1; 253; 233;  24; 10; 1; 2].
Example C19_example_malformed_install_nothing :
  installed 1 (optionsOf 0) (decode (S (length c19_len33)) (optionsOf 0) c19_len33) = [] /\
  installed 1 (optionsOf 0) (decode (S (length c19_no_nexthop)) (optionsOf 0) c19_no_nexthop) = [].
Proof. split; vm_compute; reflexivity. Qed.
