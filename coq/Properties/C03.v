(* C03 - Best-path tie-breaking follows RFC 4271 9.1.2.2 and RFC 4456 section 9.
   [bgp_select] / [path_select] are the model of route.BGPPath.Select / route.Path.Select
   (Model/PathSel.v), result 1 = the left path is preferred; [rfc_cmp] is the lexicographic
   comparison of the key of Spec/PathSelSpec.v. *)
From Coq Require Import List ZArith.
Import ListNotations.
From BioVerif Require Import Model.PathSel Spec.PathSelSpec Proofs.PathSelProofs Gen.SelectGen Proofs.SelectGenEquiv.
Open Scope N_scope.

(* Select IS the RFC comparison: every decision step, its direction and its position. *)
Theorem C03_bgp_select_is_rfc : forall b c : bgp_path,
  bgp_select b c = rfc_cmp_bgp (bgp_key_of b) (bgp_key_of c).
Proof. exact bgp_select_is_rfc. Qed.
Print Assumptions C03_bgp_select_is_rfc.

(* ... through the dispatching Path.Select, for any two well-formed static/BGP paths (no panic) *)
Theorem C03_select_is_rfc : forall p q ka kb,
  pkey p = Some ka -> pkey q = Some kb -> path_select p q = Ok (rfc_cmp ka kb).
Proof.
  intros p q ka kb Hp Hq. unfold pkey in *.
  destruct (view p) as [a|] eqn:Vp; [|discriminate]. destruct (view q) as [b|] eqn:Vq; [|discriminate].
  cbn in Hp, Hq. injection Hp as <-. injection Hq as <-.
  rewrite (view_inv _ _ Vp), (view_inv _ _ Vq). apply select_is_rfc.
Qed.
Print Assumptions C03_select_is_rfc.

Theorem C03_higher_local_pref : forall a b, lp b < lp a -> bgp_select a b = 1%Z.
Proof. intros. apply first_difference_decides. unfold better_at_first_difference. tauto. Qed.
Print Assumptions C03_higher_local_pref.

Theorem C03_shorter_as_path : forall a b, lp a = lp b -> aslen a < aslen b -> bgp_select a b = 1%Z.
Proof. intros. apply first_difference_decides. unfold better_at_first_difference. tauto. Qed.
Print Assumptions C03_shorter_as_path.

Theorem C03_lower_origin : forall a b,
  lp a = lp b -> aslen a = aslen b -> origin a < origin b -> bgp_select a b = 1%Z.
Proof. intros. apply first_difference_decides. unfold better_at_first_difference. tauto. Qed.
Print Assumptions C03_lower_origin.

(* MED is compared whatever the neighbour AS is *)
Theorem C03_lower_med : forall a b,
  lp a = lp b -> aslen a = aslen b -> origin a = origin b -> med a < med b -> bgp_select a b = 1%Z.
Proof. intros. apply first_difference_decides. unfold better_at_first_difference. tauto. Qed.
Print Assumptions C03_lower_med.

Theorem C03_ebgp_over_ibgp : forall a b,
  lp a = lp b -> aslen a = aslen b -> origin a = origin b -> med a = med b ->
  ebgp a = true -> ebgp b = false -> bgp_select a b = 1%Z.
Proof. intros. apply first_difference_decides. unfold better_at_first_difference. tauto. Qed.
Print Assumptions C03_ebgp_over_ibgp.

(* Equal up to and including the eBGP step: lowest BGP identifier, ORIGINATOR_ID in its place when present *)
Theorem C03_lowest_identifier : forall a b,
  same_upto_ebgp a b -> id' a < id' b -> bgp_select a b = 1%Z.
Proof.
  intros. apply first_difference_decides. unfold better_at_first_difference, same_upto_ebgp in *. tauto.
Qed.
Print Assumptions C03_lowest_identifier.

(* then the shorter CLUSTER_LIST (absent = length 0) *)
Theorem C03_shorter_cluster_list : forall a b,
  same_upto_ebgp a b -> id' a = id' b -> cluster_len a < cluster_len b -> bgp_select a b = 1%Z.
Proof.
  intros. apply first_difference_decides. unfold better_at_first_difference, same_upto_ebgp in *. tauto.
Qed.
Print Assumptions C03_shorter_cluster_list.

(* then the lowest peer address *)
Theorem C03_lowest_peer_address : forall a b,
  same_upto_ebgp a b -> id' a = id' b -> cluster_len a = cluster_len b ->
  ip_lt (src a) (src b) -> bgp_select a b = 1%Z.
Proof.
  intros. apply first_difference_decides. unfold better_at_first_difference, same_upto_ebgp in *. tauto.
Qed.
Print Assumptions C03_lowest_peer_address.

(* both orderings: swapping the arguments flips the sign *)
Theorem C03_other_ordering : forall a b, bgp_select b a = (- bgp_select a b)%Z.
Proof.
  intros. rewrite !bgp_select_is_rfc. exact (rfc_cmp_antisym (KBGP (bgp_key_of b)) (KBGP (bgp_key_of a))).
Qed.
Print Assumptions C03_other_ordering.

(* ---- the functions regenerated from the Go source on this run (Gen/SelectGen.v, tools/gosub2coq) ---- *)
Theorem C03_generated_select_agrees :
  (forall b c, g_BGPPath_Select b c = bgp_select b c) /\
  (forall b c, g_BGPPath_ECMP b c = bgp_ecmp b c) /\
  (forall b, g_BGPPath_clusterListLen b = cl_len b) /\
  (forall s t, g_StaticPath_Select s t = static_select s t) /\
  (forall s t, g_StaticPath_ECMP s t = static_ecmp s t) /\
  (forall a b, g_IP_Compare a b = ip_compare a b).
Proof.
  exact (conj gen_bgp_select_eq (conj gen_bgp_ecmp_eq (conj gen_cluster_list_len_eq
          (conj gen_static_select_eq (conj gen_static_ecmp_eq gen_ip_compare_eq))))).
Qed.
Print Assumptions C03_generated_select_agrees.

(* what route/bgp_path.go says NOW is the RFC comparison *)
Theorem C03_select_is_rfc_gen : forall b c : bgp_path,
  g_BGPPath_Select b c = rfc_cmp_bgp (bgp_key_of b) (bgp_key_of c).
Proof. intros. rewrite gen_bgp_select_eq. apply bgp_select_is_rfc. Qed.
Print Assumptions C03_select_is_rfc_gen.

(* Non-vacuity / readability: two iBGP paths reflected by route reflectors. *)
Definition ex_path (bid oid : N) (cl : option (list N)) (peer : N) : bgp_path :=
  mkbgp 100 2 0 0 false bid oid cl (mkip 0 peer) (mkip 0 9) 0 0.

Example C03_example_originator_replaces_identifier :
  bgp_select (ex_path 9 1 None 5) (ex_path 2 0 None 5) = 1%Z /\      (* ORIGINATOR_ID 1 beats identifier 2 *)
  bgp_select (ex_path 2 0 None 5) (ex_path 3 0 None 5) = 1%Z /\      (* lower identifier *)
  bgp_select (ex_path 2 0 None 5) (ex_path 2 0 (Some [7]) 4) = 1%Z /\ (* absent CLUSTER_LIST is the shortest *)
  bgp_select (ex_path 2 0 (Some [7]) 4) (ex_path 2 0 (Some [7]) 5) = 1%Z. (* lower peer address *)
Proof. repeat split. Qed.
