(* C31 - IS-IS point-to-point adjacencies follow the three-way handshake and the hold timer.
   Model: Model/Adj.v (neighbor table of one interface keyed by sender, the adjacency checker, the LSP's
   neighbor list and the LSP update request flag) after the two repairs in neighbor.go (Init neighbors
   time out; a time-out of an Up adjacency requests an LSP update). Histories: any list of hellos (any
   sender, holding time, accepted listing us / accepted not listing us / rejected / ignored), clock
   advances with a checker run, and LSP regenerations. *)
From Coq Require Import List NArith.
Import ListNotations.
From BioVerif Require Import Model.Adj Spec.AdjSpec Proofs.AdjProofs.
Open Scope N_scope.

(* An adjacency is Up only if the most recent accepted hello of that neighbor listed this system
   and circuit in its three-way TLV (so: not before such a hello, and not after a later hello
   that no longer does) ... *)
Theorem C31_up_only_after_threeway : forall (evs : list event) k nb,
  lookup k (nbrs (run init evs)) = Some nb -> state nb = Up -> last_valid evs k = Some true.
Proof.
  intros evs k nb. apply (run_up_ok evs init (fun _ => None) init_wf). intros x nb0 H. discriminate.
Qed.
Print Assumptions C31_up_only_after_threeway.

(* ... the first hello only creates the neighbor (Init); a known neighbor whose hello lists us is Up. *)
Theorem C31_handshake : forall s k hold,
  (forall lists, lookup k (nbrs s) = None ->
     lookup k (nbrs (on_hello s k hold lists)) = Some (mkNbr Init (now s + hold) (now s))) /\
  (forall nb0, lookup k (nbrs s) = Some nb0 ->
     exists nb, lookup k (nbrs (step s (Hello k hold Lists))) = Some nb /\ state nb = Up /\
                timeout nb = now s + hold).
Proof.
  intros s k hold. split.
  - intros lists Hl. rewrite on_hello_lookup, N.eqb_refl. unfold heard. rewrite Hl. reflexivity.
  - exact (up_on_threeway s k hold).
Qed.
Print Assumptions C31_handshake.

(* It goes Down when a later hello no longer lists us (in any state s, reachable or not: after such
   a hello the neighbor is not Up; if it was Up it is Down since now and an LSP update is requested) ... *)
Theorem C31_down_on_mismatch : forall s k hold,
  (forall nb, lookup k (nbrs (step s (Hello k hold NotLists))) = Some nb -> state nb <> Up) /\
  (forall nb0, lookup k (nbrs s) = Some nb0 -> state nb0 = Up ->
     lookup k (nbrs (step s (Hello k hold NotLists))) = Some (mkNbr Down (now s + hold) (now s)) /\
     pending (step s (Hello k hold NotLists)) = true).
Proof. exact down_on_mismatch. Qed.
Print Assumptions C31_down_on_mismatch.

(* ... or when the holding time passes: after every checker run no neighbor that is Up or Init is
   past its holding time, and an Up neighbor that is past it is Down since this run, with an LSP
   update requested. *)
Theorem C31_down_on_timeout : forall evs d k,
  let s := run init evs in
  (forall nb, lookup k (nbrs (step s (Tick d))) = Some nb -> state nb <> Down ->
     now (step s (Tick d)) <= timeout nb) /\
  (forall nb0, lookup k (nbrs s) = Some nb0 -> state nb0 = Up -> timeout nb0 < now s + d ->
     lookup k (nbrs (step s (Tick d))) = Some (mkNbr Down (timeout nb0) (now s + d)) /\
     pending (step s (Tick d)) = true).
Proof. intros evs d k. apply down_on_timeout. apply run_wf. apply init_wf. Qed.
Print Assumptions C31_down_on_timeout.

(* A neighbor that stopped sending (accepted) hellos disappears, whatever state it is in - Init
   included: in any continuation in which it stays silent and every clock advance is >= 1 s, it is
   gone once the checker ran more often than rank = remaining holding time + 123 (ranking
   function: every run strictly decreases it or removes the neighbor) ... *)
Theorem C31_eventually_removed : forall (evs0 evs : list event) k nb,
  lookup k (nbrs (run init evs0)) = Some nb ->
  silent k evs = true -> ticks_pos evs = true ->
  rank (now (run init evs0)) nb < count_ticks evs ->
  lookup k (nbrs (run (run init evs0) evs)) = None.
Proof. intros evs0 evs k nb. apply eventually_removed, run_wf, init_wf. Qed.
Print Assumptions C31_eventually_removed.

(* ... in particular at most hold + 124 checker runs after its last accepted hello. *)
Theorem C31_removed_after_last_hello : forall (evs0 : list event) k hold v (evs : list event),
  (v = Lists \/ v = NotLists) ->
  silent k evs = true -> ticks_pos evs = true ->
  hold + 124 <= count_ticks evs ->
  lookup k (nbrs (run init (evs0 ++ Hello k hold v :: evs))) = None.
Proof.
  intros evs0 k hold v evs Hv. unfold run at 1. rewrite fold_left_app.
  apply removed_after_hello; [apply run_wf, init_wf | apply run_tm; [apply init_wf | apply init_tm] |].
  destruct Hv as [-> | ->]; discriminate.
Qed.
Print Assumptions C31_removed_after_last_hello.

(* The local LSP lists exactly the Up adjacencies once regenerated: at every point of every
   history either an LSP update is pending or the LSP's neighbor list equals the Up adjacencies;
   a regeneration makes them equal and clears the request. *)
Theorem C31_lsp_lists_up : forall (evs : list event),
  (pending (run init evs) = true \/ lsp (run init evs) = up_ids (nbrs (run init evs))) /\
  lsp (step (run init evs) ForceRegen) = up_ids (nbrs (run init evs)) /\
  (pending (run init evs) = true ->
     lsp (step (run init evs) Regen) = up_ids (nbrs (run init evs)) /\
     pending (step (run init evs) Regen) = false).
Proof.
  intros evs. split; [apply run_lsp_ok; left; reflexivity |]. split; [reflexivity |].
  intros Hp. cbn [step]. rewrite Hp. split; reflexivity.
Qed.
Print Assumptions C31_lsp_lists_up.

Theorem C31_lsp_lists_exactly_up : forall (evs : list event) k,
  In k (lsp (step (run init evs) ForceRegen)) <->
  exists nb, lookup k (nbrs (run init evs)) = Some nb /\ state nb = Up.
Proof. intros evs k. apply up_ids_spec, run_wf, init_wf. Qed.
Print Assumptions C31_lsp_lists_exactly_up.

(* An adjacency change that lands WHILE the LSP updater builds the LSP is not lost: the updater takes the
   request (clears the flag) before it builds - [ForceRegen] is that build, the hello arrives during it and
   sets the flag again if it changes the Up set, the updater then looks at the flag again ([Regen]): after
   any history followed by such a build the LSP lists exactly the Up adjacencies and nothing is pending. *)
Theorem C31_lsp_lists_exactly_up_change_during_build : forall (evs : list event) k hold v,
  let s := run init (evs ++ [ForceRegen; Hello k hold v; Regen]) in
  lsp s = up_ids (nbrs s) /\ pending s = false.
Proof. intros evs k hold v. unfold run. rewrite fold_left_app. apply build_then_change. Qed.
Print Assumptions C31_lsp_lists_exactly_up_change_during_build.

(* ... whereas an updater that clears the flag again after building (seeded change C31-2r3) leaves the LSP
   stale with nothing pending *)
Theorem C31_drain_after_build_loses_change :
  let s0 := run init [Hello 0 9 NotLists; Regen] in
  let s := step (drained (run s0 [ForceRegen; Hello 0 9 Lists])) Regen in
  up_ids (nbrs s) = [0] /\ lsp s = [] /\ pending s = false.
Proof. vm_compute. repeat split; reflexivity. Qed.
Print Assumptions C31_drain_after_build_loses_change.

(* Non-vacuity. Neighbor 0 completes the handshake, is listed, falls silent, times out (the LSP is
   updated), and is removed; neighbor 1 never gets beyond Init and is removed as well. *)
Example C31_example_history :
  let h := [Hello 0 9 NotLists; Hello 1 3 NotLists; Hello 0 9 Lists; Regen] in
  let s1 := run init h in
  let s2 := run s1 [Tick 10; Regen] in
  let s3 := run s2 [Tick 120; Tick 1] in
  up_ids (nbrs s1) = [0] /\ lsp s1 = [0] /\ last_valid h 0 = Some true /\
  lookup 0 (nbrs s2) = Some (mkNbr Down 9 10) /\ lookup 1 (nbrs s2) = Some (mkNbr Down 3 10) /\
  lsp s2 = [] /\ nbrs s3 = [].
Proof. vm_compute. repeat split; reflexivity. Qed.

Example C31_example_rank :
  silent 1 [Tick 1; Hello 0 5 Lists; Tick 200] = true /\ ticks_pos [Tick 1; Tick 200] = true /\
  rank 0 (mkNbr Init 3 0) = 126.
Proof. vm_compute. repeat split; reflexivity. Qed.
