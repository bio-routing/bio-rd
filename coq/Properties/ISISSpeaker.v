(* Wire-level IS-IS speaker (Model/ISISSpeaker.v: composition of C30 codec, C31 adjacencies, C32 LSDB,
   C33 link state). Registered under C32 (props/C32.py: more_properties_files). *)
From Coq Require Import List NArith Permutation.
Import ListNotations.
From BioVerif Require Import Model.ISISSpeaker Proofs.ISISSpeakerProofs.
(* C = Model.ISISCodec, A = Model.Adj, L = Model.LSDB (aliases from the proofs file) *)
From BioVerif Require Spec.ISISCodecSpec.
Open Scope N_scope.

(* A frame whose bytes packet.Decode does not accept leaves neighbors, database, stored PDUs and
   the clock exactly as they were and nothing is sent; by C30 "does not decode" can only mean the
   decoder's error return (no panic, no endless loop). Frames of a PDU type the decoder has no case
   for are dropped in the same way. For ANY state, interface, source and byte string. *)
Theorem ISISSpeaker_garbage_changes_nothing : forall s i src b,
  (forall p, C.decode b <> C.Ok p) ->
  step s (RecvPDU i src b) = (s, []) /\ C.decode b = C.Err.
Proof.
  intros s i src b H. split; [apply garbage_changes_nothing; exact H | apply undecodable_is_err; exact H].
Qed.
Print Assumptions ISISSpeaker_garbage_changes_nothing.

Theorem ISISSpeaker_other_pdu_types_change_nothing : forall s i src b h,
  C.decode b = C.Ok (C.mkPacket h C.BNone) -> L.pending (sp_db s) = false ->
  step s (RecvPDU i src b) = (s, []).
Proof. exact other_pdu_types_change_nothing. Qed.
Print Assumptions ISISSpeaker_other_pdu_types_change_nothing.

(* Every PSNP and CSNP the speaker puts on the wire decodes back (C30 round trip through
   NewPSNPs / NewCSNPs, any number of entries, several TLVs per PDU, several PDUs) to itself, and
   the entries it carries are exactly: for a PSNP on interface i the database entries whose SSN
   flag is set for i (the flag C32_flag_rules sets/clears), in database order; for a CSNP the whole
   database, sorted by LSP id. [entry_of] = remaining lifetime, id, sequence number of the entry and
   the checksum of the stored PDU. *)
Theorem ISISSpeaker_ack_roundtrips : forall s, cfg_ok s ->
  (forall i, exists ps, psnps_for s i = C.Ok ps /\
     Forall (fun p => C.decode (psnp_bytes p) = C.Ok (C.mkPacket hdr_psnp (C.BPsnp p))) ps /\
     concat (map ISISCodecSpec.psnp_entries ps) =
       map (entry_of s) (filter (fun kv => L.mem i (L.ssn (snd kv))) (L.db (sp_db s)))) /\
  (exists cs, csnps_for s = C.Ok cs /\
     Forall (fun c => C.decode (csnp_bytes c) = C.Ok (C.mkPacket hdr_csnp (C.BCsnp c))) cs /\
     concat (map ISISCodecSpec.csnp_entries cs) = C.sort_entries (map (entry_of s) (L.db (sp_db s))) /\
     Permutation (concat (map ISISCodecSpec.csnp_entries cs)) (map (entry_of s) (L.db (sp_db s)))) /\
  (* ids survive the wire *)
  (forall k, id_ok k -> id_of_bytes (id_bytes k) = k).
Proof.
  intros s Hc. split; [intros i | split; [| exact id_roundtrip]].
  - unfold psnps_for, psnp_bytes.
    edestruct (fun l => CP.new_psnps_roundtrip (src_id s) _ mtu llc hdr_psnp (src_id_len s Hc) (entries_wf s l) eq_refl eq_refl)
      as (ps & Hn & Hd & He).
    exists ps. split; [exact Hn |]. split; [exact Hd |]. apply He. vm_compute. discriminate.
  - unfold csnps_for, csnp_bytes.
    edestruct (fun l => CP.new_csnps_roundtrip (src_id s) _ mtu llc hdr_csnp (src_id_len s Hc) (entries_wf s l) eq_refl eq_refl)
      as (cs & Hn & Hd & He).
    destruct He as [He Hp]; [vm_compute; discriminate |].
    exists cs. split; [exact Hn |]. split; [exact Hd |]. split; [exact He |]. rewrite He. exact Hp.
Qed.
Print Assumptions ISISSpeaker_ack_roundtrips.

(* The hello we send decodes (C30) to a level-2 point-to-point hello of this system whose
   three-way adjacency TLV is exactly the neighbor state of C31: "Down" without neighbor fields
   when the interface has no single neighbor or that neighbor is Down; otherwise the neighbor's
   state (Init/Up) with its system id and its extended circuit id. *)
Theorem ISISSpeaker_hello_reflects_adjacency : forall s f, cfg_ok s -> area_ok s -> if_ok s f ->
  (exists h, C.decode (hello_bytes s f) = C.Ok (C.mkPacket hdr_hello (C.BHello h)) /\
     C.hl_ct h = 2 /\ C.hl_sys h = sp_sys s /\ C.hl_hold h = u16 (sp_hold s) /\
     C.hl_tlvs h = [threeway_tlv f; C.new_proto_tlv [204; 142]; C.new_ipif_tlv [if_addr f];
                    C.new_area_tlv [sp_area s]]) /\
  match p2p_neighbor f with
  | Some (k, nb) =>
    match A.state nb, info_lookup k (if_info f) with
    | A.Down, _ | _, None => threeway_tlv f = C.TP2PAdj 240 5 2 (u32 (if_index f)) C.zero6 0
    | A.Init, Some i => threeway_tlv f = C.TP2PAdj 240 15 1 (u32 (if_index f)) (ni_sys i) (ni_ecid i)
    | A.Up, Some i => threeway_tlv f = C.TP2PAdj 240 15 0 (u32 (if_index f)) (ni_sys i) (ni_ecid i)
    end
  | None => threeway_tlv f = C.TP2PAdj 240 5 2 (u32 (if_index f)) C.zero6 0
  end.
Proof.
  intros s f Hc Ha Hf. split.
  { eexists. split; [apply hello_decodes; assumption |]. repeat split; try reflexivity. apply hello_tlvs. }
  unfold threeway_tlv. destruct (p2p_neighbor f) as [[k nb] |]; [| reflexivity].
  destruct (A.state nb); destruct (info_lookup k (if_info f)); reflexivity.
Qed.
Print Assumptions ISISSpeaker_hello_reflects_adjacency.

(* What a speaker S concludes from the hello bytes another speaker T emits on a common link: the
   C31 verdict is "lists us" exactly when T's neighbor table names S (single neighbor, not Down,
   learnt with S's system id and circuit id). The abstract verdict Lists / NotLists of Model/Adj.v is
   the three-way TLV that went over the wire. (A TLV without neighbor fields reads as system id 0 /
   circuit 0, hence the non-zero system id.) *)
Theorem ISISSpeaker_verdict_of_emitted : forall S f T ft, cfg_ok T -> area_ok T -> if_ok T ft ->
  be_val (sp_sys S) <> 0 ->
  pfx_contains (if_addr f) (if_plen f) (if_addr ft) = true ->
  exists h, C.decode (hello_bytes T ft) = C.Ok (C.mkPacket hdr_hello (C.BHello h)) /\
    C.hl_sys h = sp_sys T /\ C.hl_hold h = u16 (sp_hold T) /\
    hello_verdict S f h = (if names T ft S f then A.Lists else A.NotLists) /\
    info_of_hello h = mkInfo (sp_sys T) (u32 (if_index ft)) [u32 (if_addr ft)].
Proof.
  intros S f T ft Hc Ha Hf Hnz Hp.
  eexists. split; [apply hello_decodes; assumption |]. split; [reflexivity |]. split; [reflexivity |].
  apply emitted_verdict; assumption.
Qed.
Print Assumptions ISISSpeaker_verdict_of_emitted.

(* Two-speaker closure, for ALL configurations: two speakers with one interface each on a common
   link (addresses inside each other's subnet, non-zero system ids, links up, no neighbors yet), each
   fed the hello BYTES the other one emits: after the first hello in each direction both neighbor
   tables hold the other side in Init, after the second both adjacencies are Up. *)
Theorem ISISSpeaker_two_speaker_closure : forall SA SB fa fb ma mb,
  cfg_ok SA -> cfg_ok SB -> area_ok SA -> area_ok SB ->
  be_val (sp_sys SA) <> 0 -> be_val (sp_sys SB) <> 0 ->
  sp_ifs SA = [fa] -> sp_ifs SB = [fb] -> if_up fa = true -> if_up fb = true ->
  if_nbrs fa = [] -> if_nbrs fb = [] -> link_compat fa fb ->
  let B1 := recv_pdu SB 0 ma (hello_of_first SA) in
  let A1 := recv_pdu SA 0 mb (hello_of_first B1) in
  let B2 := recv_pdu B1 0 ma (hello_of_first A1) in
  let A2 := recv_pdu A1 0 mb (hello_of_first B2) in
  nbr_state B1 ma = Some A.Init /\ nbr_state A1 mb = Some A.Init /\
  nbr_state B2 ma = Some A.Up /\ nbr_state A2 mb = Some A.Up.
Proof.
  intros SA SB fa fb ma mb HcA HcB HaA HaB HzA HzB HiA HiB HuA HuB HnA HnB (Hra & Hrb & Hpab & Hpba) B1 A1 B2 A2.
  assert (L0 : link None None SB fb mb SA fa ma) by (unfold link, ready; repeat split; assumption).
  destruct (ping _ _ _ _ _ _ _ _ L0) as (fb1 & L1).
  destruct (ping _ _ _ _ _ _ _ _ L1) as (fa1 & L2).
  destruct (ping _ _ _ _ _ _ _ _ L2) as (fb2 & L3).
  destruct (ping _ _ _ _ _ _ _ _ L3) as (fa2 & L4).
  repeat split; eapply link_state; eassumption.
Qed.
Print Assumptions ISISSpeaker_two_speaker_closure.

(* The own LSP as flooded decodes (C30) to itself: its sequence number is the one it was generated
   with, its extended IS reachability TLV (type 22, no decoder: it comes back as the bytes written)
   names exactly the Up adjacencies; and serving an update request installs that LSP with sequence
   number next_seq(counter) = counter + 1 (the number C32_own_seq_dominates puts above every
   received copy). [own_fits]: each TLV's content fits its one-byte length. *)
Theorem ISISSpeaker_lsp_roundtrip_lists_up : forall s sq, own_fits s -> sq < 4294967296 ->
  C.decode (lsp_bytes (own_lsp s sq)) =
    C.Ok (C.mkPacket hdr_lsp (C.BLsp (ISISCodecSpec.norm_lsp (own_lsp s sq)))) /\
  C.ls_seq (ISISCodecSpec.norm_lsp (own_lsp s sq)) = sq /\
  C.ls_id (ISISCodecSpec.norm_lsp (own_lsp s sq)) = id_bytes (L.local_id (sp_db s)) /\
  exists t, nth_error (own_lsp_tlvs s) 4 = Some t /\
    nth_error (C.ls_tlvs (ISISCodecSpec.norm_lsp (own_lsp s sq))) 4 =
      Some (C.TUnknown 22 (C.tlv_len t) (C.tlv_value t)) /\
    map C.xn_id (extis_nbrs t) =
      flat_map (fun f => map (fun ki => ni_sys (snd ki) ++ [0]) (up_nbrs f)) (sp_ifs s).
Proof. exact own_lsp_roundtrip. Qed.
Print Assumptions ISISSpeaker_lsp_roundtrip_lists_up.

Theorem ISISSpeaker_service_installs_own_lsp : forall s,
  L.pending (sp_db s) = true ->
  let sq := L.next_seq (L.counter (sp_db s)) in
  let s' := service s in
  pdu_lookup (L.local_id (sp_db s)) (sp_pdus s') = Some (own_lsp s sq) /\
  (exists e, L.lookup (L.local_id (sp_db s)) (L.db (sp_db s')) = Some e /\ L.seq e = sq /\
             L.life e = L.default_lifetime) /\
  L.counter (sp_db s') = sq /\ L.pending (sp_db s') = false /\ sp_ifs s' = sp_ifs s.
Proof. exact service_installs_own_lsp. Qed.
Print Assumptions ISISSpeaker_service_installs_own_lsp.

(* ------------------------------------------------------------------ computed examples on real byte strings *)

Definition ipA : N := 2852021248.   (* 169.254.100.0 *)
Definition ipB : N := 2852021249.   (* 169.254.100.1 *)
Definition sysA : list N := [12; 12; 12; 13; 13; 13].
Definition sysB : list N := [222; 173; 190; 239; 255; 1].
Definition macA : N := 1.
Definition macB : N := 244837814047284.   (* de:ad:be:ef:12:34 *)

Definition spA0 : spk := fst (step (init sysA [73; 0] [118] 16 4 10 [(7, ipA, 31)]) (LinkUp 0)).
Definition spB0 : spk := fst (step (init sysB [73; 0] [119] 16 4 10 [(100, ipB, 31)]) (LinkUp 0)).

Definition hello_from (s : spk) : list N :=
  match nth_error (sp_ifs s) 0 with Some f => hello_bytes s f | None => [] end.
Definition nbr_states (s : spk) : list (list (N * A.adj_state)) :=
  map (fun f => map (fun kv => (fst kv, A.state (snd kv))) (if_nbrs f)) (sp_ifs s).

(* the hello bytes of a speaker without neighbor: what tests/isis_integration_test.go expects
   (helloToNeighborADown, here with ifindex 7), behind the LLC header *)
Example ISISSpeaker_example_hello_bytes :
  hello_from spA0 =
  [254; 254; 3;  131; 20; 1; 0; 17; 1; 0; 0;
   2;  12; 12; 12; 13; 13; 13;  0; 16;  0; 42;  1;
   240; 5; 2; 0; 0; 0; 7;   129; 2; 204; 142;   132; 4; 169; 254; 100; 0;   1; 3; 2; 73; 0].
Proof. vm_compute. reflexivity. Qed.

(* two-speaker closure: each speaker is fed the other's emitted hello bytes; after two hellos each
   both adjacencies are Up, both own LSPs name the other system, and garbage in between is ignored *)
Example ISISSpeaker_example_two_speakers :
  let garbage := [0; 0; 0; 131; 20; 1; 0; 17; 1; 0; 0; 2; 1; 2; 3] in
  let b1 := fst (step spB0 (RecvPDU 0 macA (hello_from spA0))) in
  let a1 := fst (step spA0 (RecvPDU 0 macB (hello_from b1))) in
  let a1' := fst (step a1 (RecvPDU 0 macB garbage)) in
  let b2 := fst (step b1 (RecvPDU 0 macA (hello_from a1'))) in
  let a2 := fst (step a1' (RecvPDU 0 macB (hello_from b2))) in
  nbr_states b1 = [[(macA, A.Init)]] /\ nbr_states a1 = [[(macB, A.Init)]] /\ a1' = a1 /\
  nbr_states b2 = [[(macA, A.Up)]] /\ nbr_states a2 = [[(macB, A.Up)]] /\
  map C.xn_id (extis_nbrs (nth 4 (own_lsp_tlvs a2) (C.TUnknown 0 0 []))) = [sysB ++ [0]] /\
  map C.xn_id (extis_nbrs (nth 4 (own_lsp_tlvs b2) (C.TUnknown 0 0 []))) = [sysA ++ [0]].
Proof. vm_compute. repeat split; reflexivity. Qed.

(* a real LSP byte string from the neighbor is installed, acknowledged by a PSNP whose bytes decode
   back to that LSP's entry, and the own LSP goes out with sequence number 3 listing the neighbor *)
Definition lsp_from_b : list N :=
  [0; 0; 0;  131; 27; 1; 0; 20; 1; 0; 0;
   0; 27;  4; 176;  222; 173; 190; 239; 255; 1; 0; 0;  0; 0; 0; 9;  18; 52;  0].

Fixpoint ticks (n : nat) (s : spk) : spk * list out :=
  match n with
  | O => (s, [])
  | S k => let r := ticks k s in let r' := step (fst r) Tick in (fst r', snd r ++ snd r')
  end.

Example ISISSpeaker_example_lsp_ack :
  let b1 := fst (step spB0 (RecvPDU 0 macA (hello_from spA0))) in
  let a1 := fst (step spA0 (RecvPDU 0 macB (hello_from b1))) in
  let b2 := fst (step b1 (RecvPDU 0 macA (hello_from a1))) in
  let a2 := fst (step a1 (RecvPDU 0 macB (hello_from b2))) in
  let a3 := fst (step a2 (RecvPDU 0 macB lsp_from_b)) in
  let r := ticks 5 a3 in
  (* the LSP is in the database with SSN set for interface 0 *)
  L.lookup (id_of_bytes [222; 173; 190; 239; 255; 1; 0; 0]) (L.db (sp_db a3)) = Some (L.mkE 9 1200 [] [0%nat]) /\
  (* at second 5: own LSP flooded (type 20), a PSNP (type 27), a hello (at second 4) *)
  map (fun o => nth 7 (snd o) 0) (snd r) = [17; 20; 27] /\
  (* the PSNP decodes to one entry: lifetime 1195, that id, sequence number 9, checksum 0x1234 *)
  (exists h p, C.decode (snd (nth 2 (snd r) (0%nat, []))) = C.Ok (C.mkPacket h (C.BPsnp p)) /\
     ISISCodecSpec.psnp_entries p = [C.mkEntry 1195 [222; 173; 190; 239; 255; 1; 0; 0] 9 4660]) /\
  (* the flooded own LSP decodes with sequence number 3 *)
  (exists h x, C.decode (snd (nth 1 (snd r) (0%nat, []))) = C.Ok (C.mkPacket h (C.BLsp x)) /\
     C.ls_seq x = 3 /\ C.ls_id x = sysA ++ [0; 0]).
Proof.
  vm_compute. repeat split; try reflexivity.
  - eexists. eexists. split; reflexivity.
  - eexists. eexists. repeat split; reflexivity.
Qed.
