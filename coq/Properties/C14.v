(* C14 - Policy evaluation agrees with a reference interpreter; chains that compare equal behave
   identically.
   Model.Policy.process is Chain.Process on a store of path cells (Path.Copy allocates,
   as-path-prepend mutates in place), Model.Policy.chain_equal is Chain.Equal,
   Spec.PolicyRef.chain_ref is the reference interpreter on path values with bit-level matchers. *)
From Coq Require Import List NArith Bool.
Import ListNotations.
From BioVerif Require Import Model.Policy Model.PolicyNet Model.PolicyConfig Spec.PolicyRef Spec.PolicyConfigSpec.
From BioVerif Require Import Proofs.PolicySim Proofs.PolicyEqual Proofs.PolicyNetLink Proofs.PolicyConfigProofs.
From BioVerif Require Model.NetArith Gen.NetGen.
Local Open Scope N_scope.

(* For every chain, every pattern environment, every prefix (IPv4 or IPv6, any length up to the
   family's width), every store and every pointer to a path: Chain.Process does not panic, returns
   the reference interpreter's verdict and rewritten path, in a cell that did not exist before, and
   leaves every cell of the caller (in particular the input path) unchanged.
   Well-formedness = representation invariants: address words in range, lengths within the
   family's width and no host bits (net.Prefix.Valid) for the patterns and the prefix; a BGP path
   has its BGPPathA block. *)
Theorem C14_process_ref : forall (env : penv) (c : chain) (p : prefix) (st : store) (r : nat) (v : path),
  chain_wfb env c = true -> prefix_wfb p = true -> path_wfb v = true ->
  nth_error st r = Some v ->
  exists st' r',
    process env c p st r = Ok (st', r', snd (chain_ref env c p v)) /\
    nth_error st' r' = Some (fst (chain_ref env c p v)) /\
    (length st <= r')%nat /\
    (forall k, (k < length st)%nat -> nth_error st' k = nth_error st k).
Proof. exact (process_ref_w _ PolicyBits.matcher_ok). Qed.
Print Assumptions C14_process_ref.

(* No chain, prefix (well-formed or not) or pattern makes Chain.Process dereference nil on a path
   whose BGP part (if any) has its BGPPathA block. *)
Theorem C14_no_panic : forall (env : penv) (c : chain) (p : prefix) (st : store) (r : nat) (v : path),
  path_wfb v = true -> nth_error st r = Some v -> process env c p st r <> Panic.
Proof. exact no_panic. Qed.
Print Assumptions C14_no_panic.

(* Two chains that compare Equal produce identical outcomes (verdict, rewritten path, store
   effects, panics) on every input, for every pattern environment. *)
Theorem C14_equal_sound : forall c d : chain,
  chain_equal c d = true ->
  forall (env : penv) (p : prefix) (st : store) (r : nat), process env c p st r = process env d p st r.
Proof. intros c d H env p st r. apply chain_equal_eq in H. subst. reflexivity. Qed.
Print Assumptions C14_equal_sound.

(* Chain.Equal is exactly structural equality of the chains (route filter patterns by pointer). *)
Theorem C14_equal_exact : forall c d : chain, chain_equal c d = true <-> c = d.
Proof. exact chain_equal_eq. Qed.
Print Assumptions C14_equal_exact.

(* The word-level matchers are the bit-level ones on well-formed prefixes. *)
Theorem C14_matchers_on_bits : forall (m : matcher) (pat p : prefix),
  prefix_wfb pat = true -> prefix_wfb p = true -> matcher_match m pat p = m_ref m pat p.
Proof. exact PolicyBits.matcher_ok. Qed.
Print Assumptions C14_matchers_on_bits.

(* ---- link to the net package as REGENERATED from the Go source (Gen/NetGen.v, C15's translator) *)

(* `process` is the engine that is extracted and run; process_gen is that engine over the
   generated net functions *)
Theorem C14_net_link :
  (forall p x, pfx_equal p x = NetArith.pfx_equal (to_net_pfx p) (to_net_pfx x)) /\
  (forall p x, pfx_contains p x = NetArith.Contains (to_net_pfx p) (to_net_pfx x)) /\
  (forall p x, pfx_equal p x = NetGen.g_Prefix_Equal (to_net_pfx p) (to_net_pfx x)) /\
  (forall p x, pfx_contains p x = NetGen.g_Prefix_Contains (to_net_pfx p) (to_net_pfx x)) /\
  (forall env c p st r, process_gen env c p st r = process env c p st r).
Proof.
  repeat split.
  - exact equal_link.
  - exact contains_link.
  - exact gen_equal_link.
  - exact gen_contains_link.
  - exact process_gen_is_process.
Qed.
Print Assumptions C14_net_link.

(* C14_process_ref restated for Chain.Process with the route-filter / prefix-list matchers computed
   by the regenerated net.Prefix.Equal / Contains: a source change of those functions changes
   Gen/NetGen.v and breaks this obligation. *)
Theorem C14_process_ref_on_generated_net :
  forall (env : penv) (c : chain) (p : prefix) (st : store) (r : nat) (v : path),
  chain_wfb env c = true -> prefix_wfb p = true -> path_wfb v = true ->
  nth_error st r = Some v ->
  exists st' r',
    process_gen env c p st r = Ok (st', r', snd (chain_ref env c p v)) /\
    nth_error st' r' = Some (fst (chain_ref env c p v)) /\
    (length st <= r')%nat /\
    (forall k, (k < length st)%nat -> nth_error st' k = nth_error st k).
Proof. exact process_ref_gen. Qed.
Print Assumptions C14_process_ref_on_generated_net.

(* ---- configuration front end (cmd/bio-rd/config/policy.go, bgp.go) *)

(* Whenever the loader accepts a configuration, the import (imp = true) and export chain it attaches
   to the neighbor evaluate, under Chain.Process, to the documented meaning of the policy
   statements named by the neighbor (or inherited from its group): statements in the order listed,
   terms in order, a term applies when it has no route filter or any matches, reject first, then
   local-pref / MED / prepend / next hop, then accept. *)
Theorem C14_config_chain_semantics : forall (cf : cfg) (ci ce : chain),
  load_cfg cf = Some (ci, ce) ->
  forall (imp : bool) (env : penv) (p : prefix) (st : store) (r : nat) (v : path),
    let c := if imp then ci else ce in
    let names := if imp then import_names cf else export_names cf in
    chain_wfb env c = true -> prefix_wfb p = true -> path_wfb v = true -> nth_error st r = Some v ->
    exists st' r',
      process env c p st r = Ok (st', r', snd (policy_ref env (cfg_stmts cf) names p v)) /\
      nth_error st' r' = Some (fst (policy_ref env (cfg_stmts cf) names p v)) /\
      (length st <= r')%nat /\
      (forall k, (k < length st)%nat -> nth_error st' k = nth_error st k).
Proof. exact config_chain_semantics. Qed.
Print Assumptions C14_config_chain_semantics.

(* value level, without well-formedness: the chains mean what the configuration says *)
Theorem C14_config_chain_ref : forall (cf : cfg) (ci ce : chain),
  load_cfg cf = Some (ci, ce) ->
  forall env p a,
    chain_ref env ci p a = policy_ref env (cfg_stmts cf) (import_names cf) p a /\
    chain_ref env ce p a = policy_ref env (cfg_stmts cf) (export_names cf) p a.
Proof. exact load_cfg_ok. Qed.
Print Assumptions C14_config_chain_ref.

(* ---- non-vacuity *)

Definition ex_env : penv := fun i =>
  match i with
  | 0 => mkPfx (mkIP false 2306139568115548160 0) 48                (* 2001:db8:0::/48 *)
  | 1 => mkPfx (mkIP false 2306139568115548160 9223372036854775808) 65   (* 2001:db8::8000:0:0:0/65 *)
  | _ => mkPfx (mkIP true 0 167772160) 8                            (* 10.0.0.0/8 *)
  end.

Definition ex_chain : chain :=
  [ [ mkTerm [mkCond [] [mkRF 0 (MRange 56 64); mkRF 1 MOrLonger] [] [] [BGPPathType]]
             [ASetLocalPref 200; APrepend 65000 2] ;
      mkTerm [mkCond [mkPL [mkPfx (mkIP true 0 167772160) 8] MLonger] [] [65001] [] []] [AReject] ] ;
    [ mkTerm [] [ASetMED 7; AAccept] ] ].

Definition ex_path : path :=
  mkP BGPPathType (Some (mkB (Some (mkA 100 0 None)) (Some [(ASSet, [1; 2])]) 1 (Some [65001]) None)) None.

Example C14_example_wf :
  chain_wfb ex_env ex_chain = true /\ path_wfb ex_path = true /\
  prefix_wfb (mkPfx (mkIP false 2306139568115548160 9223372036854775808) 72) = true.
Proof. vm_compute. auto. Qed.

(* 2001:db8:0:0:8000::/72 is matched by the /65 or-longer filter (bits 33..65 matter): local-pref
   200, two prepends in a new AS_SEQUENCE in front of the AS_SET, then MED 7 and accept; the input
   cell is untouched *)
Example C14_example_v6 :
  process ex_env ex_chain (mkPfx (mkIP false 2306139568115548160 9223372036854775808) 72) [ex_path] 0 =
  Ok ([ex_path;
       mkP 2 (Some (mkB (Some (mkA 100 0 None)) (Some [(1, [1; 2])]) 1 (Some [65001]) None)) None;
       mkP 2 (Some (mkB (Some (mkA 200 0 None)) (Some [(2, [65000; 65000]); (1, [1; 2])]) 3 (Some [65001]) None)) None;
       mkP 2 (Some (mkB (Some (mkA 200 7 None)) (Some [(2, [65000; 65000]); (1, [1; 2])]) 3 (Some [65001]) None)) None],
      3%nat, false).
Proof. vm_compute. reflexivity. Qed.

(* 10.1.0.0/16 with community 65001 is rejected by the second term (prefix list 10/8 longer) *)
Example C14_example_v4_reject :
  exists st' r', process ex_env ex_chain (mkPfx (mkIP true 0 167837696) 16) [ex_path] 0 = Ok (st', r', true).
Proof. vm_compute. eauto. Qed.

Example C14_example_equal :
  chain_equal ex_chain ex_chain = true /\
  chain_equal ex_chain [ [ mkTerm [] [ASetMED 8; AAccept] ] ] = false.
Proof. vm_compute. auto. Qed.

(* a configuration: statement 7 = { term (10.0.0.0/8 orlonger | 2001:db8::/48 range 56-64): local-pref
   200, prepend 65000 x2, accept }, statement 9 = { reject }; the neighbor imports [7; 9], exports
   the group's [9] *)
Definition ex_cfg : cfg :=
  mkCfg [ mkCS 7 [ mkCT [mkCRF 2 true (Some MOrLonger); mkCRF 0 true (Some (MRange 56 64))]
                         (mkThen false (Some 200) None (Some (65000, 2)) None true) ];
          mkCS 9 [ mkCT [] (mkThen true (Some 1) None None None true) ] ]
        [] [9] [7; 9] [].

Example C14_example_config :
  match load_cfg ex_cfg with
  | Some (ci, ce) => chain_wfb ex_env ci && negb (is_nil ce)
  | None => false
  end = true /\
  snd (policy_ref ex_env (cfg_stmts ex_cfg) (import_names ex_cfg) (mkPfx (mkIP true 0 167837696) 16) ex_path) = false /\
  snd (policy_ref ex_env (cfg_stmts ex_cfg) (import_names ex_cfg) (mkPfx (mkIP true 0 3232235520) 16) ex_path) = true /\
  snd (policy_ref ex_env (cfg_stmts ex_cfg) (export_names ex_cfg) (mkPfx (mkIP true 0 167837696) 16) ex_path) = true /\
  load_cfg (mkCfg (cfg_stmts ex_cfg) [8] [] [] []) = None.
Proof. vm_compute. repeat split. Qed.
