(* C09 - Export eligibility and attribute rewriting follow the BGP RFCs. export_with f s pfx p is what
   AdjRIBOut.AddPath computes for a Loc-RIB path p on session s before it stores/announces it: redistribution,
   ShouldPropagateUpdate, checkPropagateUpdate{IBGP,EBGP} (= rewrite) and the export policy f, which is ANY
   function prefix -> path -> option path. *)
From Coq Require Import List NArith Bool.
Import ListNotations.
From BioVerif Require Import Model.AdjRIBOut Model.ExportWire Spec.ExportSpec
  Proofs.ExportProofs.
Local Open Scope N_scope.

Theorem C09_never_no_advertise : forall f s pfx r b,
  has_comm NO_ADVERTISE b -> export_with f s pfx (PBgp r b) = None.
Proof. intros f s pfx r b H. apply excluded_none. rewrite exported_iff. tauto. Qed.
Print Assumptions C09_never_no_advertise.

Theorem C09_never_no_export_to_ebgp : forall f s pfx r b,
  s_ibgp s = false -> has_comm NO_EXPORT b -> export_with f s pfx (PBgp r b) = None.
Proof. intros f s pfx r b Hi H. apply excluded_none. rewrite exported_iff. tauto. Qed.
Print Assumptions C09_never_no_export_to_ebgp.

Theorem C09_never_back_to_source : forall f s pfx r b,
  b_src b = s_peerip s -> export_with f s pfx (PBgp r b) = None.
Proof. intros f s pfx r b H. apply excluded_none. rewrite exported_iff. tauto. Qed.
Print Assumptions C09_never_back_to_source.

Theorem C09_never_ibgp_to_nonclient_ibgp : forall f s pfx r b,
  s_ibgp s = true -> s_rrclient s = false -> b_ebgp b = false ->
  export_with f s pfx (PBgp r b) = None.
Proof. intros f s pfx r b H1 H2 H3. apply excluded_none. rewrite exported_iff. tauto. Qed.
Print Assumptions C09_never_ibgp_to_nonclient_ibgp.

Theorem C09_never_otc_to_provider_peer_rs : forall f s pfx r b,
  peer_is s [role_provider; role_peer; role_rs] -> b_otc b <> 0 ->
  export_with f s pfx (PBgp r b) = None.
Proof. intros f s pfx r b H1 H2. apply excluded_none. rewrite exported_iff. tauto. Qed.
Print Assumptions C09_never_otc_to_provider_peer_rs.

(* nothing else is held back: a path none of the five rules excludes is exported *)
Theorem C09_eligible_is_exported : forall s pfx r b,
  ~ has_comm NO_ADVERTISE b ->
  (s_ibgp s = false -> ~ has_comm NO_EXPORT b) ->
  b_src b <> s_peerip s ->
  (s_ibgp s = true -> s_rrclient s = false -> b_ebgp b = true) ->
  (peer_is s [role_provider; role_peer; role_rs] -> b_otc b = 0) ->
  exists q, export_with accept_all s pfx (PBgp r b) = Some q.
Proof.
  intros s pfx r b NA NE NS NI NO. apply exported_iff. repeat split; try assumption.
  - intros [A [B C]]. rewrite (NI A B) in C. discriminate.
  - intros [A B]. auto.
Qed.
Print Assumptions C09_eligible_is_exported.

(* ---- rewrites (rewrite s r b = what the export policy is handed; r = RedistributedFrom) *)

Theorem C09_rewrites_ebgp : forall s r b b',
  s_ibgp s = false -> s_rsclient s = false -> rewrite s r b = Some b' ->
  b_nh b' = s_localip s /\ asn_prepended (s_localasn s) b b' /\ b_aslen b' = as_length (b_aspath b').
Proof. exact rewrites_ebgp. Qed.
Print Assumptions C09_rewrites_ebgp.

Theorem C09_rewrites_rs_client_transparent : forall s r b b',
  s_ibgp s = false -> s_rsclient s = true -> rewrite s r b = Some b' ->
  b_nh b' = b_nh b /\ b_aspath b' = b_aspath b /\ b_aslen b' = b_aslen b.
Proof. intros s r b b' Hi Hrs H. pose proof (rewrite_ebgp_base s r b b' Hi H) as E. now rewrite Hrs in E. Qed.
Print Assumptions C09_rewrites_rs_client_transparent.

(* a reflected route (r = 0: learned via BGP) to an RR client, in the table and on the wire *)
Theorem C09_rewrites_rr_client : forall s b b',
  s_ibgp s = true -> s_rrclient s = true -> rewrite s 0 b = Some b' ->
  b_oid b' = (if N.eqb (b_oid b) 0 then b_src b else b_oid b) /\
  b_cl b' = Some (s_clusterid s :: olist (b_cl b)) /\
  on_wire s b' (WOriginator (b_oid b')) /\
  on_wire s b' (WClusterList (s_clusterid s :: olist (b_cl b))).
Proof. exact rewrites_rr_client. Qed.
Print Assumptions C09_rewrites_rr_client.

Theorem C09_rewrites_otc_added : forall s r b b',
  peer_is s [role_customer; role_peer; role_rs_client] -> b_otc b = 0 ->
  rewrite s r b = Some b' -> b_otc b' = s_localasn s.
Proof.
  intros s r b b' [Hi [Hon Hr]] Hotc H. pose proof (rewrite_otc s r b Hi) as M. rewrite H in M.
  destruct M as [_ ->]. apply role_in_iff in Hr. unfold role_customer, role_peer, role_rs_client in Hr.
  now rewrite Hon, Hotc, Hr.
Qed.
Print Assumptions C09_rewrites_otc_added.

Theorem C09_rewrites_otc_kept : forall s r b b',
  s_ibgp s = false -> b_otc b <> 0 -> rewrite s r b = Some b' -> b_otc b' = b_otc b.
Proof.
  intros s r b b' Hi Hotc H. pose proof (rewrite_otc s r b Hi) as M. rewrite H in M.
  destruct M as [_ ->]. apply N.eqb_neq in Hotc. now rewrite Hotc, andb_false_r.
Qed.
Print Assumptions C09_rewrites_otc_kept.

(* the OTC egress rules as one exhaustive table over the role codes *)
Theorem C09_role_matrix : forall s r b,
  s_ibgp s = false -> s_role_on s = true ->
  match rewrite s r b with
  | None => b_otc b <> 0 /\ In (s_role s) [role_provider; role_peer; role_rs]
  | Some b' =>
    (b_otc b = 0 \/ ~ In (s_role s) [role_provider; role_peer; role_rs]) /\
    b_otc b' = (if N.eqb (b_otc b) 0 && role_in (s_role s) [role_customer; role_peer; role_rs_client]
                then s_localasn s else b_otc b)
  end.
Proof.
  intros s r b Hi Hon. pose proof (rewrite_otc s r b Hi) as M. rewrite Hon in M.
  destruct (rewrite s r b); [|tauto]. destruct M as [A B]. auto.
Qed.
Print Assumptions C09_role_matrix.

Theorem C09_localpref_only_ibgp : forall s b,
  (exists l, on_wire s b (WLocalPref l)) <-> s_ibgp s = true.
Proof. exact localpref_only_ibgp. Qed.
Print Assumptions C09_localpref_only_ibgp.

(* ---- known finding: "OTC is added towards customers, peers and RS clients" holds in the Adj-RIB-Out
   (C09_rewrites_otc_added = the partial statement) but not on the wire: PathAttributes has no element for
   BGPPathA.OnlyToCustomer and there is no encoder for attribute 35 *)
Theorem C09_rewrites_otc_on_wire_refuted :
  exists s b b',
    peer_is s [role_customer; role_peer; role_rs_client] /\ rewrite s 0 b = Some b' /\
    b_otc b' = s_localasn s /\ forall a, on_wire s b' a -> wcode a <> 35.
Proof.
  exists otc_sess, otc_path.
  assert (Pe : peer_is otc_sess [role_customer; role_peer; role_rs_client]) by (repeat split; now left).
  destruct (rewrite otc_sess 0 otc_path) as [b'|] eqn:E; [|vm_compute in E; discriminate].
  exists b'. split; [exact Pe|]. split; [reflexivity|].
  split; [exact (C09_rewrites_otc_added otc_sess 0 otc_path b' Pe eq_refl E)|].
  intros a. apply otc_not_on_wire. vm_compute in E. now inversion E.
Qed.
Print Assumptions C09_rewrites_otc_on_wire_refuted.

(* Non-vacuity: one eBGP-learned path through the four session kinds *)
Definition ex_p : bgp :=
  mkBgp 50529027 50529027 100 0 50529027 0 None true false 0 0 [(true, [65001])] 1 None None None [] 0.
Definition ex_s (ibgp rs rr : bool) : sess := mkSess ibgp rs rr false 65000 16843009 33686018 9 false 0.

Example C09_example_kinds :
  (exists q, export_with accept_all (ex_s false false false) 0 (PBgp 0 ex_p) = Some (PBgp 0 q) /\
             b_aspath q = [(true, [65000; 65001])] /\ b_nh q = 16843009 /\ b_aslen q = 2) /\
  export_with accept_all (ex_s false true false) 0 (PBgp 0 ex_p) = Some (PBgp 0 ex_p) /\
  export_with accept_all (ex_s true false false) 0 (PBgp 0 ex_p) = Some (PBgp 0 ex_p) /\
  (exists q, export_with accept_all (ex_s true false true) 0 (PBgp 0 ex_p) = Some (PBgp 0 q) /\
             b_oid q = 50529027 /\ b_cl q = Some [9]).
Proof. vm_compute. repeat split; eexists; repeat split. Qed.
