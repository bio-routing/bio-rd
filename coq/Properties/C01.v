(* C01 - Routing table lookups agree with a prefix-map model (IPv4 and IPv6).
   Model: Model/Trie.v = routingtable/trie.go + table.go (+ what LocRIB does to the table),
   with prefixes as bit strings of any length (Lib/BitPfx.v), so one statement covers IPv4,
   IPv6 and every prefix length, /0 and host routes included.
   Spec: Spec/TrieSpec.v = association list prefix -> non-empty list of paths.
   The statements hold for every path type P and every path test peq that is reflexive
   (Go: a path Compare()s/Equal()s to itself); paths are never nil. *)
From Coq Require Import List ZArith Permutation.
Import ListNotations.
From BioVerif Require Import Model.NetArith Spec.NetSpec Gen.NetGen Model.TrieNet Proofs.TrieNetInstance.
From BioVerif Require Import Lib.BitPfx Model.Trie Model.TrieRaw Spec.TrieSpec Proofs.TrieProofs.

Section C01.
  Variable P : Type.
  Variable peq : P -> P -> bool.
  Hypothesis peq_refl : forall a, peq a a = true.

  (* exact lookup returns exactly the paths currently stored for that prefix (or nothing) *)
  Theorem C01_get : forall (ops : list (bop P)) (q : bits),
    bt_get P (b_run P peq ops) q = spec_get P (spec_run P peq ops) q.
  Proof. exact (fun ops q => proj1 (Inv_refines P _ _ q (Inv_run P peq peq_refl ops))). Qed.

  (* the covering lookup lists exactly the stored prefixes that contain or equal the query *)
  Theorem C01_lpm : forall (ops : list (bop P)) (q : bits),
    Permutation (bt_lpm P (b_run P peq ops) q)
                (filter (fun e => beq (fst e) q || bcontains (fst e) q) (spec_run P peq ops)).
  Proof. exact (fun ops q => proj1 (proj2 (Inv_refines P _ _ q (Inv_run P peq peq_refl ops)))). Qed.

  (* the more-specifics lookup lists the query (if stored) and every stored prefix inside it,
     whether or not the query itself is stored *)
  Theorem C01_getLonger : forall (ops : list (bop P)) (q : bits),
    Permutation (bt_getLonger P (b_run P peq ops) q)
                (filter (fun e => beq (fst e) q || bcontains q (fst e)) (spec_run P peq ops)).
  Proof. exact (fun ops q => proj1 (proj2 (proj2 (Inv_refines P _ _ q (Inv_run P peq peq_refl ops))))). Qed.

  (* the dump lists each stored prefix, with its paths, exactly once *)
  Theorem C01_dump : forall ops : list (bop P),
    Permutation (bt_dump P (b_run P peq ops)) (spec_run P peq ops) /\
    NoDup (map fst (bt_dump P (b_run P peq ops))).
  Proof. exact (fun ops => Inv_dump P _ _ (Inv_run P peq peq_refl ops)). Qed.

  (* the route count is the number of stored prefixes *)
  Theorem C01_count : forall ops : list (bop P),
    bt_count P (b_run P peq ops) = Z.of_nat (length (spec_run P peq ops)).
  Proof. intros ops. apply (Inv_run P peq peq_refl ops). Qed.

  (* the map is a map: no prefix twice, no prefix without paths *)
  Theorem C01_spec_is_a_map : forall ops : list (bop P),
    NoDup (map fst (spec_run P peq ops)) /\
    forall q ps, lookup P (spec_run P peq ops) q = Some ps -> ps <> [].
  Proof. intros ops. destruct (Inv_run P peq peq_refl ops) as (_ & _ & N & E & _). exact (conj N E). Qed.

  Theorem C01_refines : forall (ops : list (bop P)) (q : bits),
    let t := b_run P peq ops in
    let m := spec_run P peq ops in
    bt_get P t q = spec_get P m q /\
    Permutation (bt_lpm P t q) (spec_lpm P m q) /\
    Permutation (bt_getLonger P t q) (spec_longer P m q) /\
    Permutation (bt_dump P t) m /\ NoDup (map fst (bt_dump P t)) /\
    bt_count P t = Z.of_nat (length m).
  Proof.
    exact (fun ops q => Inv_refines P _ _ q (Inv_run P peq peq_refl ops)).
  Qed.

  (* the same statement for the trie whose prefix operations are the MACHINE-WORD functions of
     package net (Model/NetArith.v = the transcription of net/prefix.go, net/ip.go that C15 proves
     correct; Model/TrieNet.v = the trie instantiated with them): for every history over canonical
     prefixes (canon fam p := wf_pfx p /\ legacy (addr p) = fam /\ Valid p = true: 64-bit words, the
     family's flag, len <= 32 resp. 128, no host bit set) and every canonical query.  bits_of p = the
     first len bits of the address; bits_route / bits_op apply it to a route / an operation.
     Proof: Proofs/TrieSim.v (generic simulation) + Proofs/TrieNetInstance.v (interface obligations
     from the C15 theorems) + the bit-string theorems above. *)
  Theorem C01_refines_ipv4 : forall (ops : list (nop P)) (q : pfx),
    Forall (canon_op P true) ops -> canon true q ->
    let t := n_run P peq ops in
    let m := spec_run P peq (map (bits_op P) ops) in
    option_map (bits_route P) (nt_get P t q) = spec_get P m (bits_of q) /\
    Permutation (map (bits_route P) (nt_lpm P t q)) (spec_lpm P m (bits_of q)) /\
    Permutation (map (bits_route P) (nt_getLonger P t q)) (spec_longer P m (bits_of q)) /\
    Permutation (map (bits_route P) (nt_dump P t)) m /\
    NoDup (map fst (nt_dump P t)) /\
    nt_count P t = Z.of_nat (length m).
  Proof.
    exact (sim_refines P peq peq_refl true pfx_equal Contains n_supernet n_bitAt
             (ob_equal true) (ob_contains true) (ob_bit true) (ob_supernet true)).
  Qed.

  Theorem C01_refines_ipv6 : forall (ops : list (nop P)) (q : pfx),
    Forall (canon_op P false) ops -> canon false q ->
    let t := n_run P peq ops in
    let m := spec_run P peq (map (bits_op P) ops) in
    option_map (bits_route P) (nt_get P t q) = spec_get P m (bits_of q) /\
    Permutation (map (bits_route P) (nt_lpm P t q)) (spec_lpm P m (bits_of q)) /\
    Permutation (map (bits_route P) (nt_getLonger P t q)) (spec_longer P m (bits_of q)) /\
    Permutation (map (bits_route P) (nt_dump P t)) m /\
    NoDup (map fst (nt_dump P t)) /\
    nt_count P t = Z.of_nat (length m).
  Proof.
    exact (sim_refines P peq peq_refl false pfx_equal Contains n_supernet n_bitAt
             (ob_equal false) (ob_contains false) (ob_bit false) (ob_supernet false)).
  Qed.

  (* ... and for the trie whose prefix operations are the definitions REGENERATED from the Go source
     on this run (Gen/NetGen.v by tools/gosub2coq; Proofs/TrieNetGen.v shows Equal, Contains,
     GetSupernet, BitAtPosition equal to the transcription and stops compiling when one of them
     changes its meaning) *)
  Theorem C01_refines_ipv4_gen : forall (ops : list (nop P)) (q : pfx),
    Forall (canon_op P true) ops -> canon true q ->
    let t := g_run P peq ops in
    let m := spec_run P peq (map (bits_op P) ops) in
    option_map (bits_route P) (gt_get P t q) = spec_get P m (bits_of q) /\
    Permutation (map (bits_route P) (gt_lpm P t q)) (spec_lpm P m (bits_of q)) /\
    Permutation (map (bits_route P) (gt_getLonger P t q)) (spec_longer P m (bits_of q)) /\
    Permutation (map (bits_route P) (nt_dump P t)) m /\
    NoDup (map fst (nt_dump P t)) /\
    nt_count P t = Z.of_nat (length m).
  Proof.
    exact (sim_refines P peq peq_refl true g_Prefix_Equal g_Prefix_Contains g_supernet g_bitAt
             (obg_equal true) (obg_contains true) (obg_bit true) (obg_supernet true)).
  Qed.

  Theorem C01_refines_ipv6_gen : forall (ops : list (nop P)) (q : pfx),
    Forall (canon_op P false) ops -> canon false q ->
    let t := g_run P peq ops in
    let m := spec_run P peq (map (bits_op P) ops) in
    option_map (bits_route P) (gt_get P t q) = spec_get P m (bits_of q) /\
    Permutation (map (bits_route P) (gt_lpm P t q)) (spec_lpm P m (bits_of q)) /\
    Permutation (map (bits_route P) (gt_getLonger P t q)) (spec_longer P m (bits_of q)) /\
    Permutation (map (bits_route P) (nt_dump P t)) m /\
    NoDup (map fst (nt_dump P t)) /\
    nt_count P t = Z.of_nat (length m).
  Proof.
    exact (sim_refines P peq peq_refl false g_Prefix_Equal g_Prefix_Contains g_supernet g_bitAt
             (obg_equal false) (obg_contains false) (obg_bit false) (obg_supernet false)).
  Qed.
End C01.

Print Assumptions C01_get.
Print Assumptions C01_lpm.
Print Assumptions C01_getLonger.
Print Assumptions C01_dump.
Print Assumptions C01_count.
Print Assumptions C01_spec_is_a_map.
Print Assumptions C01_refines.
Print Assumptions C01_refines_ipv4.
Print Assumptions C01_refines_ipv6.
Print Assumptions C01_refines_ipv4_gen.
Print Assumptions C01_refines_ipv6_gen.

(* Why "canonical prefixes" is an assumption and not a convenience: the same trie code fed with
   Go prefixes whose host bits are set (Model/TrieRaw.v, IPv4; tied to the code by the "rn" stream
   of the correspondence check) is NOT a prefix map.  After AddPath(10.0.0.0/8), AddPath(10.0.0.1/8)
   the first route cannot be found any more, the dump lists one route and the count says two. *)
Theorem C01_noncanonical_refuted :
  exists p1 p2 : rpfx, p1 <> p2 /\
    let t := r_run N N.eqb [Add _ _ p1 1%N; Add _ _ p2 2%N] in
    rt_get N t p1 = None /\ rt_dump N t = [(p2, [2%N])] /\ rt_count N t = 2%Z.
Proof.
  exists (ipv4_prefix [false;false;false;false;true;false;true;false] false 8),
         (ipv4_prefix [false;false;false;false;true;false;true;false] true 8).
  split; [discriminate|]. vm_compute. repeat split.
Qed.
Print Assumptions C01_noncanonical_refuted.

(* ... the same on the machine-word model of package net (10.0.0.0/8 = 0x0a000000, 10.0.0.1/8): Equal says
   "different", neither Contains the other, so the trie builds a supernet node 10.0.0.0/7 and hangs both below it
   ON THE SAME SIDE: the second overwrites the first *)
Theorem C01_noncanonical_refuted_words :
  exists p1 p2 : pfx, p1 <> p2 /\ wf_pfx p1 /\ wf_pfx p2 /\ Valid p1 = true /\ Valid p2 = false /\
    let t := n_run N N.eqb [Add _ _ p1 1%N; Add _ _ p2 2%N] in
    nt_get N t p1 = None /\ nt_dump N t = [(p2, [2%N])] /\ nt_count N t = 2%Z.
Proof.
  exists w_ten8, (mkpfx (IPv4 167772161) 8). unfold wf_pfx, wf_ip.
  repeat split; vm_compute; first [reflexivity | discriminate].
Qed.
Print Assumptions C01_noncanonical_refuted_words.

(* the hypotheses of C01_refines_ipv4/6 are satisfiable on a non-trivial history: 10.0.0.0/9 and
   10.128.0.0/9 (dummy supernet 10.0.0.0/8), GetLonger of the absent 10.0.0.0/8; 2001:db8::/32 and ::/0 *)
Example C01_example_words : net_example_statement.
Proof.
  unfold net_example_statement, canon, wf_pfx, wf_ip.
  repeat split; vm_compute; first [reflexivity | discriminate].
Qed.

(* paths = N, the instance the correspondence check runs.  1011/4 and 1000/4 first hang under a
   dummy 10/2, which the third Add turns into a stored node; 100/3 is never stored. *)
Example C01_example_history :
  let ops := [Add bits N [true;false;true;true] 1%N; Add _ _ [true;false;false;false] 2%N;
              Add _ _ [true;false] 3%N; Add _ _ [true;false] 4%N;
              Remove _ _ [true;false] 3%N; Remove _ _ [true;false;true;true] 1%N;
              Add _ _ [true;false;true;true] 5%N; Replace _ _ [false] 6%N;
              RemovePfx _ _ [false]; Subst _ _ [true;false] 4%N 7%N] in
  let t := b_run N N.eqb ops in
  bt_get N t [true;false] = Some ([true;false], [7%N]) /\
  bt_get N t [true;false;false] = None /\
  bt_lpm N t [true;false;false;false] = [([true;false], [7%N]); ([true;false;false;false], [2%N])] /\
  (* more specifics of a prefix that is not stored *)
  bt_getLonger N t [true;false;false] = [([true;false;false;false], [2%N])] /\
  bt_getLonger N t [true] =
    [([true;false], [7%N]); ([true;false;false;false], [2%N]); ([true;false;true;true], [5%N])] /\
  bt_count N t = 3%Z /\ length (spec_run N N.eqb ops) = 3%nat.
Proof. vm_compute. repeat split. Qed.
