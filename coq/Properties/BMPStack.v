(* BMPStack - the BMP receiver with its BGP layer instantiated by the verified component models
   (registered under C27; the mirror statement is C28's).  Model/BMPStack.v: BMPRouter's `open_decode` :=
   BGPCodec.decodeOpen + capability conversion, `upd_apply` := BGPCodec.decode, conversion to UpdateApply's
   input and the per-NLRI reading message_ops (C20_per_nlri: exactly what UpdateApply.process_update does),
   for IPv4 then IPv6 unicast. *)
From Coq Require Import List NArith.
Import ListNotations.
From BioVerif Require Model.BGPCodec Model.UpdateApply.
From BioVerif Require Import Model.BMPCodec Model.BMPRouter Model.BMPStack Spec.BMPMirrorSpec
  Proofs.BMPCodecProofs Proofs.BMPMirrorProofs Proofs.BMPStackProofs.
Open Scope N_scope.

(* For ALL byte streams, router states and configurations nothing in the stack panics or loops: not the BMP
   framing, decoders and handlers (C27_no_panic / C27_fuel with the BGP layer instantiated), not the BGP
   decoder on any carried message under any decode options of a pseudo session nor on any OPEN body
   (C16_no_panic / C16_fuel_suffices), not the update application on any UPDATE the decoder can hand over,
   for either address family and any Adj-RIB-In state (C20_no_panic; the converted message is well typed). *)
Theorem BMPStack_no_panic : forall (c : cfg) (st : rstate) (s : bytes), bytes_ok s ->
  (forall k f, stack_serve c st s <> SPanic k f) /\ stack_serve c st s <> SFuel /\
  (forall ap4 ap6 a32 b,
     match fst (BGPCodec.decode (S (length b)) (stack_options ap4 ap6 a32) b) with
     | BGPCodec.Panic _ => False | BGPCodec.OutOfFuel => False | _ => True end) /\
  (forall body,
     match fst (BGPCodec.decodeOpen (S (length body)) body 0) with
     | BGPCodec.Panic _ => False | BGPCodec.OutOfFuel => False | _ => True end) /\
  (forall afi safi u s', exists s'', UpdateApply.process_update afi safi (conv_update u) s' = UpdateApply.Done s'').
Proof.
  intros c st s _. unfold stack_serve.
  destruct (BMPServeProofs.serve_no_panic stack_open_decode stack_upd_apply c st s) as (A & B).
  split; [exact A|]. split; [exact B|]. split; [|split].
  - intros ap4 ap6 a32 b.
    destruct (BGPCodecProofs.total_bounded (stack_options ap4 ap6 a32) b) as [(m & r & al & -> & _)|(al & -> & _)];
      exact I.
  - intros body. pose proof (BGPCodecProofs.good_decodeOpen _ 0 0 body 0 (le_n _)) as H.
    destruct (BGPCodec.decodeOpen _ body 0) as [[a r| | |] al]; cbn [fst]; auto.
  - intros. apply UpdateApplyProofs.no_panic, conv_update_well_typed.
Qed.
Print Assumptions BMPStack_no_panic.

(* Allocation of the whole stack while serving a stream of L bytes - receive buffers, BMP decoders
   (C27_alloc_proportional: 975 * L + 5800) and every length-driven allocation of the BGP decoder on the carried
   messages that reach it (C16_alloc_bounded: 65535 + 3 * length each; OPEN decoding allocates nothing) - is at
   most 11901 * L + 5800. *)
Theorem BMPStack_alloc_proportional : forall (c : cfg) (st : rstate) (s : bytes), bytes_ok s ->
  stack_alloc c st s <= 11901 * len s + 5800.
Proof. exact stack_alloc_linear. Qed.
Print Assumptions BMPStack_alloc_proportional.

(* C28's mirror statement with "announced" / "withdrawn" DEFINED by decoding the route monitoring payload
   with the codec model and reading it NLRI by NLRI: for every byte-level history that is well formed (wf,
   evaluated with the instantiated layer) under a configuration without IgnorePeerASNs. Guards and known
   findings are inherited unchanged: C28's (ignored peers, paths the pseudo session hides) through wf, C19's
   (an UPDATE whose attributes overrun TotalPathAttrLen is accepted) through the codec model itself, which
   accepts exactly what packet.Decode accepts. *)
Theorem BMPStack_mirror : forall (c : cfg), ignore_asns c = [] ->
  forall acts, wf stack_open_decode stack_upd_apply c acts = true ->
  mirror_holds stack_open_decode stack_upd_apply c acts.
Proof. exact (mirror stack_open_decode stack_upd_apply). Qed.
Print Assumptions BMPStack_mirror.

(* ---- computed examples on real BMP byte strings (built by harness/bmpx conventions): monitored router
   10.0.0.1 (AS 65001), peer 10.0.0.2 (AS 65010, global VRF, add-path for IPv4 negotiated in the OPENs) *)
Definition sx_init : bytes :=
  [3; 0; 0; 0; 12; 4; 0; 2; 0; 2; 114; 49].
Definition sx_up : bytes :=
  [3; 0; 0; 0; 142; 3; 0; 32; 0; 0; 0; 0; 0; 0; 0; 0; 0; 0; 0; 0; 0; 0; 0; 0; 0; 0; 0; 0; 10; 0; 0; 2;
   0; 0; 253; 242; 10; 0; 0; 2; 0; 0; 3; 232; 0; 0; 0; 0; 0; 0; 0; 0; 0; 0; 0; 0; 0; 0; 0; 0; 10; 0; 0; 1;
   0; 179; 156; 64; 255; 255; 255; 255; 255; 255; 255; 255; 255; 255; 255; 255; 255; 255; 255; 255; 0; 37; 1; 4; 253; 233; 0; 180; 10; 0; 0; 1;
   8; 2; 6; 69; 4; 0; 1; 1; 3; 255; 255; 255; 255; 255; 255; 255; 255; 255; 255; 255; 255; 255; 255; 255; 255; 0; 37; 1; 4; 253; 242; 0;
   180; 10; 0; 0; 2; 8; 2; 6; 69; 4; 0; 1; 1; 3].
Definition sx_ann12 : bytes :=
  [3; 0; 0; 0; 109; 0; 0; 32; 0; 0; 0; 0; 0; 0; 0; 0; 0; 0; 0; 0; 0; 0; 0; 0; 0; 0; 0; 0; 10; 0; 0; 2;
   0; 0; 253; 242; 10; 0; 0; 2; 0; 0; 3; 232; 0; 0; 0; 0; 255; 255; 255; 255; 255; 255; 255; 255; 255; 255; 255; 255; 255; 255; 255; 255;
   0; 61; 2; 0; 0; 0; 22; 64; 1; 1; 0; 64; 2; 8; 2; 3; 253; 242; 253; 233; 254; 76; 64; 3; 4; 10; 0; 0; 2; 0; 0; 0;
   1; 24; 10; 1; 1; 0; 0; 0; 2; 24; 10; 1; 2].
Definition sx_ann_id2 : bytes :=
  [3; 0; 0; 0; 101; 0; 0; 32; 0; 0; 0; 0; 0; 0; 0; 0; 0; 0; 0; 0; 0; 0; 0; 0; 0; 0; 0; 0; 10; 0; 0; 2;
   0; 0; 253; 242; 10; 0; 0; 2; 0; 0; 3; 232; 0; 0; 0; 0; 255; 255; 255; 255; 255; 255; 255; 255; 255; 255; 255; 255; 255; 255; 255; 255;
   0; 53; 2; 0; 0; 0; 22; 64; 1; 1; 0; 64; 2; 8; 2; 3; 253; 242; 253; 233; 254; 76; 64; 3; 4; 10; 0; 0; 2; 0; 0; 0;
   2; 24; 10; 1; 1].
Definition sx_wd_id1 : bytes :=
  [3; 0; 0; 0; 79; 0; 0; 32; 0; 0; 0; 0; 0; 0; 0; 0; 0; 0; 0; 0; 0; 0; 0; 0; 0; 0; 0; 0; 10; 0; 0; 2;
   0; 0; 253; 242; 10; 0; 0; 2; 0; 0; 3; 232; 0; 0; 0; 0; 255; 255; 255; 255; 255; 255; 255; 255; 255; 255; 255; 255; 255; 255; 255; 255;
   0; 31; 2; 0; 8; 0; 0; 0; 1; 24; 10; 1; 1; 0; 0].
Definition sx_down : bytes :=
  [3; 0; 0; 0; 49; 2; 0; 32; 0; 0; 0; 0; 0; 0; 0; 0; 0; 0; 0; 0; 0; 0; 0; 0; 0; 0; 0; 0; 10; 0; 0; 2;
   0; 0; 253; 242; 10; 0; 0; 2; 0; 0; 3; 232; 0; 0; 0; 0; 4].
Definition sx_rm_open : bytes :=
  [3; 0; 0; 0; 77; 0; 0; 32; 0; 0; 0; 0; 0; 0; 0; 0; 0; 0; 0; 0; 0; 0; 0; 0; 0; 0; 0; 0; 10; 0; 0; 2;
   0; 0; 253; 242; 10; 0; 0; 2; 0; 0; 3; 232; 0; 0; 0; 0; 255; 255; 255; 255; 255; 255; 255; 255; 255; 255; 255; 255; 255; 255; 255; 255;
   0; 29; 1; 4; 253; 242; 0; 180; 10; 0; 0; 2; 0].
Definition sx_rm_cut : bytes :=
  [3; 0; 0; 0; 88; 0; 0; 32; 0; 0; 0; 0; 0; 0; 0; 0; 0; 0; 0; 0; 0; 0; 0; 0; 0; 0; 0; 0; 10; 0; 0; 2;
   0; 0; 253; 242; 10; 0; 0; 2; 0; 0; 3; 232; 0; 0; 0; 0; 255; 255; 255; 255; 255; 255; 255; 255; 255; 255; 255; 255; 255; 255; 255; 255;
   0; 61; 2; 0; 0; 0; 22; 64; 1; 1; 0; 64; 2; 8; 2; 3; 253; 242; 253; 233; 254; 76; 64; 3].
Definition sx_rm_badattr : bytes :=
  [3; 0; 0; 0; 101; 0; 0; 32; 0; 0; 0; 0; 0; 0; 0; 0; 0; 0; 0; 0; 0; 0; 0; 0; 0; 0; 0; 0; 10; 0; 0; 2;
   0; 0; 253; 242; 10; 0; 0; 2; 0; 0; 3; 232; 0; 0; 0; 0; 255; 255; 255; 255; 255; 255; 255; 255; 255; 255; 255; 255; 255; 255; 255; 255;
   0; 53; 2; 0; 0; 0; 22; 64; 2; 200; 0; 64; 2; 8; 2; 3; 253; 242; 253; 233; 254; 76; 64; 3; 4; 10; 0; 0; 2; 0; 0; 0;
   1; 24; 10; 1; 1].
Definition sx_up_badopen : bytes :=
  [3; 0; 0; 0; 142; 3; 0; 32; 0; 0; 0; 0; 0; 0; 0; 0; 0; 0; 0; 0; 0; 0; 0; 0; 0; 0; 0; 0; 10; 0; 0; 2;
   0; 0; 253; 242; 10; 0; 0; 2; 0; 0; 3; 232; 0; 0; 0; 0; 0; 0; 0; 0; 0; 0; 0; 0; 0; 0; 0; 0; 10; 0; 0; 1;
   0; 179; 156; 64; 255; 255; 255; 255; 255; 255; 255; 255; 255; 255; 255; 255; 255; 255; 255; 255; 0; 37; 1; 4; 253; 233; 0; 180; 10; 0; 0; 1;
   8; 2; 6; 69; 4; 0; 1; 1; 9; 255; 255; 255; 255; 255; 255; 255; 255; 255; 255; 255; 255; 255; 255; 255; 255; 0; 37; 1; 4; 253; 242; 0;
   180; 10; 0; 0; 2; 8; 2; 6; 69; 4; 0; 1; 1; 3].

Definition sx_cfg : cfg := mk_cfg [] false false.
Definition sx_peer : src := (false, 167772162).
Definition sx_hist : list action :=
  [AFrame sx_init; AFrame sx_up; AObserve 1 0 false; AFrame sx_ann12; AFrame sx_ann_id2; AFrame sx_wd_id1].

(* the OPENs and the UPDATEs are decoded by the codec model: add-path is on, one UPDATE announces two NLRI
   with their own identifiers (and an AS_PATH containing the router's own AS), a second path of 10.1.1.0/24
   is added, the first withdrawn *)
Example BMPStack_example_mirror :
  wf stack_open_decode stack_upd_apply sx_cfg sx_hist = true /\
  exists st, stack_run sx_cfg init sx_hist = Some st /\
    map (fun n => (n_ap4 n, n_ap6 n, n_localas n, n_rid n)) (r_nbrs st) = [(true, false, 65001, 167772161)] /\
    table st 0 false = [(sx_peer, (167837952, 24), 2); (sx_peer, (167838208, 24), 2)] /\
    live (trace stack_open_decode stack_upd_apply sx_cfg sx_hist) (0, 167772162) false ((167837952, 24), 2) = true /\
    live (trace stack_open_decode stack_upd_apply sx_cfg sx_hist) (0, 167772162) false ((167837952, 24), 1) = false.
Proof. split; [vm_compute; reflexivity|]. eexists. vm_compute. repeat split; reflexivity. Qed.

(* hostile content inside well-framed BMP messages: an OPEN where an UPDATE belongs, a truncated UPDATE, an
   attribute length running past the message, a peer up whose sent OPEN has a wrong parameter length - the
   session goes on, nothing is installed, and the peer down / end of stream clean up *)
Definition sx_hostile : bytes :=
  sx_init ++ sx_up_badopen ++ sx_up ++ sx_rm_open ++ sx_rm_cut ++ sx_rm_badattr ++ sx_ann12 ++ sx_down.
Example BMPStack_example_hostile :
  exists st, stack_serve sx_cfg init sx_hostile = SDone st 37678 8 /\
    r_counters st = [4; 0; 1; 2; 1; 0; 0] /\ r_nbrs st = [] /\ r_vrfs st = [].
Proof. eexists. vm_compute. repeat split; reflexivity. Qed.

(* the whole stack's allocation on that stream (BMP layer 37678 + 30 in the BGP decoder), against the bound *)
Example BMPStack_example_alloc :
  stack_alloc sx_cfg init sx_hostile = 37708 /\ len sx_hostile = 720 /\
  37708 <= 11901 * 720 + 5800.
Proof. vm_compute. repeat split; intros H; discriminate H. Qed.
